(** Proofs about the remote-call model [Rtc/Server.v], for every action list. *)
From Remoc Require Import Lib.Base Rtc.Lin Rtc.Server.
From RecordUpdate Require Import RecordUpdate.

#[local] Arguments N.to_nat : simpl never.
#[local] Arguments N.of_nat : simpl never.

Lemma nth_error_upd {A} (f : A -> A) l n m :
  nth_error (upd n f l) m = if Nat.eqb n m then option_map f (nth_error l m) else nth_error l m.
Proof.
  revert n m. induction l as [|y t IH]; intros [|n] [|m]; cbn [upd nth_error Nat.eqb option_map]; auto.
  now destruct (Nat.eqb n m).
Qed.

Lemma upd_none {A} (f : A -> A) l n : nth_error l n = None -> upd n f l = l.
Proof. revert n. induction l as [|y t IH]; intros [|n]; cbn [upd nth_error]; auto; [discriminate|]. intros H. now rewrite IH. Qed.

Lemma in_upd {A} (f : A -> A) l n y : In y (upd n f l) -> In y l \/ exists x, nth_error l n = Some x /\ y = f x.
Proof.
  revert n. induction l as [|x t IH]; intros [|n]; cbn [upd]; intros H; try contradiction.
  - destruct H as [<-|H]; [right; exists x; split; reflexivity|left; now right].
  - destruct H as [<-|H]; [left; now left|]. apply IH in H as [H|H]; [left; now right|right; exact H].
Qed.

Lemma in_del {A} (l : list A) n y : In y (del n l) -> In y l.
Proof.
  revert n. induction l as [|x t IH]; intros [|n]; cbn [del]; intros H; try contradiction.
  - now right.
  - destruct H as [<-|H]; [now left|right; eauto].
Qed.

Lemma del_length {A} (l : list A) n x : nth_error l n = Some x -> S (length (del n l)) = length l.
Proof.
  revert n. induction l as [|y t IH]; intros [|n]; cbn [del nth_error length]; try discriminate; auto.
Qed.

Lemma upd_split {A} (f : A -> A) (l : list A) n x : nth_error l n = Some x ->
  exists l1 l2, l = l1 ++ x :: l2 /\ upd n f l = l1 ++ f x :: l2.
Proof.
  revert n. induction l as [|y t IH]; intros [|n]; cbn [upd nth_error]; try discriminate.
  - intros [= ->]. exists [], t. split; reflexivity.
  - intros H. destruct (IH _ H) as (l1 & l2 & -> & E). exists (y :: l1), l2. cbn [app]. now rewrite E.
Qed.

Lemma flat_map_rev1 {A B} (f : A -> list B) l :
  (forall x, (length (f x) <= 1)%nat) -> flat_map f (rev l) = rev (flat_map f l).
Proof.
  intros Hf. induction l as [|x t IH]; [reflexivity|].
  cbn [rev flat_map]. rewrite flat_map_app, IH. cbn [flat_map]. rewrite app_nil_r, rev_app_distr.
  f_equal. specialize (Hf x). destruct (f x) as [|y [|z u]]; cbn in *; auto; lia.
Qed.

Lemma flat_map_split {A B} (f : A -> list B) l : (forall x, (length (f x) <= 1)%nat) ->
  forall l1 y l2, flat_map f l = l1 ++ y :: l2 ->
  exists la x lb, l = la ++ x :: lb /\ f x = [y] /\ flat_map f la = l1 /\ flat_map f lb = l2.
Proof.
  intros Hf. induction l as [|x t IH]; intros l1 y l2 E.
  - destruct l1; discriminate.
  - cbn [flat_map] in E. pose proof (Hf x) as Hx. destruct (f x) as [|z [|z' u]] eqn:Ef; cbn in Hx; [| |lia].
    + cbn [app] in E. destruct (IH _ _ _ E) as (la & x0 & lb & -> & H1 & H2 & H3).
      exists (x :: la), x0, lb. repeat split; auto. cbn [flat_map]. now rewrite Ef, H2.
    + cbn [app] in E. destruct l1 as [|w l1]; cbn [app] in E; injection E as -> E.
      * exists [], x, t. repeat split; auto.
      * destruct (IH _ _ _ E) as (la & x0 & lb & -> & H1 & H2 & H3).
        exists (x :: la), x0, lb. repeat split; auto. cbn [flat_map app]. now rewrite Ef, H2.
Qed.

Lemma nth_split {A} (l : list A) n x : nth_error l n = Some x ->
  exists l1 l2, l = l1 ++ x :: l2 /\ del n l = l1 ++ l2 /\ forall f, upd n f l = l1 ++ f x :: l2.
Proof.
  revert n. induction l as [|y t IH]; intros [|n]; cbn [nth_error del upd]; try discriminate.
  - intros [= ->]. exists [], t. auto.
  - intros H. destruct (IH _ H) as (l1 & l2 & -> & E2 & E3). exists (y :: l1), l2. cbn [app].
    split; [reflexivity|]. split; [now rewrite E2|intros f; now rewrite E3].
Qed.

Fixpoint cnt (i : N) (l : list N) : nat :=
  match l with
  | [] => O
  | j :: t => (if j =? i then 1 else 0) + cnt i t
  end.

Lemma cnt_app i l1 l2 : cnt i (l1 ++ l2) = (cnt i l1 + cnt i l2)%nat.
Proof. induction l1 as [|x t IH]; cbn [cnt app]; lia. Qed.

Lemma cnt_flat_map_split {A} (g : A -> list N) i l1 x l2 :
  cnt i (flat_map g (l1 ++ x :: l2)) = (cnt i (flat_map g (l1 ++ l2)) + cnt i (g x))%nat.
Proof. rewrite !flat_map_app. cbn [flat_map]. rewrite !cnt_app. lia. Qed.

Lemma cnt_pos i l : (0 < cnt i l)%nat <-> In i l.
Proof.
  induction l as [|x t IH]; cbn [cnt In]; [lia|]. rewrite <- IH. destruct (N.eqb_spec x i); [split; [auto|lia]|].
  split; [auto|intros [H|H]; [contradiction|exact H]].
Qed.

Lemma NoDup_cnt l : (forall i, (cnt i l <= 1)%nat) -> NoDup l.
Proof.
  induction l as [|x t IH]; intros H; constructor.
  - intros Hin. apply cnt_pos in Hin. specialize (H x). cbn [cnt] in H. rewrite N.eqb_refl in H. lia.
  - apply IH. intros i. specialize (H i). cbn [cnt] in H. lia.
Qed.

Section Proofs.
Context {St Arg Rep : Type}.
Variable apply : St -> call Arg -> St * Rep.
Variable too_big : call Arg -> Rep -> bool.

Notation sys := (sys St Arg Rep).
Notation step := (step apply too_big).
Notation run := (run apply too_big).
Notation poll_h := (poll_h apply too_big).
Notation loop_step := (loop_step apply too_big).
Notation task_step := (task_step apply too_big).
Notation ev := (ev Arg Rep).
Notation crec := (crec Arg Rep).
Notation req := (req Arg).
Notation handler := (handler St Arg Rep).
Notation lin_entry := (@lin_entry (call Arg) Rep).

(** [prj]: in the goal, the fields of a state written with record updates and the [set_*] helpers *)
Ltac prj :=
  cbn [flav spawn pol reperr calls clients wire cut qclosed target lst queue loop tasks sends errq rd wr uerrs trace
       set RecordSet.set ev_add upd_call set_slot set_st set_closed
       cr_client cr_call cr_st cr_closed cr_slot q_cell q_call h_req h_ph h_lk].
(** the one change [slot_killed] allows: the reply slot of [c] dead (if [b]) *)
Definition kill (b : bool) (c : crec) : crec :=
  if b then mkC (cr_client c) (cr_call c) (cr_st c) (cr_closed c) SDead else c.

Lemma get_call_upd_call (s : sys) i f j :
  get_call (upd_call i f s) j = if i =? j then option_map f (get_call s j) else get_call s j.
Proof.
  unfold get_call, upd_call. prj. rewrite nth_error_upd.
  destruct (N.eqb_spec i j) as [->|H]; [now rewrite Nat.eqb_refl|].
  destruct (Nat.eqb_spec (N.to_nat i) (N.to_nat j)); [lia|reflexivity].
Qed.

Lemma upd_call_some (s : sys) i f j : get_call s j <> None -> get_call (upd_call i f s) j <> None.
Proof. rewrite get_call_upd_call. destruct (i =? j), (get_call s j); cbn [option_map]; congruence. Qed.

Definition released (m : lockm) (s s' : sys) : Prop :=
  match m with
  | LkNone => rd s' = rd s /\ wr s' = wr s
  | LkRead => rd s' = rd s - 1 /\ wr s' = wr s
  | LkWrite => rd s' = rd s /\ wr s' = false
  end.

(** [release] writes [rd] and [wr] only, [drop_queue] and [lose_wire] write [calls] only: after rewriting
    with these equations every other field of the new state is a field of the old one by computation. *)
Lemma release_eq m (s : sys) :
  release m s = s <| rd := match m with LkRead => rd s - 1 | _ => rd s end |>
                  <| wr := match m with LkWrite => false | _ => wr s end |>.
Proof. destruct s, m; reflexivity. Qed.

Lemma drop_queue_eq q : forall s : sys, drop_queue q s = s <| calls := calls (drop_queue q s) |>.
Proof.
  induction q as [|[r| | |] t IH]; intros s; cbn [drop_queue]; try apply IH; [destruct s; reflexivity|].
  rewrite IH at 1. reflexivity.
Qed.

Lemma lose_wire_eq w : forall s : sys, lose_wire w s = s <| calls := calls (lose_wire w s) |>.
Proof.
  induction w as [|[cl r] t IH]; intros s; cbn [lose_wire]; [destruct s; reflexivity|].
  rewrite IH at 1. reflexivity.
Qed.

Lemma finish_eq r (s : sys) :
  finish r s = s <| calls := calls (drop_queue (queue s) s) |> <| queue := [] |> <| loop := LDone r |>
                 <| trace := ESrvDone r :: trace s |>.
Proof. unfold finish. rewrite drop_queue_eq at 1. reflexivity. Qed.

Lemma stop_now_eq (s : sys) :
  stop_now s = s <| calls := calls (drop_queue (queue s) s) |> <| queue := [] |> <| loop := LDone ROk |>.
Proof. unfold stop_now. rewrite drop_queue_eq at 1. reflexivity. Qed.

(** a step changes a call record only in its state, closed flag and slot; [same_call] is what stays *)
Definition same_call (c c' : crec) : Prop := cr_client c' = cr_client c /\ cr_call c' = cr_call c.
Definition slot_killed (c c' : crec) : Prop :=
  same_call c c' /\ cr_st c' = cr_st c /\ (cr_slot c' = cr_slot c \/ cr_slot c' = SDead).

Definition rel_calls (R : crec -> crec -> Prop) (s s' : sys) : Prop :=
  forall j, match get_call s j, get_call s' j with
            | Some c, Some c' => R c c'
            | None, None => True
            | _, _ => False
            end.

Lemma slot_killed_refl c : slot_killed c c.
Proof. unfold slot_killed, same_call. auto. Qed.
Lemma slot_killed_trans a b c : slot_killed a b -> slot_killed b c -> slot_killed a c.
Proof.
  unfold slot_killed, same_call. intros ((H1 & H2) & H3 & H4) ((H5 & H6) & H7 & H8).
  repeat split; try congruence. destruct H8 as [H8|H8]; [|now right]. rewrite H8. exact H4.
Qed.

Lemma rel_calls_refl (s : sys) : rel_calls slot_killed s s.
Proof. intros j. destruct (get_call s j); auto using slot_killed_refl. Qed.
Lemma rel_calls_trans (s1 s2 s3 : sys) :
  rel_calls slot_killed s1 s2 -> rel_calls slot_killed s2 s3 -> rel_calls slot_killed s1 s3.
Proof.
  intros H1 H2 j. specialize (H1 j). specialize (H2 j).
  destruct (get_call s1 j), (get_call s2 j), (get_call s3 j); try contradiction; auto.
  eapply slot_killed_trans; eauto.
Qed.

Lemma rel_set_slot_dead (s : sys) i : rel_calls slot_killed s (set_slot i SDead s).
Proof.
  intros j. unfold set_slot. rewrite get_call_upd_call.
  destruct (i =? j); destruct (get_call s j); cbn [option_map]; auto using slot_killed_refl.
  unfold slot_killed, same_call. prj. auto.
Qed.

Lemma drop_queue_killed q : forall s : sys, rel_calls slot_killed s (drop_queue q s).
Proof.
  induction q as [|[r| | |] t IH]; intros s; cbn [drop_queue]; auto using rel_calls_refl.
  eapply rel_calls_trans; [apply rel_set_slot_dead|apply IH].
Qed.

Lemma lose_wire_killed w : forall s : sys, rel_calls slot_killed s (lose_wire w s).
Proof.
  induction w as [|[cl r] t IH]; intros s; cbn [lose_wire]; auto using rel_calls_refl.
  eapply rel_calls_trans; [apply rel_set_slot_dead|apply IH].
Qed.

(** the method has returned [r]: guard released, reply handed to the transport (or dropped) *)
Definition reply (s : sys) (h : handler) (r : Rep) : sys :=
  let i := q_cell (h_req h) in
  let s1 := release (h_lk h) (ev_add (EFinish i) s) in
  if is_closed s i then set_slot i SDead s1
  else if too_big (q_call (h_req h)) r then set_slot i SDead s1 <| sends := sends s1 ++ [reperr s] |>
  else set_slot i (SVal r) s1 <| sends := sends s1 ++ [false] |>.

Inductive polled (s : sys) (h : handler) : sys -> option handler -> Prop :=
| PoCancel : negb (c_nocancel (q_call (h_req h))) && is_closed s (q_cell (h_req h)) = true ->
    polled s h (abandon s h) None
| PoStall : h_ph h = PNew -> target s = None -> polled s h s (Some h)
| PoStart t : h_ph h = PNew -> target s = Some t ->
    polled s h (ev_add (EStart (q_cell (h_req h))) s
                  <| target := match c_kind (q_call (h_req h)) with KVal => None | _ => target s end |>)
               (Some (mkH (h_req h) (PRun t) (h_lk h)))
| PoExec t : h_ph h = PRun t ->
    polled s h (ev_add (EExec (q_cell (h_req h)) (q_call (h_req h)) (snd (apply t (q_call (h_req h)))))
                  (s <| target := if is_mut (q_call (h_req h)) then Some (fst (apply t (q_call (h_req h)))) else target s |>
                     <| lst := if is_mut (q_call (h_req h)) then fst (apply t (q_call (h_req h))) else lst s |>))
               (Some (mkH (h_req h) (PApplied (snd (apply t (q_call (h_req h))))) (h_lk h)))
| PoReply r : h_ph h = PApplied r -> polled s h (reply s h r) None.

Lemma poll_h_cases (s : sys) h : polled s h (fst (poll_h s h)) (snd (poll_h s h)).
Proof.
  unfold Server.poll_h. cbv zeta.
  destruct (negb _ && _) eqn:E; [exact (PoCancel s h E)|].
  destruct (h_ph h) as [|t|r] eqn:Eph.
  - destruct (target s) as [t|] eqn:Et; [|now apply PoStall].
    pose proof (PoStart s h t Eph Et) as H. rewrite Et in H. destruct s. cbn in *. subst. destruct (c_kind _); exact H.
  - pose proof (PoExec s h t Eph) as H. unfold is_mut in H.
    destruct (apply t _) as [t' r]. destruct s. cbn in *. destruct (c_kind _); exact H.
  - exact (PoReply s h r Eph).
Qed.

Lemma polled_fields (s : sys) h s1 oh : polled s h s1 oh -> loop s1 = loop s /\ tasks s1 = tasks s /\ flav s1 = flav s.
Proof.
  intros [H| | | |r Hr]; try (repeat split; fail).
  - unfold abandon. rewrite release_eq. repeat split.
  - unfold reply. destruct (is_closed _ _); [|destruct (too_big _ _)]; rewrite release_eq; repeat split.
Qed.

Lemma polled_of (s : sys) h s1 oh : poll_h s h = (s1, oh) -> polled s h s1 oh.
Proof. intros E. pose proof (poll_h_cases s h) as P. now rewrite E in P. Qed.

(** One step of the serve loop: its outcomes.  [s1] below is [s] with the head of the queue taken off. *)
Definition lock_for (f : flavour) (k : kind) : lockm :=
  match f with
  | FSharedMut => match k with KMut => LkWrite | _ => LkRead end
  | _ => LkNone
  end.

Inductive looped (s : sys) : sys -> Prop :=
| LoSame : looped s s
| LoFinish r : loop s = LIdle \/ loop s = LDrain -> (r = RErrReply -> errq s <> 0) -> r <> RErrReq -> looped s (finish r s)
| LoDrop q rest : loop s = LIdle -> queue s = QReq q :: rest -> supports (flav s) (c_kind (q_call q)) = false ->
    looped s (set_slot (q_cell q) SDead (s <| queue := rest |>))
| LoWait q rest : loop s = LIdle -> queue s = QReq q :: rest -> supports (flav s) (c_kind (q_call q)) = true ->
    flav s = FSharedMut ->
    looped s (s <| queue := rest |> <| loop := LWait q (lock_for FSharedMut (c_kind (q_call q))) |>)
| LoSpawn q rest : loop s = LIdle -> queue s = QReq q :: rest -> supports (flav s) (c_kind (q_call q)) = true ->
    flav s = FShared ->
    looped s (s <| queue := rest |> <| tasks := tasks s ++ [mkH q PNew LkNone] |>)
| LoRun q rest : loop s = LIdle -> queue s = QReq q :: rest -> supports (flav s) (c_kind (q_call q)) = true ->
    lock_for (flav s) (c_kind (q_call q)) = LkNone ->
    looped s (s <| queue := rest |> <| loop := LRun (mkH q PNew LkNone) |>)
| LoBad rest : loop s = LIdle -> queue s = QBad :: rest ->
    looped s (let s1 := ev_add EReqErr (s <| queue := rest |>) in
              match pol s with PIgnore => s1 | PSend => s1 <| uerrs := uerrs s + 1 |> | PFail => finish RErrReq s1 end)
| LoClose : loop s = LIdle -> looped s (s <| loop := LDrain |>)
| LoReadSpawn q m : loop s = LWait q m -> m <> LkWrite -> wr s = false ->
    looped s (s <| rd := rd s + 1 |> <| tasks := tasks s ++ [mkH q PNew LkRead] |> <| loop := LIdle |>)
| LoReadRun q m : loop s = LWait q m -> m <> LkWrite -> wr s = false ->
    looped s (s <| rd := rd s + 1 |> <| loop := LRun (mkH q PNew LkRead) |>)
| LoWrite q : loop s = LWait q LkWrite -> wr s = false -> rd s = 0 ->
    looped s (s <| wr := true |> <| loop := LRun (mkH q PNew LkWrite) |>)
| LoPoll h s1 oh : loop s = LRun h -> polled s h s1 oh ->
    looped s (s1 <| loop := match oh with Some h' => LRun h' | None => after_handler s h end |>).

Lemma loop_step_cases (s : sys) : looped s (loop_step s).
Proof.
  unfold Server.loop_step. destruct (loop s) as [|q m|h| |r] eqn:El.
  - destruct (N.ltb_spec 0 (errq s)); [apply LoFinish; [auto|clear - H; lia|discriminate]|].
    destruct (queue s) as [|[q| | |] rest] eqn:Eq; [apply LoSame| |now apply LoBad|now apply LoClose..].
    unfold dispatch. prj. destruct (supports _ _) eqn:Es; cbn [negb]; [|now apply LoDrop].
    destruct (flav s) eqn:Ef; rewrite <- Ef in Es; try (apply LoRun; auto; now rewrite Ef).
    + destruct (spawn s); [apply LoSpawn; auto|apply LoRun; auto; now rewrite Ef].
    + apply LoWait; auto.
  - destruct m; (destruct (wr s) eqn:Ew; cbn [negb andb]; [apply LoSame|]).
    1,2: destruct (spawn s); [eapply LoReadSpawn|eapply LoReadRun]; eauto; discriminate.
    destruct (N.eqb_spec (rd s) 0); [now apply LoWrite|apply LoSame].
  - destruct (poll_h s h) as [s1 oh] eqn:Ep. apply polled_of in Ep. destruct oh; exact (LoPoll s h s1 _ El Ep).
  - destruct (N.ltb_spec 0 (errq s)); [apply LoFinish; [auto|clear - H; lia|discriminate]|].
    destruct (tasks s); [destruct (sends s)|]; try apply LoSame. apply LoFinish; [auto|discriminate..].
  - apply LoSame.
Qed.

Definition ev_id (e : ev) : option N :=
  match e with
  | EInv i _ _ | ERet i _ | EDropCall i | EStart i | EExec i _ _ | EFinish i | ECancel i | ESkip i => Some i
  | _ => None
  end.

Fixpoint wf_tr (tr : list ev) : Prop :=
  match tr with
  | [] => True
  | e :: t =>
      match e with
      | EInv i _ _ => forall e', In e' t -> ev_id e' <> Some i
      | EExec i c _ => exists cl, In (EInv i cl c) t
      | ERet i (OVal r) => exists c, In (EExec i c r) t
      | _ => True
      end /\ wf_tr t
  end.

Definition qreqs (q : list (qitem Arg)) : list req :=
  flat_map (fun x => match x with QReq r => [r] | _ => [] end) q.
Definition loop_hs (l : lstate St Arg Rep) : list handler := match l with LRun h => [h] | _ => [] end.
Definition loop_waits (l : lstate St Arg Rep) : list req := match l with LWait q _ => [q] | _ => [] end.
Definition handlers (s : sys) : list handler := loop_hs (loop s) ++ tasks s.

Lemma qreqs_app (a b : list (qitem Arg)) : qreqs (a ++ b) = qreqs a ++ qreqs b.
Proof. apply flat_map_app. Qed.
Lemma qreqs_nil : qreqs [] = [].
Proof. reflexivity. Qed.
Lemma qreqs_cons (x : qitem Arg) t : qreqs (x :: t) = match x with QReq r => [r] | _ => [] end ++ qreqs t.
Proof. reflexivity. Qed.

(** A request is in exactly one of four places: on the wire, in the queue, held by the loop ([ws]: waiting
    for the lock, or just taken from the queue) or held by a handler ([hs]).  Until its effect is applied it
    is a token for its reply cell; the tokens of a cell, the executions logged for it and its caller not
    having sent yet add up to at most one. *)
Definition hcell (h : handler) : list N := match h_ph h with PApplied _ => [] | _ => [q_cell (h_req h)] end.
Definition reqs_of (s : sys) (ws : list req) (hs : list handler) : list req :=
  map snd (wire s) ++ qreqs (queue s) ++ ws ++ map h_req hs.
Definition cells_of (s : sys) (ws : list req) (hs : list handler) : list N :=
  map q_cell (map snd (wire s)) ++ map q_cell (qreqs (queue s)) ++ map q_cell ws ++ flat_map hcell hs.
Definition tok_init (g : N -> option crec) (i : N) : nat :=
  match g i with Some c => match cr_st c with CInit => 1%nat | _ => O end | None => O end.

Definition req_ok (g : N -> option crec) (q : req) : Prop := exists cr, g (q_cell q) = Some cr /\ cr_call cr = q_call q.

(** The invariant is a record over what it reads of the state -- the call records, the trace, the requests and
    their cells -- so that it holds of [s'] as soon as it holds of [s] and these are convertible. *)
Record invA_ (g : N -> option crec) (tr : list ev) (rs : list req) (cl : list N) (hs : list handler) : Prop := {
  a_calls : forall i cr, g i = Some cr -> In (EInv i (cr_client cr) (cr_call cr)) tr;
  a_ids : forall e i, In e tr -> ev_id e = Some i -> g i <> None;
  a_reqs : forall q, In q rs -> req_ok g q;
  a_tok : forall i, (tok_init g i + cnt i cl + execs i tr <= 1)%nat;
  a_app : forall h r, In h hs -> h_ph h = PApplied r -> In (EExec (q_cell (h_req h)) (q_call (h_req h)) r) tr;
  a_slot : forall i cr r, g i = Some cr -> cr_slot cr = SVal r \/ cr_slot cr = SGot r -> In (EExec i (cr_call cr) r) tr;
  a_wf : wf_tr tr;
}.

Definition invA (s : sys) (ws : list req) (hs : list handler) : Prop :=
  invA_ (get_call s) (trace s) (reqs_of s ws hs) (cells_of s ws hs) hs.

Definition InvA (s : sys) : Prop := invA s (loop_waits (loop s)) (handlers s).

(** what a step that executes nothing may do to the record of call [j]: the call stays the same, it does not
    go back to [CInit], and a result in its slot was there before or is that of a logged execution of [j] *)
Definition evolved (s : sys) (j : N) (c c' : crec) : Prop :=
  same_call c c' /\ (cr_st c' = CInit -> cr_st c = CInit) /\
  (forall r, cr_slot c' = SVal r \/ cr_slot c' = SGot r ->
             cr_slot c = SVal r \/ cr_slot c = SGot r \/ In (EExec j (cr_call c) r) (trace s)).

Definition evolves (s s' : sys) : Prop :=
  forall j, match get_call s j, get_call s' j with
            | Some c, Some c' => evolved s j c c'
            | None, None => True
            | _, _ => False
            end.

Lemma killed_evolves (s s' : sys) : rel_calls slot_killed s s' -> evolves s s'.
Proof.
  intros H j. specialize (H j). destruct (get_call s j) as [c|], (get_call s' j) as [c'|]; auto.
  destruct H as (H1 & H2 & H3). split; [exact H1|]. split; [congruence|].
  intros r Hr. destruct H3 as [H3|H3]; rewrite H3 in Hr; [tauto|]. destruct Hr; discriminate.
Qed.

Lemma evolves_refl s : evolves s s.
Proof. apply killed_evolves, rel_calls_refl. Qed.

Lemma evolves_trans_killed (s1 s2 s3 : sys) :
  rel_calls slot_killed s1 s2 -> rel_calls slot_killed s2 s3 -> evolves s1 s3.
Proof. intros. apply killed_evolves. eapply rel_calls_trans; eauto. Qed.

Lemma evolves_trans (s1 s2 s3 : sys) : trace s2 = trace s1 -> evolves s1 s2 -> evolves s2 s3 -> evolves s1 s3.
Proof.
  intros Et H1 H2 j. specialize (H1 j). specialize (H2 j).
  destruct (get_call s1 j) as [a|], (get_call s2 j) as [b|], (get_call s3 j) as [c|]; try contradiction; auto.
  destruct H1 as ((A1 & A2) & A3 & A4), H2 as ((B1 & B2) & B3 & B4).
  split; [split; congruence|]. split; [tauto|].
  intros r Hr. destruct (B4 r Hr) as [H|[H|H]]; [apply A4; tauto|apply A4; tauto|].
  right. right. rewrite Et, A2 in H. exact H.
Qed.

Lemma evolves_upd_call (s : sys) i f :
  (forall c, get_call s i = Some c -> evolved s i c (f c)) -> evolves s (upd_call i f s).
Proof.
  intros H j. rewrite get_call_upd_call. destruct (N.eqb_spec i j) as [<-|_]; [|apply (evolves_refl s j)].
  destruct (get_call s i) as [c|]; cbn [option_map]; auto.
Qed.

Lemma evolves_set_slot_dead (s : sys) i : evolves s (set_slot i SDead s).
Proof. apply killed_evolves, rel_set_slot_dead. Qed.

Lemma evolves_set_st (s : sys) i v : v <> CInit -> evolves s (set_st i v s).
Proof. intros Hv. apply evolves_upd_call. intros c _. repeat split; prj; tauto. Qed.

Definition entry_of (e : ev) : list lin_entry := match e with EExec i c r => [(i, c, r)] | _ => [] end.
Definition exec_entries (tr : list ev) : list lin_entry := flat_map entry_of tr.
Definition ids (l : list lin_entry) : list N := map le_id l.

Lemma in_exec_entries i c r tr : In (i, c, r) (exec_entries tr) <-> In (EExec i c r) tr.
Proof.
  unfold exec_entries. rewrite in_flat_map. split.
  - intros (e & He & Hin). destruct e; cbn in Hin; try contradiction. destruct Hin as [[= -> -> ->]|[]]. exact He.
  - intros H. exists (EExec i c r). split; [exact H|now left].
Qed.

Lemma execs_cnt i tr : execs i tr = cnt i (ids (exec_entries tr)).
Proof. induction tr as [|e t IH]; [reflexivity|]. destruct e; cbn [execs]; rewrite IH; reflexivity. Qed.

Lemma execs_pos i (tr : list ev) : (0 < execs i tr)%nat <-> exists c r, In (EExec i c r) tr.
Proof.
  rewrite execs_cnt, cnt_pos. unfold ids. rewrite in_map_iff. split.
  - intros ([[j c] r] & <- & H). exists c, r. now apply in_exec_entries.
  - intros (c & r & H). exists (i, c, r). split; [reflexivity|now apply in_exec_entries].
Qed.

Lemma cells_reqs (s : sys) ws hs i : In i (cells_of s ws hs) -> exists q, In q (reqs_of s ws hs) /\ q_cell q = i.
Proof.
  unfold cells_of, reqs_of. rewrite !in_app_iff. intros [H|[H|[H|H]]].
  - apply in_map_iff in H as (q & <- & H). exists q. rewrite !in_app_iff. auto.
  - apply in_map_iff in H as (q & <- & H). exists q. rewrite !in_app_iff. auto.
  - apply in_map_iff in H as (q & <- & H). exists q. rewrite !in_app_iff. auto.
  - apply in_flat_map in H as (h & H1 & H2). unfold hcell in H2. exists (h_req h). rewrite !in_app_iff. split.
    + right. right. right. now apply in_map.
    + destruct (h_ph h); cbn in H2; intuition.
Qed.

Lemma invA_shrink (s s' : sys) ws hs ws' hs' :
  invA s ws hs ->
  trace s' = trace s -> evolves s s' ->
  incl (reqs_of s' ws' hs') (reqs_of s ws hs) ->
  (forall i, (cnt i (cells_of s' ws' hs') <= cnt i (cells_of s ws hs))%nat) ->
  (forall h r, In h hs' -> h_ph h = PApplied r -> In h hs) ->
  invA s' ws' hs'.
Proof.
  intros [Ac Ai Ar At Aa As Aw] Etr Hev Hq Hc Hh.
  assert (Hget : forall j c', get_call s' j = Some c' -> exists c, get_call s j = Some c /\ evolved s j c c').
  { intros j c' E. specialize (Hev j). rewrite E in Hev. destruct (get_call s j) as [c|]; [|contradiction]. eauto. }
  split; rewrite ?Etr.
  - intros i cr E. destruct (Hget _ _ E) as (c & E0 & (H1 & H2) & _). rewrite H1, H2. auto.
  - intros e i He Hid E. apply (Ai e i He Hid). specialize (Hev i). rewrite E in Hev. destruct (get_call s i); [contradiction|reflexivity].
  - intros q Hin. destruct (Ar q (Hq q Hin)) as (cr & E & Ec). specialize (Hev (q_cell q)). rewrite E in Hev.
    destruct (get_call s' (q_cell q)) as [c'|] eqn:E'; [|contradiction]. exists c'. split; [exact E'|].
    destruct Hev as ((_ & H2) & _). congruence.
  - intros i. specialize (At i). specialize (Hc i). enough (tok_init (get_call s') i <= tok_init (get_call s) i)%nat as Hle by (clear - At Hc Hle; lia).
    unfold tok_init. specialize (Hev i). destruct (get_call s i) as [c|], (get_call s' i) as [c'|]; try contradiction; auto.
    destruct Hev as (_ & H & _). destruct (cr_st c') eqn:E'; try (clear; lia). rewrite (H eq_refl). clear. lia.
  - intros h r Hin Hp. apply Aa; eauto.
  - intros i cr r E Hs. destruct (Hget _ _ E) as (c & E0 & (H1 & H2) & _ & H3). rewrite H2.
    destruct (H3 r Hs) as [H|[H|H]]; eauto.
  - exact Aw.
Qed.

Lemma invA_frame (s s' : sys) ws hs :
  invA s ws hs -> trace s' = trace s -> evolves s s' ->
  map snd (wire s') = map snd (wire s) -> qreqs (queue s') = qreqs (queue s) -> invA s' ws hs.
Proof.
  intros HA Et Hev Ew Eq. eapply invA_shrink; [exact HA|exact Et|exact Hev| | |exact (fun _ _ H _ => H)].
  - unfold reqs_of. rewrite Ew, Eq. apply incl_refl.
  - intros i. unfold cells_of. now rewrite Ew, Eq.
Qed.

Definition ev_pre (tr : list ev) (e : ev) : Prop :=
  match e with
  | EInv _ _ _ | EExec _ _ _ => False
  | ERet i (OVal r) => exists c, In (EExec i c r) tr
  | _ => True
  end.

Lemma invA_ev (s : sys) ws hs e :
  invA s ws hs -> ev_pre (trace s) e -> (forall i, ev_id e = Some i -> get_call s i <> None) ->
  invA (ev_add e s) ws hs.
Proof.
  intros [Ac Ai Ar At Aa As Aw] Hp Hid.
  assert (Hex : forall i, execs i (e :: trace s) = execs i (trace s)).
  { intros i. destruct e; try reflexivity. contradiction. }
  split; unfold ev_add; prj.
  - intros i cr E. right. exact (Ac i cr E).
  - intros e0 i [<-|He] Hi; [exact (Hid i Hi)|exact (Ai e0 i He Hi)].
  - exact Ar.
  - intros i. rewrite Hex. exact (At i).
  - intros h r Hin Hph. right. eauto.
  - intros i cr r E Hs. right. eauto.
  - cbn [wf_tr]. split; [|exact Aw]. destruct e as [| i [r|] | | | | | | | |]; try exact I; try contradiction. exact Hp.
Qed.

(** The moves of a request, each without any other change.
    [reqs]: an inclusion between two [reqs_of] lists, both brought to appended form, by the inclusion lemmas of lists;
    [cells]: an inequality between the [cnt] of two [cells_of] lists, brought to a sum over the four places, by [lia]. *)
Ltac reqs := unfold reqs_of; prj; rewrite ?qreqs_app, ?qreqs_cons, ?qreqs_nil, ?map_app; cbn [map snd app];
  repeat (apply incl_app || apply incl_cons); auto 9 using incl_nil_l with datatypes.
Ltac cells := unfold cells_of; prj; rewrite ?qreqs_app, ?qreqs_cons, ?qreqs_nil, ?map_app, ?flat_map_app;
  repeat (rewrite ?cnt_app, ?map_app; cbn [cnt flat_map app map snd hcell h_ph h_req q_cell]); clear; lia.

Lemma invA_dequeue (s : sys) q rest ws hs :
  queue s = QReq q :: rest -> invA s ws hs -> invA (s <| queue := rest |>) (q :: ws) hs.
Proof.
  intros Eq HA. eapply invA_shrink; [exact HA|reflexivity|exact (evolves_refl s)| | |exact (fun _ _ H _ => H)].
  - unfold reqs_of. rewrite Eq. reqs.
  - intros i. unfold cells_of. rewrite Eq. cells.
Qed.

Lemma invA_enqueue (s : sys) q ws hs :
  invA s (q :: ws) hs -> invA (s <| queue := queue s ++ [QReq q] |>) ws hs.
Proof.
  intros HA. eapply invA_shrink; [exact HA|reflexivity|exact (evolves_refl s)| | |exact (fun _ _ H _ => H)].
  - reqs.
  - intros i. cells.
Qed.

Lemma invA_unwire (s : sys) k cl q ws hs :
  nth_error (wire s) k = Some (cl, q) -> invA s ws hs -> invA (s <| wire := del k (wire s) |>) (q :: ws) hs.
Proof.
  intros Ek HA. destruct (nth_split _ _ _ Ek) as (l1 & l2 & Ew & Ed & _).
  eapply invA_shrink; [exact HA|reflexivity|exact (evolves_refl s)| | |exact (fun _ _ H _ => H)].
  - unfold reqs_of. prj. rewrite Ed, Ew. reqs.
  - intros i. unfold cells_of. prj. rewrite Ed, Ew. cells.
Qed.

Lemma invA_kill_held (s : sys) q ws hs : invA s (q :: ws) hs -> invA (set_slot (q_cell q) SDead s) ws hs.
Proof.
  intros HA. eapply invA_shrink; [exact HA|reflexivity|apply evolves_set_slot_dead| | |exact (fun _ _ H _ => H)].
  - reqs.
  - intros i. cells.
Qed.

Lemma invA_start (s : sys) q lk ws h1 h2 :
  invA s (q :: ws) (h1 ++ h2) -> invA s ws (h1 ++ mkH q PNew lk :: h2).
Proof.
  intros HA. eapply invA_shrink; [exact HA|reflexivity|exact (evolves_refl s)| | |].
  - reqs.
  - intros i. cells.
  - intros h r. rewrite !in_app_iff. cbn [In]. intros [H|[<-|H]] Hp; auto; discriminate.
Qed.

Lemma invA_drop_queue (s s' : sys) ws hs :
  invA s ws hs -> trace s' = trace s -> calls s' = calls (drop_queue (queue s) s) -> wire s' = wire s -> queue s' = [] ->
  invA s' ws hs.
Proof.
  intros HA Et Ec Ew Eq. eapply invA_shrink; [exact HA|exact Et| | | |exact (fun _ _ H _ => H)].
  - intros j. unfold get_call. rewrite Ec. apply (killed_evolves _ _ (drop_queue_killed (queue s) s) j).
  - unfold reqs_of. rewrite Ew, Eq. reqs.
  - intros i. unfold cells_of. rewrite Ew, Eq. cells.
Qed.

Lemma invA_remove (s s' : sys) ws H1 h H2 :
  invA s ws (H1 ++ h :: H2) -> trace s' = trace s -> evolves s s' -> wire s' = wire s -> queue s' = queue s ->
  invA s' ws (H1 ++ H2).
Proof.
  intros HA Et Hev Ew Eq. eapply invA_shrink; [exact HA|exact Et|exact Hev| | |].
  - unfold reqs_of. rewrite Ew, Eq. reqs.
  - intros i. unfold cells_of. rewrite Ew, Eq. cells.
  - intros h0 r. rewrite !in_app_iff. cbn [In]. tauto.
Qed.

Lemma invA_handler (s : sys) ws H1 h H2 : invA s ws (H1 ++ h :: H2) -> req_ok (get_call s) (h_req h).
Proof. intros HA. apply (a_reqs _ _ _ _ _ HA). unfold reqs_of. rewrite map_app, !in_app_iff. cbn [map In]. tauto. Qed.

Lemma abandon_invA (s : sys) ws H1 h H2 : invA s ws (H1 ++ h :: H2) -> invA (abandon s h) ws (H1 ++ H2).
Proof.
  intros HA. destruct (invA_handler _ _ _ _ _ HA) as (cr & E & _). unfold abandon. rewrite release_eq. apply invA_ev.
  - eapply invA_remove; [exact HA|reflexivity|apply evolves_set_slot_dead|reflexivity..].
  - destruct (h_ph h); exact I.
  - intros j Hj. assert (j = q_cell (h_req h)) as -> by (destruct (h_ph h); cbn in Hj; congruence).
    apply (upd_call_some s). congruence.
Qed.

Definition olist {A} (o : option A) : list A := match o with Some x => [x] | None => [] end.

(** the effect of the method is applied: the token of the request becomes the logged execution *)
Lemma invA_exec (s : sys) ws H1 h H2 t r :
  invA s ws (H1 ++ h :: H2) -> h_ph h = PRun t ->
  invA (ev_add (EExec (q_cell (h_req h)) (q_call (h_req h)) r) s) ws (H1 ++ mkH (h_req h) (PApplied r) (h_lk h) :: H2).
Proof.
  intros HA Eph. destruct (invA_handler _ _ _ _ _ HA) as (cr & E & Ecall).
  destruct HA as [Ac Ai Ar At Aa As Aw].
  split; unfold ev_add, tok_init, req_ok, get_call in *; prj.
  - intros j cr0 E0. right. eauto.
  - intros e j [<-|He] Hj; [injection Hj as <-; congruence|eauto].
  - intros q Hq. apply Ar. refine ((_ : incl _ _) q Hq). reqs.
  - intros j. specialize (At j). revert At. unfold cells_of. prj. rewrite !flat_map_app, !cnt_app. cbn [flat_map execs hcell h_ph].
    replace (hcell h) with [q_cell (h_req h)] by (unfold hcell; now rewrite Eph). rewrite !cnt_app. cbn [cnt app]. clear. destruct (_ =? j); lia.
  - intros h0 r0. rewrite in_app_iff. cbn [In]. intros [H|[<-|H]] Hp.
    + right. apply Aa; auto. apply in_or_app. now left.
    + injection Hp as <-. now left.
    + right. apply Aa; auto. apply in_or_app. right. now right.
  - intros j cr0 r0 E0 Hs. right. eauto.
  - cbn [wf_tr]. split; [|exact Aw]. exists (cr_client cr). rewrite <- Ecall. apply Ac. exact E.
Qed.

Lemma polled_invA (s : sys) ws H1 h H2 s1 oh :
  invA s ws (H1 ++ h :: H2) -> polled s h s1 oh -> invA s1 ws (H1 ++ olist oh ++ H2).
Proof.
  intros HA. destruct (invA_handler _ _ _ _ _ HA) as (cr & E & Ecall).
  assert (Hex : forall j, Some (q_cell (h_req h)) = Some j -> get_call s j <> None) by (intros j [= <-]; congruence).
  intros [Hc|Eph Et|t Eph Et|t Eph|r Eph]; cbn [olist app].
  - apply abandon_invA, HA.
  - exact HA.
  - apply (invA_ev s _ _ (EStart (q_cell (h_req h)))); [|exact I|exact Hex].
    eapply invA_shrink; [exact HA|reflexivity|apply evolves_refl| | |].
    + reqs.
    + intros j. unfold cells_of. rewrite !flat_map_app. cbn [flat_map hcell h_ph h_req].
      replace (hcell h) with [q_cell (h_req h)] by (unfold hcell; now rewrite Eph). apply Nat.le_refl.
    + intros h0 r. rewrite !in_app_iff. cbn [In]. intros [H|[<-|H]] Hp; auto. discriminate.
  - exact (invA_exec _ _ _ _ _ _ _ HA Eph).
  - assert (Hr : In (EExec (q_cell (h_req h)) (cr_call cr) r) (trace s)).
    { rewrite Ecall. apply (a_app _ _ _ _ _ HA h r); [apply in_or_app; right; now left|exact Eph]. }
    assert (H0 : invA (release (h_lk h) (ev_add (EFinish (q_cell (h_req h))) s)) ws (H1 ++ H2)).
    { rewrite release_eq. apply (invA_ev s _ _ (EFinish (q_cell (h_req h)))); [|exact I|exact Hex]. eapply invA_remove; [exact HA|reflexivity|apply evolves_refl|reflexivity..]. }
    set (s0 := release _ _) in *.
    assert (Hdead : invA (set_slot (q_cell (h_req h)) SDead s0) ws (H1 ++ H2)).
    { eapply invA_frame; [exact H0|reflexivity|apply evolves_set_slot_dead|reflexivity..]. }
    unfold reply. fold s0. destruct (is_closed _ _); [exact Hdead|]. destruct (too_big _ _); [exact Hdead|].
    apply (invA_frame s0 (set_slot (q_cell (h_req h)) (SVal r) s0) _ _ H0); [reflexivity| |reflexivity..].
    apply evolves_upd_call. intros c Ec. split; [split; reflexivity|]. prj. split; [auto|].
    intros r0 [[= <-]|[=]]. right. right. subst s0. rewrite release_eq in Ec |- *.
    change (get_call s (q_cell (h_req h)) = Some c) in Ec. rewrite E in Ec. injection Ec as <-. right. exact Hr.
Qed.

Lemma task_step_invA (s : sys) k : InvA s -> InvA (task_step s k).
Proof.
  unfold InvA, Server.task_step, handlers. intros HA.
  destruct (nth_error (tasks s) k) as [h|] eqn:Ek; [|exact HA].
  destruct (nth_split _ _ _ Ek) as (T1 & T2 & Et & Ed & Eu).
  destruct (poll_h s h) as [s1 oh] eqn:Ep. apply polled_of in Ep.
  destruct (polled_fields _ _ _ _ Ep) as (El & Ets & _).
  rewrite Et, app_assoc in HA. apply (fun H => polled_invA _ _ _ _ _ _ _ H Ep) in HA. rewrite <- app_assoc in HA.
  destruct oh as [h'|]; prj; rewrite El, Ets, ?Eu, ?Ed; exact HA.
Qed.

Lemma finish_invA (s : sys) ws hs r : invA s ws hs -> invA (finish r s) ws hs.
Proof.
  intros HA. unfold finish. apply invA_ev; [|exact I|discriminate].
  eapply invA_drop_queue; [exact HA|..]; try reflexivity; rewrite drop_queue_eq; reflexivity.
Qed.

Lemma finish_InvA (s : sys) r : invA s [] (tasks s) -> InvA (finish r s).
Proof.
  intros HA. apply (finish_invA _ _ _ r) in HA. unfold InvA, handlers.
  replace (tasks (finish r s)) with (tasks s) by (rewrite finish_eq; reflexivity). exact HA.
Qed.

Lemma invA_run (s : sys) q lk hs :
  invA s [q] hs -> invA s [] (mkH q PNew lk :: hs) /\ invA s [] (hs ++ [mkH q PNew lk]).
Proof.
  intros HA. split; [apply (invA_start s q lk [] [] hs HA)|]. apply (invA_start s q lk [] hs []). now rewrite app_nil_r.
Qed.

Lemma loop_step_invA (s : sys) : InvA s -> InvA (loop_step s).
Proof.
  intros HA. unfold InvA, handlers in HA.
  destruct (loop_step_cases s) as [|r [El|El] _ _|q rest El Eq _|q rest El Eq _ _|q rest El Eq _ _|q rest El Eq _ _|rest El Eq|El
                                   |q m El _ _|q m El _ _|q El _ _|h s1 oh El Ep];
    try rewrite El in HA.
  2,3: exact (finish_InvA _ _ HA).
  1-5,7-11: unfold InvA, handlers; prj; rewrite ?El.
  - exact HA.
  - apply invA_kill_held, (invA_dequeue _ _ _ _ _ Eq), HA.
  - exact (invA_dequeue _ _ _ _ _ Eq HA).
  - exact (proj2 (invA_run _ q _ _ (invA_dequeue _ _ _ _ _ Eq HA))).
  - exact (proj1 (invA_run _ q _ _ (invA_dequeue _ _ _ _ _ Eq HA))).
  - exact HA.
  - exact (proj2 (invA_run s q _ _ HA)).
  - exact (proj1 (invA_run s q _ _ HA)).
  - exact (proj1 (invA_run s q _ _ HA)).
  - destruct (polled_fields _ _ _ _ Ep) as (_ & Et & _). apply (polled_invA _ _ [] _ _ _ _ HA) in Ep. rewrite Et.
    destruct oh as [h'|]; [|unfold after_handler; destruct (flav s), (c_kind (q_call (h_req h)))];
      exact Ep.
  - assert (H1 : invA (ev_add EReqErr (s <| queue := rest |>)) [] (tasks s)).
    { apply invA_ev; [|exact I|discriminate].
      eapply invA_frame; [exact HA|reflexivity|exact (evolves_refl s)|reflexivity|now rewrite Eq]. }
    cbv zeta. destruct (pol s); [| |exact (finish_InvA _ _ H1)]; unfold InvA, handlers; prj; rewrite El;
      exact H1.
Qed.

Lemma stop_now_invA (s : sys) ws hs : invA s ws hs -> invA (stop_now s) ws hs.
Proof. intros HA. rewrite stop_now_eq. eapply invA_drop_queue; [exact HA|reflexivity..]. Qed.

Lemma stop_InvA (s : sys) hard : InvA s -> InvA (step s (AStop hard)).
Proof.
  unfold InvA, handlers. intros HA. cbn [Server.step].
  assert (Hst : forall X : sys, invA X [] (tasks X) ->
            invA (stop_now X) (loop_waits (loop (stop_now X))) (loop_hs (loop (stop_now X)) ++ tasks (stop_now X))).
  { intros X HX. apply stop_now_invA in HX. replace (tasks (stop_now X)) with (tasks X) by (rewrite stop_now_eq; reflexivity). exact HX. }
  destruct (loop s) as [|q m|h| |r] eqn:El; try destruct hard; rewrite ?El; try exact HA; apply Hst; try exact HA.
  - apply invA_kill_held. exact HA.
  - replace (tasks (abandon s h)) with (tasks s) by (unfold abandon; now rewrite release_eq).
    apply (abandon_invA s [] [] h (tasks s)). exact HA.
Qed.

(** the caller's first poll hands the request over: its token goes from the call record to the request *)
Lemma invA_send (s : sys) i cr ws hs :
  get_call s i = Some cr -> cr_st cr = CInit -> invA s ws hs -> invA (set_st i CWait s) (mkReq i (cr_call cr) :: ws) hs.
Proof.
  intros Ecr Est [Ac Ai Ar At Aa As Aw].
  assert (G : forall j, get_call (set_st i CWait s) j =
                if i =? j then option_map (fun c => mkC (cr_client c) (cr_call c) CWait (cr_closed c) (cr_slot c)) (get_call s j)
                else get_call s j) by (intros j; apply get_call_upd_call).
  split; unfold tok_init, req_ok; try setoid_rewrite G; prj.
  - intros j c0. destruct (N.eqb_spec i j) as [<-|_]; [|apply Ac]. rewrite Ecr. intros [= <-]. exact (Ac _ _ Ecr).
  - intros e j He Hj. destruct (N.eqb_spec i j) as [<-|_]; [|eauto]. rewrite Ecr. discriminate.
  - intros q0 Hq. assert (Hq' : incl (reqs_of (set_st i CWait s) (mkReq i (cr_call cr) :: ws) hs) (mkReq i (cr_call cr) :: reqs_of s ws hs)) by reqs.
    destruct (Hq' q0 Hq) as [<-|Hq'']; prj; [rewrite N.eqb_refl, Ecr; eexists; split; reflexivity|].
    destruct (Ar q0 Hq'') as (c0 & E0 & Ec0). destruct (N.eqb_spec i (q_cell q0)) as [Ei|_]; [|eauto].
    rewrite <- Ei in *. rewrite Ecr in *. injection E0 as <-. eexists. split; [reflexivity|exact Ec0].
  - intros j. specialize (At j). unfold tok_init in At. replace (cnt j (cells_of (set_st i CWait s) (mkReq i (cr_call cr) :: ws) hs))
      with ((if (i =? j)%N then 1 else 0) + cnt j (cells_of s ws hs))%nat by cells.
    destruct (N.eqb_spec i j) as [<-|_]; [|exact At]. rewrite Ecr in *. cbn [option_map]. prj. rewrite Est in At. clear - At. lia.
  - exact Aa.
  - intros j c0 r. destruct (N.eqb_spec i j) as [<-|_]; [|apply As]. rewrite Ecr. intros [= <-]. prj. apply As, Ecr.
  - exact Aw.
Qed.

Lemma invA_towire (s : sys) cl q ws hs : invA s (q :: ws) hs -> invA (s <| wire := wire s ++ [(cl, q)] |>) ws hs.
Proof.
  intros HA. eapply invA_shrink; [exact HA|reflexivity|exact (evolves_refl s)| | |exact (fun _ _ H _ => H)].
  - reqs.
  - intros i. cells.
Qed.

Lemma evolves_cut (s s' : sys) : trace s' = trace s -> calls s' = map cut_cell (calls (lose_wire (wire s) s)) -> evolves s s'.
Proof.
  intros Et Ec. apply (evolves_trans s (lose_wire (wire s) s)); [rewrite lose_wire_eq; reflexivity|apply killed_evolves, lose_wire_killed|].
  intros j. unfold get_call. rewrite Ec, nth_error_map. destruct (nth_error _ _) as [c|]; cbn [option_map]; [|exact I].
  split; [split; reflexivity|]. unfold cut_cell. prj. split; [tauto|].
  intros r. destruct (cr_slot c); intros [H|H]; try discriminate; injection H as <-; tauto.
Qed.

(** a call is made: its number is fresh, so it has no token, no request and no execution yet *)
Lemma invA_invoke (s : sys) cl c ws hs :
  invA s ws hs -> invA (ev_add (EInv (len (calls s)) cl c) (s <| calls := calls s ++ [mkC cl c CInit false SEmpty] |>)) ws hs.
Proof.
  set (n := len (calls s)). set (x := mkC cl c CInit false SEmpty).
  assert (Hn : get_call s n = None) by (unfold get_call, n, len; rewrite Nat2N.id; now apply nth_error_None).
  assert (G : forall j, get_call (ev_add (EInv n cl c) (s <| calls := calls s ++ [x] |>)) j =
                        if j =? n then Some x else get_call s j).
  { intros j. unfold get_call, n, len. prj. destruct (N.eqb_spec j (N.of_nat (length (calls s)))) as [->|Hne].
    - rewrite Nat2N.id. apply nth_error_snoc.
    - destruct (Nat.lt_ge_cases (N.to_nat j) (length (calls s))) as [H|H]; [now rewrite nth_error_app1|].
      rewrite (proj2 (nth_error_None (calls s) _) H). apply nth_error_None. rewrite app_length. cbn [length]. lia. }
  intros [Ac Ai Ar At Aa As Aw].
  assert (Hfresh : forall e', In e' (trace s) -> ev_id e' <> Some n) by (intros e' He Hid; exact (Ai e' n He Hid Hn)).
  split; unfold tok_init, req_ok.
  + intros i cr. rewrite G. prj. destruct (N.eqb_spec i n) as [->|_]; [intros [= <-]; now left|intros H; right; eauto].
  + intros e i He Hi. rewrite G. prj. destruct He as [<-|He]; [injection Hi as <-; rewrite N.eqb_refl; discriminate|].
    destruct (i =? n); [discriminate|eauto].
  + intros q Hq. rewrite G. destruct (Ar q Hq) as (cr & E & Ec). exists cr. split; [|exact Ec].
    destruct (N.eqb_spec (q_cell q) n) as [En|_]; [congruence|exact E].
  + intros i. rewrite G. specialize (At i). unfold tok_init in At. prj. cbn [execs]. destruct (N.eqb_spec i n) as [->|_]; [|exact At].
    rewrite Hn in At.
    assert (Hz : ~ In n (cells_of s ws hs)).
    { intros Hin. apply cells_reqs in Hin as (q & Hq & Eq). destruct (Ar q Hq) as (cr & E & _). congruence. }
    assert (Hz2 : ~ (0 < execs n (trace s))%nat).
    { intros H. apply execs_pos in H as (c0 & r0 & Hin). exact (Hfresh _ Hin eq_refl). }
    rewrite <- cnt_pos in Hz. subst x. unfold cells_of in *. prj. lia.
  + intros h r Hin Hp. right. eauto.
  + intros i cr r. rewrite G. prj. destruct (N.eqb_spec i n) as [->|_]; [intros [= <-] [H|H]; discriminate|intros H1 H2; right; eauto].
  + cbn [wf_tr]. split; [exact Hfresh|exact Aw].
Qed.

Lemma invA_call_end (s : sys) i cr v e ws hs :
  get_call s i = Some cr -> v <> CInit -> ev_id e = Some i -> ev_pre (trace s) e ->
  invA s ws hs -> invA (ev_add e (set_st i v s)) ws hs.
Proof.
  intros Ecr Hv Hi Hp HA. apply invA_ev; [|exact Hp|rewrite Hi; intros j [= <-]; apply (upd_call_some s); congruence].
  eapply invA_frame; [exact HA|reflexivity|apply evolves_set_st, Hv|reflexivity..].
Qed.

Lemma invA_cut (s X : sys) ws hs :
  invA s ws hs -> trace X = trace s -> calls X = map cut_cell (calls (lose_wire (wire s) s)) -> wire X = [] ->
  qreqs (queue X) = qreqs (queue s) -> invA X ws hs.
Proof.
  intros HA Et Ec Ew Eq. eapply invA_shrink; [exact HA|exact Et|now apply evolves_cut| | |exact (fun _ _ H _ => H)].
  - unfold reqs_of. rewrite Ew, Eq. reqs.
  - intros j. unfold cells_of. rewrite Ew, Eq. cells.
Qed.

Theorem step_invA (s : sys) a : InvA s -> InvA (step s a).
Proof.
  intros HA. destruct a; cbn [Server.step].
  - destruct (client_exists s cl); [exact (invA_invoke s cl c _ _ HA)|exact HA].
  - destruct (get_call s i) as [cr|] eqn:Ecr; [|exact HA].
    destruct (cr_st cr) eqn:Est; try exact HA.
    destruct (cut s || qclosed s || negb (client_live s (cr_client cr))).
    { eapply invA_call_end; [exact Ecr|discriminate|reflexivity|exact I|exact HA]. }
    destruct (c_reqbig (cr_call cr)).
    + eapply invA_frame; [exact HA|reflexivity| |reflexivity..].
      apply (evolves_trans s (set_st i CWait s)); [reflexivity|apply evolves_set_st; discriminate|].
      exact (evolves_set_slot_dead (set_st i CWait s) i).
    + apply (invA_towire (set_st i CWait s)), (invA_send s i cr); assumption.
  - destruct (get_call s i) as [cr|] eqn:Ecr; [|exact HA].
    destruct (cr_st cr); try exact HA; (eapply invA_call_end; [exact Ecr|discriminate|reflexivity|exact I|exact HA]).
  - destruct (get_call s i) as [cr|] eqn:Ecr; [|exact HA]. destruct (cr_st cr); try exact HA.
    eapply invA_frame; [exact HA|reflexivity| |reflexivity..].
    apply evolves_upd_call. intros c0 _. repeat split; prj; tauto.
  - destruct (first_of_client (wire s) (N.to_nat k)); [|exact HA].
    destruct (nth_error (wire s) (N.to_nat k)) as [[cl q]|] eqn:Ek; [|exact HA].
    apply (invA_unwire _ _ _ _ _ _ Ek) in HA. pose proof (invA_kill_held _ _ _ _ HA) as Hk.
    destruct (is_done (loop s)); [exact Hk|]. destruct (c_bad (q_call q)); [|exact (invA_enqueue _ _ _ _ HA)].
    eapply invA_frame; [exact Hk|reflexivity|exact (evolves_refl _)|reflexivity|]. prj. now rewrite qreqs_app, app_nil_r.
  - destruct (get_call s i) as [cr|] eqn:Ecr; [|exact HA]. destruct (cr_slot cr) eqn:Es; try exact HA.
    eapply invA_frame; [exact HA|reflexivity| |reflexivity..].
    apply evolves_upd_call. intros c0 E0. rewrite Ecr in E0. injection E0 as <-. repeat split; prj; try tauto.
    intros r0 [H|H]; [discriminate|]. injection H as <-. rewrite Es. now left.
  - destruct (get_call s i) as [cr|] eqn:Ecr; [|exact HA]. destruct (cr_slot cr); try exact HA.
    eapply invA_frame; [exact HA|reflexivity|apply evolves_set_slot_dead|reflexivity..].
  - destruct (get_call s i) as [cr|] eqn:Ecr; [|exact HA].
    assert (G := fun o Ho => invA_call_end s i cr CDone (ERet i o) _ _ Ecr ltac:(discriminate) eq_refl Ho HA).
    destruct (cr_st cr); try exact HA.
    destruct (cr_slot cr) eqn:Es; try (destruct (cut s); [apply G; exact I|exact HA]); apply G; [|exact I].
    exists (cr_call cr). eapply (a_slot _ _ _ _ _ HA); eauto.
  - exact HA.
  - exact HA.
  - destruct (_ && _); [|exact HA].
    eapply invA_frame; [exact HA|reflexivity|exact (evolves_refl s)|reflexivity|]. prj. now rewrite qreqs_app, app_nil_r.
  - destruct (cut s); [exact HA|]. rewrite lose_wire_eq.
    destruct (qclosed s); (eapply invA_cut; [exact HA|..]); prj; rewrite ?qreqs_app, ?app_nil_r; reflexivity.
  - apply loop_step_invA, HA.
  - apply task_step_invA, HA.
  - destruct (nth_error (sends s) (N.to_nat k)); exact HA.
  - apply (stop_InvA s hard), HA.
Qed.

Lemma init_InvA f sp p re ncl s0 : InvA (init f sp p re ncl s0).
Proof.
  split; unfold tok_init, get_call; cbn; try tauto.
  - intros i cr. destruct (N.to_nat i); discriminate.
  - intros i. destruct (N.to_nat i); cbn; lia.
  - intros i cr r. destruct (N.to_nat i); discriminate.
Qed.

Lemma run_app acts1 acts2 (s : sys) : run (acts1 ++ acts2) s = run acts2 (run acts1 s).
Proof. unfold Server.run. apply fold_left_app. Qed.

Lemma run_inv (P : sys -> Prop) acts :
  (forall s a, In a acts -> P s -> P (step s a)) -> forall s, P s -> P (run acts s).
Proof.
  induction acts as [|a t IH]; intros H s Hs; [exact Hs|].
  apply IH; [intros s1 a1 Hin; apply H; now right|apply H; [now left|exact Hs]].
Qed.

Lemma reach_InvA f sp p re ncl s0 acts : InvA (run acts (init f sp p re ncl s0)).
Proof. apply run_inv; [intros s a _; apply step_invA|apply init_InvA]. Qed.

Lemma wf_app (l1 l2 : list ev) : wf_tr (l1 ++ l2) -> wf_tr l2.
Proof. induction l1 as [|e t IH]; [auto|]. cbn [app wf_tr]. intros [_ H]. auto. Qed.

Lemma wf_in (tr : list ev) e : wf_tr tr -> In e tr -> exists t1 t2, tr = t1 ++ e :: t2 /\ wf_tr (e :: t2).
Proof. intros H Hin. apply in_split in Hin as (t1 & t2 & ->). exists t1, t2. split; [reflexivity|]. exact (wf_app _ _ H). Qed.

Lemma wf_ret (tr : list ev) i r : wf_tr tr -> In (ERet i (OVal r)) tr -> exists c, In (EExec i c r) tr.
Proof. intros H Hin. destruct (wf_in _ _ H Hin) as (t1 & t2 & -> & (c & Hc) & _). exists c. apply in_or_app. right. now right. Qed.

Lemma wf_exec (tr : list ev) i c r : wf_tr tr -> In (EExec i c r) tr -> exists cl, In (EInv i cl c) tr.
Proof. intros H Hin. destruct (wf_in _ _ H Hin) as (t1 & t2 & -> & (cl & Hc) & _). exists cl. apply in_or_app. right. now right. Qed.

Lemma wf_inv_unique (tr : list ev) i cl c cl' c' : wf_tr tr -> In (EInv i cl c) tr -> In (EInv i cl' c') tr -> cl = cl' /\ c = c'.
Proof.
  induction tr as [|e t IH]; [contradiction|]. cbn [wf_tr]. intros [H1 H2] [->|Hin] [E|Hin'].
  - injection E as <- <-. auto.
  - exfalso. exact (H1 _ Hin' eq_refl).
  - subst e. exfalso. exact (H1 _ Hin eq_refl).
  - eauto.
Qed.

Theorem at_most_once f sp p re ncl s0 acts i :
  let tr := trace (run acts (init f sp p re ncl s0)) in
  (execs i tr <= 1)%nat /\
  (forall c r, In (EExec i c r) tr -> exists cl, In (EInv i cl c) tr) /\
  (forall r, In (ERet i (OVal r)) tr ->
     exists cl c, In (EInv i cl c) tr /\ In (EExec i c r) tr /\ execs i tr = 1%nat) /\
  (forall cl c cl' c', In (EInv i cl c) tr -> In (EInv i cl' c') tr -> cl = cl' /\ c = c').
Proof.
  intros tr. destruct (reach_InvA f sp p re ncl s0 acts) as [_ _ _ At _ _ Aw]. fold tr in At, Aw.
  assert (Hle : (execs i tr <= 1)%nat) by (specialize (At i); clear - At; lia).
  split; [exact Hle|]. split; [|split].
  - intros c r. apply wf_exec, Aw.
  - intros r Hr. destruct (wf_ret _ _ _ Aw Hr) as (c & Hc). destruct (wf_exec _ _ _ _ Aw Hc) as (cl & Hcl).
    exists cl, c. repeat split; auto. assert (0 < execs i tr)%nat as Hpos; [apply execs_pos; eauto|clear - Hle Hpos; lia].
  - intros cl c cl' c'. apply wf_inv_unique, Aw.
Qed.

Theorem own_reply f sp p re ncl s0 acts i cr r :
  let s := run acts (init f sp p re ncl s0) in
  get_call s i = Some cr -> cr_slot cr = SVal r \/ cr_slot cr = SGot r ->
  In (EInv i (cr_client cr) (cr_call cr)) (trace s) /\ In (EExec i (cr_call cr) r) (trace s).
Proof.
  intros s E Hs. pose proof (reach_InvA f sp p re ncl s0 acts) as HA. fold s in HA.
  split; [exact (a_calls _ _ _ _ _ HA i cr E)|exact (a_slot _ _ _ _ _ HA i cr r E Hs)].
Qed.

Notation nexts := (next_state is_mut apply).
Notation Linearizable := (@Linearizable St (call Arg) Rep is_mut apply).
Notation replay := (@replay St (call Arg) Rep is_mut apply).

(** the logged executions in the order in which their effects were applied, and the state they leave *)
Definition lin_of (tr : list ev) : list lin_entry := rev (exec_entries tr).
Definition final (s : St) (l : list lin_entry) : St := fold_left (fun st e => nexts st (snd (fst e))) l s.

Lemma replay_snoc l : forall s i c r, replay s (l ++ [(i, c, r)]) <-> replay s l /\ r = snd (apply (final s l) c).
Proof.
  induction l as [|[[j d] q] t IH]; intros s i c r; cbn [app Lin.replay final fold_left fst snd].
  - tauto.
  - rewrite IH. unfold final. tauto.
Qed.

Lemma final_snoc l s i c r : final s (l ++ [(i, c, r)]) = nexts (final s l) c.
Proof. unfold final. rewrite fold_left_app. reflexivity. Qed.

Definition hkind (h : handler) : kind := c_kind (q_call (h_req h)).

Definition is_read (h : handler) : bool := match h_lk h with LkRead => true | _ => false end.
Definition is_write (h : handler) : bool := match h_lk h with LkWrite => true | _ => false end.
Definition nreads (hs : list handler) : nat := length (filter is_read hs).
Definition nwrites (hs : list handler) : nat := length (filter is_write hs).

Definition shared (f : flavour) : bool := match f with FShared | FSharedMut => true | _ => false end.

(** [lst] is the state the logged executions lead to and every logged result was computed from the state
    of its turn; a method that has started holds a snapshot equal to [lst] (nobody wrote since); the guards
    held are those of the live handlers; a writer is alone *)
Record invB (s0 : St) (s : sys) (hs : list handler) : Prop := {
  b_lst : final s0 (lin_of (trace s)) = lst s;
  b_res : replay s0 (lin_of (trace s));
  b_tgt : forall t, target s = Some t -> t = lst s;
  b_snap : forall h t, In h hs -> h_ph h = PRun t -> t = lst s;
  b_lk : forall h, In h hs -> supports (flav s) (hkind h) = true /\ h_lk h = lock_for (flav s) (hkind h);
  b_lock : flav s = FSharedMut -> rd s = N.of_nat (nreads hs) /\ (wr s = true <-> (0 < nwrites hs)%nat);
  b_excl : (nwrites hs <= 1)%nat /\ ((0 < nwrites hs)%nat -> nreads hs = O);
  b_one : shared (flav s) = false -> (length hs <= 1)%nat;
}.

Definition InvB (s0 : St) (s : sys) : Prop :=
  invB s0 s (handlers s) /\
  (shared (flav s) = false -> tasks s = []) /\
  (forall q m, loop s = LWait q m ->
     flav s = FSharedMut /\ supports FSharedMut (c_kind (q_call q)) = true /\ m = lock_for FSharedMut (c_kind (q_call q))).

Lemma nreads_app a b : nreads (a ++ b) = (nreads a + nreads b)%nat.
Proof. unfold nreads. now rewrite filter_app, app_length. Qed.
Lemma nwrites_app a b : nwrites (a ++ b) = (nwrites a + nwrites b)%nat.
Proof. unfold nwrites. now rewrite filter_app, app_length. Qed.
Lemma nreads_cons h t : nreads (h :: t) = ((if is_read h then 1 else 0) + nreads t)%nat.
Proof. unfold nreads. cbn [filter]. destruct (is_read h); reflexivity. Qed.
Lemma nwrites_cons h t : nwrites (h :: t) = ((if is_write h then 1 else 0) + nwrites t)%nat.
Proof. unfold nwrites. cbn [filter]. destruct (is_write h); reflexivity. Qed.

Lemma locked_length (l : list handler) :
  (forall x, In x l -> is_read x || is_write x = true) -> (length l <= nreads l + nwrites l)%nat.
Proof.
  induction l as [|x t IH]; intros H; [cbn; lia|].
  rewrite nreads_cons, nwrites_cons. cbn [length].
  specialize (IH (fun y Hy => H y (or_intror Hy))). specialize (H x (or_introl eq_refl)).
  destruct (is_read x), (is_write x); cbn in H; try discriminate; lia.
Qed.

Lemma mut_alone s0 (s : sys) H1 h H2 :
  invB s0 s (H1 ++ h :: H2) -> hkind h = KMut -> H1 = [] /\ H2 = [].
Proof.
  intros HB Hk.
  assert (Hin : In h (H1 ++ h :: H2)) by (apply in_or_app; right; now left).
  destruct (b_lk _ _ _ HB h Hin) as [Hs Hl]. rewrite Hk in Hs, Hl.
  assert (Hlen : (length (H1 ++ h :: H2) <= 1)%nat).
  { destruct (flav s) eqn:Ef; try discriminate; try (apply (b_one _ _ _ HB); now rewrite Ef).
    destruct (b_excl _ _ _ HB) as [Hw1 Hw2].
    assert (0 < nwrites (H1 ++ h :: H2))%nat as Hpos.
    { rewrite nwrites_app, nwrites_cons. unfold is_write. rewrite Hl. cbn. clear. lia. }
    specialize (Hw2 Hpos).
    pose proof (locked_length (H1 ++ h :: H2)) as Hll. rewrite Hw2 in Hll. etransitivity; [apply Hll|lia].
    intros x Hx. destruct (b_lk _ _ _ HB x Hx) as [_ Hlx]. unfold is_read, is_write. rewrite Hlx, Ef.
    cbn. destruct (hkind x); reflexivity. }
  rewrite app_length in Hlen. cbn [length] in Hlen.
  destruct H1; [|clear - Hlen; cbn in Hlen; lia]. destruct H2; [|clear - Hlen; cbn in Hlen; lia]. auto.
Qed.

Lemma invB_eq s0 (s s' : sys) hs :
  exec_entries (trace s') = exec_entries (trace s) -> lst s' = lst s -> target s' = target s -> flav s' = flav s ->
  rd s' = rd s -> wr s' = wr s -> invB s0 s hs -> invB s0 s' hs.
Proof.
  intros Ht El Etg Ef Erd Ewr [B1 B2 B3 B4 B5 B6 B7 B8].
  split; unfold lin_of; rewrite ?Ht, ?El, ?Etg, ?Ef, ?Erd, ?Ewr; auto.
Qed.

Definition bview (s : sys) := (exec_entries (trace s), lst s, target s, flav s, rd s, wr s, loop s, tasks s).

Lemma InvB_frame s0 (s s' : sys) : bview s' = bview s -> InvB s0 s -> InvB s0 s'.
Proof.
  intros [= Ht El Etg Ef Erd Ewr Elp Ets] (HB & Hns & Hw). unfold InvB, handlers. rewrite Elp, Ets, Ef.
  split; [|split; assumption]. eapply invB_eq; eassumption.
Qed.

Lemma invB_remove s0 (s X : sys) H1 h H2 :
  invB s0 s (H1 ++ h :: H2) ->
  exec_entries (trace X) = exec_entries (trace s) -> lst X = lst s -> target X = target s -> flav X = flav s ->
  released (h_lk h) s X -> invB s0 X (H1 ++ H2).
Proof.
  intros [B1 B2 B3 B4 B5 B6 B7 B8] Et El Etg Ef Hrel.
  assert (Hsub : forall x, In x (H1 ++ H2) -> In x (H1 ++ h :: H2)).
  { intros x. rewrite !in_app_iff. cbn [In]. tauto. }
  rewrite nreads_app, nwrites_app, nreads_cons, nwrites_cons in *. rewrite app_length in B8. cbn [length] in B8.
  split; unfold lin_of; rewrite ?Et, ?El, ?Etg, ?Ef, ?nreads_app, ?nwrites_app, ?app_length; eauto.
  - intros Hf. destruct (B6 Hf) as [Hr Hw]. unfold is_read, is_write, released in *.
    destruct (h_lk h); destruct Hrel as [-> ->]; (split; [clear - Hr; lia|]); try exact Hw. split; [discriminate|lia].
  - destruct (is_read h), (is_write h); lia.
  - intros Hf. specialize (B8 Hf). clear - B8. lia.
Qed.

Lemma abandon_released (s : sys) h : released (h_lk h) s (abandon s h).
Proof. unfold abandon. rewrite release_eq. destruct (h_lk h); split; reflexivity. Qed.

Lemma reply_released (s : sys) h r : released (h_lk h) s (reply s h r).
Proof.
  unfold reply. destruct (is_closed _ _); [|destruct (too_big _ _)]; rewrite release_eq; destruct (h_lk h); split; reflexivity.
Qed.

Lemma abandon_invB s0 (s : sys) H1 h H2 : invB s0 s (H1 ++ h :: H2) -> invB s0 (abandon s h) (H1 ++ H2).
Proof.
  intros HB. eapply invB_remove; [exact HB|..|apply abandon_released]; unfold abandon; rewrite release_eq; try reflexivity.
  destruct (h_ph h); reflexivity.
Qed.

Lemma invB_phase s0 (s X : sys) H1 h H2 ph :
  invB s0 s (H1 ++ h :: H2) -> flav X = flav s -> rd X = rd s -> wr X = wr s ->
  final s0 (lin_of (trace X)) = lst X -> replay s0 (lin_of (trace X)) ->
  (forall t, target X = Some t -> t = lst X) -> (forall t, ph = PRun t -> t = lst X) ->
  lst X = lst s \/ (H1 = [] /\ H2 = []) ->
  invB s0 X (H1 ++ mkH (h_req h) ph (h_lk h) :: H2).
Proof.
  intros [B1 B2 B3 B4 B5 B6 B7 B8] Ef Erd Ewr G1 G2 G3 G4 G5.
  rewrite nreads_app, nwrites_app, nreads_cons, nwrites_cons, app_length in *. cbn [length] in *.
  split; rewrite ?Ef, ?Erd, ?Ewr, ?nreads_app, ?nwrites_app, ?nreads_cons, ?nwrites_cons, ?app_length; auto.
  - intros x t. rewrite in_app_iff. cbn [In]. intros [Hx|[<-|Hx]] Hp; [|exact (G4 t Hp)|];
      (destruct G5 as [->|[-> ->]]; [|contradiction]); eapply B4; try exact Hp; rewrite in_app_iff; cbn [In]; auto.
  - intros x. rewrite in_app_iff. cbn [In]. intros [Hx|[<-|Hx]]; [apply B5|apply (B5 h)|apply B5]; rewrite in_app_iff; cbn [In]; auto.
Qed.

Lemma polled_invB s0 (s : sys) H1 h H2 s1 oh :
  invB s0 s (H1 ++ h :: H2) -> polled s h s1 oh -> invB s0 s1 (H1 ++ olist oh ++ H2).
Proof.
  intros HB. assert (Hin : In h (H1 ++ h :: H2)) by (apply in_or_app; right; now left).
  intros [Hc|Eph Et|t Eph Et|t Eph|r Eph]; cbn [olist app].
  - apply abandon_invB, HB.
  - exact HB.
  - pose proof (b_tgt _ _ _ HB t Et) as ->.
    eapply invB_phase; try exact HB; try reflexivity; prj; try apply HB; [|intros t [= ->]; reflexivity|now left].
    intros t Ht. destruct (c_kind _); [discriminate|apply HB, Ht..].
  - pose proof (b_snap _ _ _ HB h t Hin Eph) as ->. set (c := q_call (h_req h)).
    assert (Hal : is_mut c = true -> H1 = [] /\ H2 = []).
    { intros Hm. apply (mut_alone _ _ _ _ _ HB). unfold hkind. fold c. unfold is_mut in Hm. now destruct (c_kind c). }
    eapply invB_phase; try exact HB; try reflexivity; prj.
    + change (final s0 (lin_of (trace s) ++ [(q_cell (h_req h), c, snd (apply (lst s) c))]) = if is_mut c then fst (apply (lst s) c) else lst s).
      rewrite final_snoc, (b_lst _ _ _ HB). reflexivity.
    + change (replay s0 (lin_of (trace s) ++ [(q_cell (h_req h), c, snd (apply (lst s) c))])).
      apply replay_snoc. split; [apply HB|]. now rewrite (b_lst _ _ _ HB).
    + destruct (is_mut c); [intros t [= <-]; reflexivity|apply HB].
    + discriminate.
    + destruct (is_mut c); [right; auto|now left].
  - assert (V : exec_entries (trace (reply s h r)) = exec_entries (trace s) /\ lst (reply s h r) = lst s /\
                target (reply s h r) = target s /\ flav (reply s h r) = flav s).
    { unfold reply. destruct (is_closed _ _); [|destruct (too_big _ _)]; rewrite release_eq; repeat split. }
    destruct V as (V1 & V2 & V3 & V4). eapply invB_remove; [exact HB|..|apply reply_released]; assumption.
Qed.

(** The actions of the callers and of the transport.  They leave alone everything the serve loop, its handler
    tasks and its reply-sending tasks own; of the trace they only add events that are not executions. *)
Definition server_action (a : action Arg) : bool :=
  match a with ALoop | ATask _ | ASendDone _ | AStop _ => true | _ => false end.

Definition sview (s : sys) := (bview s, reperr s, sends s, errq s).

Lemma step_client (s : sys) a : server_action a = false -> sview (step s a) = sview s.
Proof.
  destruct a; try discriminate; intros _; cbn [Server.step].
  - destruct (client_exists s cl); reflexivity.
  - destruct (get_call s i) as [cr|]; [|reflexivity]. destruct (cr_st cr); try reflexivity.
    destruct (_ || _); [|destruct (c_reqbig _)]; reflexivity.
  - destruct (get_call s i) as [cr|]; [|reflexivity]. destruct (cr_st cr); reflexivity.
  - destruct (get_call s i) as [cr|]; [|reflexivity]. destruct (cr_st cr); reflexivity.
  - destruct (first_of_client _ _); [|reflexivity]. destruct (nth_error _ _) as [[cl q]|]; [|reflexivity].
    destruct (is_done _); [|destruct (c_bad _)]; reflexivity.
  - destruct (get_call s i) as [cr|]; [|reflexivity]. destruct (cr_slot cr); reflexivity.
  - destruct (get_call s i) as [cr|]; [|reflexivity]. destruct (cr_slot cr); reflexivity.
  - destruct (get_call s i) as [cr|]; [|reflexivity]. destruct (cr_st cr); try reflexivity.
    destruct (cr_slot cr); try destruct (cut s); reflexivity.
  - reflexivity.
  - reflexivity.
  - destruct (_ && _); reflexivity.
  - destruct (cut s); [reflexivity|]. rewrite lose_wire_eq. destruct (qclosed s); reflexivity.
Qed.

Lemma finish_InvB s0 (s : sys) r : loop_hs (loop s) = [] -> InvB s0 s -> InvB s0 (finish r s).
Proof.
  intros E1 (HB & Hns & Hw). unfold InvB, handlers in *. rewrite E1 in HB. rewrite finish_eq. prj.
  split; [|split; [exact Hns|intros; discriminate]]. eapply invB_eq; [..|exact HB]; reflexivity.
Qed.

Definition acquired (m : lockm) (s X : sys) : Prop :=
  match m with
  | LkNone => rd X = rd s /\ wr X = wr s
  | LkRead => wr s = false /\ rd X = rd s + 1 /\ wr X = wr s
  | LkWrite => wr s = false /\ rd s = 0 /\ rd X = rd s /\ wr X = true
  end.

Lemma invB_add s0 (s X : sys) hs hs' q :
  let m := lock_for (flav s) (c_kind (q_call q)) in
  invB s0 s hs -> hs' = mkH q PNew m :: hs \/ hs' = hs ++ [mkH q PNew m] ->
  supports (flav s) (c_kind (q_call q)) = true -> (shared (flav s) = false -> hs = []) ->
  exec_entries (trace X) = exec_entries (trace s) -> lst X = lst s -> target X = target s -> flav X = flav s ->
  acquired m s X -> invB s0 X hs'.
Proof.
  intros m [B1 B2 B3 B4 B5 B6 B7 B8] Hhs Hsup Hns Et El Etg Ef Hacq.
  assert (Hin : forall x, In x hs' -> x = mkH q PNew m \/ In x hs).
  { intros x Hx. destruct Hhs as [->| ->]; [destruct Hx; auto|apply in_app_iff in Hx as [Hx|[Hx|[]]]; auto]. }
  assert (Hcnt : nreads hs' = ((if is_read (mkH q PNew m) then 1 else 0) + nreads hs)%nat /\
                 nwrites hs' = ((if is_write (mkH q PNew m) then 1 else 0) + nwrites hs)%nat /\
                 length hs' = S (length hs)).
  { destruct Hhs as [->| ->]; rewrite ?nreads_cons, ?nwrites_cons, ?nreads_app, ?nwrites_app, ?nreads_cons, ?nwrites_cons, ?app_length;
      cbn [nreads nwrites filter length]; clear; lia. }
  destruct Hcnt as (Hc1 & Hc2 & Hc3). unfold is_read, is_write in Hc1, Hc2. cbn [h_lk] in Hc1, Hc2.
  assert (Hm : m = LkNone \/ flav s = FSharedMut) by (unfold m, lock_for; destruct (flav s); auto).
  split; unfold lin_of; rewrite ?Et, ?El, ?Etg, ?Ef, ?Hc1, ?Hc2, ?Hc3; auto.
  - intros x t Hx Hp. destruct (Hin x Hx) as [->|Hx']; [discriminate|eauto].
  - intros x Hx. destruct (Hin x Hx) as [->|Hx']; [split; [exact Hsup|reflexivity]|eauto].
  - intros Hf. destruct (B6 Hf) as [Hr Hw]. unfold acquired in Hacq.
    destruct m; [destruct Hacq as [-> ->]|destruct Hacq as (_ & -> & ->)|destruct Hacq as (_ & _ & -> & ->)]; (split; [clear - Hr; lia|]);
      try exact Hw. split; [clear - Hw; lia|reflexivity].
  - destruct Hm as [Hm|Hf]; [rewrite Hm; exact B7|]. destruct (B6 Hf) as [Hr Hw]. unfold acquired in Hacq.
    assert (wr s = false -> nwrites hs = O) by (destruct (nwrites hs); [reflexivity|intros E; rewrite E in Hw; destruct Hw as [_ Hw]; discriminate Hw; lia]).
    destruct m; [exact B7|destruct Hacq as (Hw0 & _)|destruct Hacq as (Hw0 & Hr0 & _)]; lia.
  - intros Hf. rewrite (Hns Hf). cbn. clear. lia.
Qed.

Lemma InvB_add s0 (s X : sys) q m :
  invB s0 s (tasks s) -> (shared (flav s) = false -> tasks s = []) ->
  supports (flav s) (c_kind (q_call q)) = true -> m = lock_for (flav s) (c_kind (q_call q)) ->
  loop X = LRun (mkH q PNew m) /\ tasks X = tasks s \/
  loop X = LIdle /\ tasks X = tasks s ++ [mkH q PNew m] /\ shared (flav s) = true ->
  exec_entries (trace X) = exec_entries (trace s) -> lst X = lst s -> target X = target s -> flav X = flav s ->
  acquired m s X -> InvB s0 X.
Proof.
  intros HB Hns Hsup -> Hshape Et El Etg Ef Hacq.
  assert (Hadd := fun hs' H => invB_add s0 s X (tasks s) hs' q HB H Hsup Hns Et El Etg Ef Hacq).
  unfold InvB, handlers. rewrite Ef. destruct Hshape as [(-> & ->)|(-> & -> & Hsh)]; cbn [loop_hs app].
  - split; [apply Hadd; now left|]. split; [exact Hns|intros; discriminate].
  - split; [apply Hadd; now right|]. split; [rewrite Hsh; discriminate|intros; discriminate].
Qed.

Lemma loop_step_InvB s0 (s : sys) : InvB s0 s -> InvB s0 (loop_step s).
Proof.
  intros HI. pose proof HI as (HB & Hns & Hw). unfold handlers in HB.
  destruct (loop_step_cases s) as [|r El _ _|q rest El Eq _|q rest El Eq Es Ef|q rest El Eq Es Ef|q rest El Eq Es Hl|rest El Eq|El
                                   |q m El Hm Ewr|q m El Hm Ewr|q El Ewr Erd|h s1 oh El Ep].
  - exact HI.
  - apply finish_InvB; [destruct El as [-> | ->]; reflexivity|exact HI].
  - now apply (InvB_frame s0 s).
  - rewrite El in HB. split; [eapply invB_eq; [..|exact HB]; reflexivity|]. split; [prj; rewrite Ef; discriminate|].
    prj. intros q0 m [= <- <-]. split; [exact Ef|]. split; [now rewrite <- Ef|reflexivity].
  - rewrite El in HB. eapply (InvB_add s0 s _ q LkNone); [exact HB|exact Hns|exact Es|now rewrite Ef| |reflexivity..|split; reflexivity].
    right. rewrite Ef. auto.
  - rewrite El in HB. eapply (InvB_add s0 s _ q LkNone); [exact HB|exact Hns|exact Es|now rewrite Hl|left; auto|reflexivity..|split; reflexivity].
  - assert (H1 : InvB s0 (ev_add EReqErr (s <| queue := rest |>))) by (now apply (InvB_frame s0 s)).
    cbv zeta. destruct (pol s); [exact H1|now apply (InvB_frame s0 (ev_add EReqErr (s <| queue := rest |>)))|].
    apply finish_InvB; [prj; now rewrite El|exact H1].
  - rewrite El in HB. split; [eapply invB_eq; [..|exact HB]; reflexivity|]. split; [exact Hns|intros; discriminate].
  - destruct (Hw q m El) as (Ef & Es & ->). rewrite El in HB. rewrite <- Ef in Es.
    eapply (InvB_add s0 s _ q LkRead); [exact HB|exact Hns|exact Es| | |reflexivity..|repeat split; exact Ewr].
    + rewrite Ef. cbn [lock_for] in *. now destruct (c_kind (q_call q)).
    + right. rewrite Ef. auto.
  - destruct (Hw q m El) as (Ef & Es & ->). rewrite El in HB. rewrite <- Ef in Es.
    eapply (InvB_add s0 s _ q LkRead); [exact HB|exact Hns|exact Es| |left; auto|reflexivity..|repeat split; exact Ewr].
    rewrite Ef. cbn [lock_for] in *. now destruct (c_kind (q_call q)).
  - destruct (Hw q _ El) as (Ef & Es & Em). rewrite El in HB. rewrite <- Ef in Es, Em.
    eapply (InvB_add s0 s _ q LkWrite); [exact HB|exact Hns|exact Es|exact Em|left; auto|reflexivity..|repeat split; assumption].
  - rewrite El in HB. destruct (polled_fields _ _ _ _ Ep) as (_ & Et & Ef). apply (polled_invB s0 _ [] _ _ _ _ HB) in Ep.
    assert (Hah : loop_hs (after_handler s h) = [] /\ forall q m, after_handler s h <> LWait q m).
    { unfold after_handler. destruct (flav s), (c_kind (q_call (h_req h))); split; try reflexivity; intros; discriminate. }
    destruct oh as [h'|]; (split; [|split; [prj; rewrite Ef, Et; exact Hns|prj; try discriminate; intros q m E; destruct (proj2 Hah _ _ E)]]);
      unfold handlers; prj; rewrite Et, ?(proj1 Hah); (eapply invB_eq; [..|exact Ep]; reflexivity).
Qed.

Lemma task_step_InvB s0 (s : sys) k : InvB s0 s -> InvB s0 (task_step s k).
Proof.
  intros HI. pose proof HI as (HB & Hns & Hw). unfold Server.task_step.
  destruct (nth_error (tasks s) k) as [h|] eqn:Ek; [|exact HI].
  assert (Hsh : shared (flav s) = true).
  { destruct (shared (flav s)) eqn:E; [reflexivity|]. rewrite (Hns eq_refl) in Ek. destruct k; discriminate. }
  destruct (nth_split _ _ _ Ek) as (T1 & T2 & Et & Ed & Eu).
  destruct (poll_h s h) as [s1 oh] eqn:Ep. apply polled_of in Ep.
  destruct (polled_fields _ _ _ _ Ep) as (El & Ets & Ef).
  unfold handlers in HB. rewrite Et, app_assoc in HB. apply (fun H => polled_invB s0 _ _ _ _ _ _ H Ep) in HB. rewrite <- app_assoc in HB.
  destruct oh as [h'|]; (split; [|split; [prj; rewrite Ef, Hsh; discriminate|prj; rewrite El, Ef; exact Hw]]);
    unfold handlers; prj; rewrite El, Ets, ?Eu, ?Ed; (eapply invB_eq; [..|exact HB]; reflexivity).
Qed.

Lemma stop_now_InvB s0 (X : sys) :
  invB s0 X (tasks X) -> (shared (flav X) = false -> tasks X = []) -> InvB s0 (stop_now X).
Proof.
  intros HB Hns. rewrite stop_now_eq. split; [|split; [exact Hns|intros; discriminate]].
  eapply invB_eq; [..|exact HB]; reflexivity.
Qed.

Theorem step_InvB s0 (s : sys) a : InvB s0 s -> InvB s0 (step s a).
Proof.
  intros HI. destruct (server_action a) eqn:Ha.
  2:{ apply (InvB_frame s0 s); [|exact HI]. exact (f_equal (fun v => fst (fst (fst v))) (step_client s a Ha)). }
  destruct a; try discriminate; cbn [Server.step].
  - apply loop_step_InvB, HI.
  - apply task_step_InvB, HI.
  - destruct (nth_error _ _); [|exact HI]. now apply (InvB_frame s0 s).
  - pose proof HI as (HB & Hns & Hw). unfold handlers in HB.
    destruct (loop s) as [|q m|h| |r] eqn:El; try destruct hard; try exact HI; apply stop_now_InvB; try assumption.
    + eapply invB_eq; [..|exact HB]; reflexivity.
    + replace (tasks (abandon s h)) with (tasks s) by (unfold abandon; now rewrite release_eq).
      exact (abandon_invB s0 s [] h (tasks s) HB).
    + unfold abandon. rewrite release_eq. exact Hns.
Qed.

Lemma init_InvB f sp p re ncl s0 : InvB s0 (init f sp p re ncl s0).
Proof.
  split; [|split; [reflexivity|intros; discriminate]].
  split; cbn; try tauto; try lia; try (intros t [= <-]; reflexivity); try (intros _; split; [reflexivity|split; [discriminate|lia]]).
Qed.

Lemma reach_InvB f sp p re ncl s0 acts : InvB s0 (run acts (init f sp p re ncl s0)).
Proof. apply run_inv; [intros s a _; apply step_InvB|apply init_InvB]. Qed.

Lemma hev_of_len (e : ev) : (length (hev_of e) <= 1)%nat.
Proof. destruct e as [| ? [|] | | | | | | | |]; cbn; lia. Qed.

Lemma in_history (tr : list ev) e x : In e tr -> In x (hev_of e) -> In x (history tr).
Proof. intros He Hx. unfold history. apply in_flat_map. exists e. split; [now apply in_rev in He|exact Hx]. Qed.

Lemma history_ret (tr : list ev) i r : In (HRet i (Some r)) (history tr) -> In (ERet i (OVal r)) tr.
Proof.
  unfold history. rewrite in_flat_map. intros (e & He & Hin). apply in_rev in He.
  destruct e as [| ? [|] | | | | | | | |]; cbn in Hin; try contradiction; destruct Hin as [[=]|[]]; subst; exact He.
Qed.

Lemma history_split (tr : list ev) h1 x h2 : history tr = h1 ++ x :: h2 ->
  exists t2 e t1, tr = t2 ++ e :: t1 /\ hev_of e = [x] /\ history t1 = h1 /\ history t2 = h2.
Proof.
  unfold history. intros E. destruct (flat_map_split hev_of (rev tr) hev_of_len _ _ _ E) as (la & e & lb & E1 & He & Ha & Hb).
  exists (rev lb), e, (rev la). rewrite !rev_involutive. repeat split; auto.
  rewrite <- (rev_involutive tr), E1, rev_app_distr. cbn [rev]. now rewrite <- app_assoc.
Qed.

Lemma idx_lt a l : forall x, idx a l = Some x -> (x < length l)%nat.
Proof.
  induction l as [|j t IH]; intros x; cbn [idx]; [discriminate|].
  destruct (j =? a); [intros [= <-]; cbn; lia|]. destruct (idx a t) as [y|]; cbn [option_map]; [|discriminate].
  intros [= <-]. specialize (IH y eq_refl). cbn. lia.
Qed.

Lemma idx_app_in a l1 l2 : In a l1 -> idx a (l1 ++ l2) = idx a l1.
Proof.
  induction l1 as [|j t IH]; [contradiction|]. cbn [app idx]. destruct (j =? a) eqn:E; [reflexivity|].
  intros [->|H]; [rewrite N.eqb_refl in E; discriminate|]. now rewrite IH.
Qed.

Lemma idx_app_notin b l1 l2 : ~ In b l1 -> forall y, idx b (l1 ++ l2) = Some y -> (length l1 <= y)%nat.
Proof.
  induction l1 as [|j t IH]; intros Hn y; cbn [app idx length]; [lia|].
  destruct (j =? b) eqn:E; [apply N.eqb_eq in E; subst; exfalso; apply Hn; now left|].
  destruct (idx b (t ++ l2)) as [z|] eqn:Ez; cbn [option_map]; [|discriminate].
  intros [= <-]. assert (length t <= z)%nat; [|lia]. apply IH; auto. intros H. apply Hn. now right.
Qed.

Theorem trace_linearizable s0 (tr : list ev) :
  wf_tr tr -> (forall i, (execs i tr <= 1)%nat) -> replay s0 (lin_of tr) -> Linearizable s0 (history tr).
Proof.
  intros Hwf Hex Hres. exists (lin_of tr). split; [|split; [|split; [|split]]].
  - unfold lin_of. rewrite map_rev. apply NoDup_rev, NoDup_cnt. intros i. specialize (Hex i). rewrite execs_cnt in Hex. exact Hex.
  - intros i c r Hin. unfold lin_of in Hin. apply in_rev in Hin. apply in_exec_entries in Hin.
    destruct (wf_exec _ _ _ _ Hwf Hin) as (cl & Hcl). eapply in_history; [exact Hcl|now left].
  - intros i r Hin. apply history_ret in Hin. destruct (wf_ret _ _ _ Hwf Hin) as (c & Hc).
    exists c. unfold lin_of. apply in_rev. rewrite rev_involutive. now apply in_exec_entries.
  - exact Hres.
  - (* [a] returned before [b] was invoked: the execution of [a] is logged before the invocation of [b], that of [b] after it *)
    intros h1 h2 h3 a ra b cb x y Eh Hx Hy.
    destruct (history_split _ _ _ _ Eh) as (t12 & e1 & t3 & -> & He1 & _ & E2).
    destruct (history_split _ _ _ _ E2) as (t1 & e2 & t2 & -> & He2 & _ & _).
    assert (e1 = ERet a (OVal ra)) as ->.
    { destruct e1 as [| ? [|] | | | | | | | |]; cbn in He1; try discriminate; now injection He1 as -> ->. }
    assert (exists cl, e2 = EInv b cl cb) as (cl & ->).
    { destruct e2 as [| ? [|] | | | | | | | |]; cbn in He2; try discriminate. injection He2 as -> ->. eauto. }
    rewrite <- app_assoc in Hwf, Hx, Hy. cbn [app] in Hwf, Hx, Hy.
    apply wf_app in Hwf. destruct Hwf as [Hfresh Hwf]. destruct (wf_app _ _ Hwf) as [(c & Hc) _].
    set (rest := t2 ++ ERet a (OVal ra) :: t3) in *.
    assert (Hids : map le_id (lin_of (t1 ++ EInv b cl cb :: rest)) = rev (ids (exec_entries rest)) ++ rev (ids (exec_entries t1))).
    { unfold lin_of, exec_entries, ids. rewrite flat_map_app. cbn [flat_map entry_of app]. now rewrite rev_app_distr, map_app, !map_rev. }
    rewrite Hids in Hx, Hy.
    assert (Ha : In a (rev (ids (exec_entries rest)))).
    { apply -> in_rev. apply in_map_iff. exists (a, c, ra). split; [reflexivity|]. apply in_exec_entries.
      apply in_or_app. right. right. exact Hc. }
    assert (Hb : ~ In b (rev (ids (exec_entries rest)))).
    { intros H. apply in_rev, in_map_iff in H as ([[b' c'] r'] & Eb & Hin). cbn in Eb. subst b'.
      apply in_exec_entries in Hin. exact (Hfresh _ Hin eq_refl). }
    rewrite (idx_app_in _ _ _ Ha) in Hx. apply idx_lt in Hx.
    pose proof (idx_app_notin _ _ _ Hb _ Hy) as Hz. clear - Hx Hz. lia.
Qed.

(** C12: every run's client-visible history is linearizable w.r.t. [apply] *)
Theorem atomic f sp p re ncl s0 acts :
  Linearizable s0 (history (trace (run acts (init f sp p re ncl s0)))).
Proof.
  pose proof (reach_InvA f sp p re ncl s0 acts) as HA. destruct (reach_InvB f sp p re ncl s0 acts) as (HB & _).
  apply trace_linearizable.
  - exact (a_wf _ _ _ _ _ HA).
  - intros i. pose proof (a_tok _ _ _ _ _ HA i) as Ht. clear - Ht. lia.
  - exact (b_res _ _ _ HB).
Qed.

Theorem cancel_abandons (s : sys) h :
  c_nocancel (q_call (h_req h)) = false -> is_closed s (q_cell (h_req h)) = true ->
  let i := q_cell (h_req h) in
  let e := match h_ph h with PNew => ESkip i | _ => ECancel i end in
  poll_h s h = (ev_add e (release (h_lk h) (set_slot i SDead s)), None).
Proof. intros Hc Hcl. unfold Server.poll_h. cbv zeta. rewrite Hc, Hcl. reflexivity. Qed.

Lemma abandon_spec (s : sys) h :
  let s' := abandon s h in
  released (h_lk h) s s' /\ loop s' = loop s /\ queue s' = queue s /\ tasks s' = tasks s /\
  target s' = target s /\ lst s' = lst s /\ errq s' = errq s /\
  (forall j, execs j (trace s') = execs j (trace s)) /\
  (forall j, j <> q_cell (h_req h) -> get_call s' j = get_call s j).
Proof.
  split; [apply abandon_released|]. unfold abandon. rewrite release_eq. repeat split.
  - intros j. destruct (h_ph h); reflexivity.
  - intros j Hj. change (get_call (set_slot (q_cell (h_req h)) SDead s) j = get_call s j).
    unfold set_slot. rewrite get_call_upd_call. now destruct (N.eqb_spec (q_cell (h_req h)) j) as [<-|_].
Qed.

Theorem cancel_inline (s : sys) h :
  loop s = LRun h -> c_nocancel (q_call (h_req h)) = false -> is_closed s (q_cell (h_req h)) = true ->
  let s' := loop_step s in
  loop s' = after_handler s h /\ released (h_lk h) s s' /\ queue s' = queue s /\ tasks s' = tasks s /\
  target s' = target s /\ lst s' = lst s /\ errq s' = errq s /\
  (forall j, execs j (trace s') = execs j (trace s)) /\
  (forall j, j <> q_cell (h_req h) -> get_call s' j = get_call s j).
Proof.
  intros El Hc Hcl. unfold Server.loop_step. rewrite El. lazy beta iota. rewrite (cancel_abandons s h Hc Hcl : _ = (abandon s h, None)).
  destruct (abandon_spec s h) as (H1 & _ & H2). split; [reflexivity|]. split; [exact H1|exact H2].
Qed.

Theorem cancel_task (s : sys) k h :
  nth_error (tasks s) k = Some h -> c_nocancel (q_call (h_req h)) = false -> is_closed s (q_cell (h_req h)) = true ->
  let s' := task_step s k in
  tasks s' = del k (tasks s) /\ released (h_lk h) s s' /\ loop s' = loop s /\ queue s' = queue s /\
  target s' = target s /\ lst s' = lst s /\
  (forall j, execs j (trace s') = execs j (trace s)) /\
  (forall j, j <> q_cell (h_req h) -> get_call s' j = get_call s j).
Proof.
  intros Ek Hc Hcl. unfold Server.task_step. rewrite Ek, (cancel_abandons s h Hc Hcl : _ = (abandon s h, None)).
  destruct (abandon_spec s h) as (H1 & H2 & H3 & H4 & H5 & H6 & _ & H7). cbv zeta in *.
  split; [exact (f_equal (del k) H4)|]. split; [exact H1|exact (conj H2 (conj H3 (conj H5 (conj H6 H7))))].
Qed.

Theorem idle_serves_next (s : sys) q rest :
  loop s = LIdle -> errq s = 0 -> queue s = QReq q :: rest ->
  loop_step s = dispatch (s <| queue := rest |>) q.
Proof. intros El Ee Eq. unfold Server.loop_step. rewrite El, Ee, Eq. reflexivity. Qed.

Theorem no_cancel_runs (s : sys) h :
  c_nocancel (q_call (h_req h)) = true ->
  let i := q_cell (h_req h) in
  let c := q_call (h_req h) in
  match h_ph h with
  | PNew => forall t, target s = Some t ->
            snd (poll_h s h) = Some (mkH (h_req h) (PRun t) (h_lk h)) /\ trace (fst (poll_h s h)) = EStart i :: trace s
  | PRun t => snd (poll_h s h) = Some (mkH (h_req h) (PApplied (snd (apply t c))) (h_lk h)) /\
              trace (fst (poll_h s h)) = EExec i c (snd (apply t c)) :: trace s
  | PApplied r => snd (poll_h s h) = None /\ trace (fst (poll_h s h)) = EFinish i :: trace s /\
                  released (h_lk h) s (fst (poll_h s h))
  end.
Proof.
  intros Hc i c. subst i c. destruct (poll_h_cases s h) as [H|Eph Et|t Eph Et|t Eph|r Eph]; try rewrite Eph.
  - rewrite Hc in H. discriminate.
  - intros t Et'. congruence.
  - intros t' Et'. rewrite Et in Et'. injection Et' as <-. split; reflexivity.
  - split; reflexivity.
  - split; [reflexivity|]. split; [|apply reply_released].
    unfold reply. destruct (is_closed _ _); [|destruct (too_big _ _)]; rewrite release_eq; reflexivity.
Qed.

Theorem no_lock_leak f sp p re ncl s0 acts :
  let s := run acts (init f sp p re ncl s0) in
  flav s = FSharedMut ->
  rd s = N.of_nat (nreads (handlers s)) /\ (wr s = true <-> (0 < nwrites (handlers s))%nat) /\
  (handlers s = [] -> rd s = 0 /\ wr s = false).
Proof.
  intros s Hf. destruct (reach_InvB f sp p re ncl s0 acts) as (HB & _). fold s in HB.
  destruct (b_lock _ _ _ HB Hf) as [Hr Hw]. split; [exact Hr|]. split; [exact Hw|].
  intros E. rewrite E in Hr, Hw. cbn in Hr, Hw. split; [exact Hr|]. destruct (wr s); [|reflexivity].
  destruct Hw as [Hw _]. specialize (Hw eq_refl). clear - Hw. lia.
Qed.

Theorem bad_request_arrives (s : sys) k cl q :
  first_of_client (wire s) (N.to_nat k) = true -> nth_error (wire s) (N.to_nat k) = Some (cl, q) ->
  c_bad (q_call q) = true -> is_done (loop s) = false ->
  let s' := step s (ADeliverReq k) in
  queue s' = queue s ++ [QBad] /\ loop s' = loop s /\ tasks s' = tasks s /\ target s' = target s /\ lst s' = lst s /\
  trace s' = trace s /\
  (forall j, j <> q_cell q -> get_call s' j = get_call s j) /\
  (forall cr, get_call s (q_cell q) = Some cr -> exists cr', get_call s' (q_cell q) = Some cr' /\ cr_slot cr' = SDead).
Proof.
  intros Hf Hk Hb Hd. cbn [Server.step]. rewrite Hf, Hk, Hd, Hb. repeat split.
  - intros j Hj. change (get_call (set_slot (q_cell q) SDead s) j = get_call s j).
    unfold set_slot. rewrite get_call_upd_call. now destruct (N.eqb_spec (q_cell q) j) as [<-|_].
  - intros cr E. change (exists cr', get_call (set_slot (q_cell q) SDead s) (q_cell q) = Some cr' /\ cr_slot cr' = SDead).
    unfold set_slot. rewrite get_call_upd_call, N.eqb_refl, E. eexists. split; reflexivity.
Qed.

Theorem bad_request_handled (s : sys) rest :
  loop s = LIdle -> errq s = 0 -> queue s = QBad :: rest ->
  loop_step s =
  match pol s with
  | PIgnore => ev_add EReqErr (s <| queue := rest |>)
  | PSend => ev_add EReqErr (s <| queue := rest |>) <| uerrs := uerrs s + 1 |>
  | PFail => finish RErrReq (ev_add EReqErr (s <| queue := rest |>))
  end.
Proof. intros El Ee Eq. unfold Server.loop_step. rewrite El, Ee, Eq. reflexivity. Qed.

Theorem unsupported_request_dropped (s : sys) q rest :
  loop s = LIdle -> errq s = 0 -> queue s = QReq q :: rest -> supports (flav s) (c_kind (q_call q)) = false ->
  loop_step s = set_slot (q_cell q) SDead (s <| queue := rest |>).
Proof. intros El Ee Eq Hs. unfold Server.loop_step, dispatch. rewrite El, Ee, Eq. prj. rewrite Hs. reflexivity. Qed.

(** no reply error is reported or about to be, and [serve()] has not ended with one *)
Definition reply_ok (re : bool) (s : sys) : Prop :=
  reperr s = re /\ errq s = 0 /\ (forall b, In b (sends s) -> b = false) /\ loop s <> LDone RErrReply.

Lemma polled_reply_ok re (s : sys) h s1 oh :
  (forall c r, too_big c r = false) \/ re = false -> reply_ok re s -> polled s h s1 oh -> reply_ok re s1.
Proof.
  intros Hok HN [H| | | |r Hr]; try exact HN; [unfold abandon; rewrite release_eq; exact HN|].
  destruct HN as (Hre & He & Hs & Hl).
  assert (Hsnoc : forall b, b = false -> forall b', In b' (sends s ++ [b]) -> b' = false).
  { intros b -> b'. rewrite in_app_iff. intros [H|[<-|[]]]; auto. }
  unfold reply. destruct (is_closed _ _); [rewrite release_eq; repeat split; assumption|].
  destruct (too_big _ r) eqn:Etb; rewrite release_eq; (repeat split; try assumption); prj; apply Hsnoc; [|reflexivity].
  destruct Hok as [Hok|Hok]; [rewrite Hok in Etb; discriminate|congruence].
Qed.

Lemma step_reply_ok re (s : sys) a :
  (forall c r, too_big c r = false) \/ re = false -> reply_ok re s -> reply_ok re (step s a).
Proof.
  intros Hok HN. pose proof HN as (Hre & He & Hs & Hl).
  assert (Hfin : forall (X : sys) r, r <> RErrReply -> reply_ok re X -> reply_ok re (finish r X)).
  { intros X r Hr (H1 & H2 & H3 & _). rewrite finish_eq. repeat split; try assumption. prj. congruence. }
  assert (Hstop : forall X : sys, reply_ok re X -> reply_ok re (stop_now X)).
  { intros X (H1 & H2 & H3 & _). rewrite stop_now_eq. repeat split; try assumption. discriminate. }
  destruct (server_action a) eqn:Ha.
  2:{ pose proof (step_client s a Ha) as [= _ _ _ _ _ _ El _ Er Es Ee]. unfold reply_ok. now rewrite El, Er, Es, Ee. }
  destruct a; try discriminate; cbn [Server.step].
  - destruct (loop_step_cases s) as [|r _ Hr _| | | | |rest El _| | | | |h s1 oh El Ep]; try exact HN;
      try (repeat split; try assumption; discriminate).
    + apply Hfin; [intros ->; exact (Hr eq_refl He)|exact HN].
    + cbv zeta. destruct (pol s); [exact HN|exact HN|apply Hfin; [discriminate|exact HN]].
    + destruct (polled_reply_ok re _ _ _ _ Hok HN Ep) as (H1 & H2 & H3 & _).
      destruct oh; (repeat split; try assumption); prj; [discriminate|].
      unfold after_handler. destruct (flav s), (c_kind (q_call (h_req h))); discriminate.
  - unfold Server.task_step. destruct (nth_error (tasks s) (N.to_nat k)) as [h|]; [|exact HN].
    destruct (poll_h s h) as [s1 oh] eqn:Ep. apply polled_of in Ep.
    pose proof (polled_reply_ok re _ _ _ _ Hok HN Ep) as Hp.
    destruct oh; exact Hp.
  - destruct (nth_error (sends s) (N.to_nat k)) as [b|] eqn:Ek; [|exact HN].
    rewrite (Hs b (nth_error_In _ _ Ek)). repeat split; try assumption. intros b' Hb. apply Hs. eapply in_del. exact Hb.
  - (* the callee goes away: [serve()] does not return at all *)
    destruct (loop s) as [|q m|h| |r]; try destruct hard; try exact HN; apply Hstop; try exact HN.
    unfold abandon. rewrite release_eq. exact HN.
Qed.

(** outside the known class (no reply exceeds the limit, or the provider does not report reply errors
    as [rfn] providers do) [serve()] never ends because a reply could not be sent *)
Theorem reply_ok_never_fails f sp p re ncl s0 acts :
  (forall c r, too_big c r = false) \/ re = false ->
  loop (run acts (init f sp p re ncl s0)) <> LDone RErrReply.
Proof.
  intros Hok. apply (run_inv (reply_ok re)); [intros s a _; apply step_reply_ok, Hok|].
  repeat split; [intros b []|discriminate].
Qed.

Definition calls_kept (s s' : sys) : Prop :=
  forall i cr', get_call s' i = Some cr' -> exists cr, get_call s i = Some cr /\ cr_call cr' = cr_call cr.

Lemma calls_kept_trans a b c : calls_kept a b -> calls_kept b c -> calls_kept a c.
Proof. intros H1 H2 i cr E. destruct (H2 i cr E) as (x & Ex & Hx). destruct (H1 i x Ex) as (y & Ey & Hy). exists y. split; congruence. Qed.

Lemma calls_kept_upd (s X : sys) i f :
  calls X = calls (upd_call i f s) -> (forall c, cr_call (f c) = cr_call c) -> calls_kept s X.
Proof.
  intros Ec Hf j cr'. replace (get_call X j) with (get_call (upd_call i f s) j) by (unfold get_call; now rewrite Ec).
  rewrite get_call_upd_call.
  destruct (i =? j); [|eauto]. destruct (get_call s j) as [c|]; cbn [option_map]; [|discriminate].
  intros [= <-]. exists c. split; [reflexivity|apply Hf].
Qed.

Lemma calls_kept_killed (s s' X : sys) : rel_calls slot_killed s s' -> calls X = calls s' -> calls_kept s X.
Proof.
  intros H Ec i cr. replace (get_call X i) with (get_call s' i) by (unfold get_call; now rewrite Ec). intros E. specialize (H i). rewrite E in H.
  destruct (get_call s i) as [c|]; [|contradiction]. destruct H as ((_ & H) & _). eauto.
Qed.

Definition small_reqs (s : sys) : Prop :=
  (forall i cr, get_call s i = Some cr -> c_reqbig (cr_call cr) = false) /\
  (forall cl, nth_error (clients s) cl <> Some ClPoisoned).

Lemma small_kept (s s' : sys) : small_reqs s -> calls_kept s s' -> clients s' = clients s -> small_reqs s'.
Proof.
  intros [H1 H2] Hk Ec. split; [|now rewrite Ec]. intros i cr' E. destruct (Hk i cr' E) as (cr & E0 & ->). eauto.
Qed.

Lemma small_upd (s X : sys) i f :
  small_reqs s -> calls X = calls (upd_call i f s) -> clients X = clients s -> (forall c, cr_call (f c) = cr_call c) ->
  small_reqs X.
Proof. intros HJ Ec Ecl Hf. eapply small_kept; [exact HJ|eapply calls_kept_upd; eassumption|exact Ecl]. Qed.

Lemma small_drop_queue (s X : sys) :
  small_reqs s -> calls X = calls (drop_queue (queue s) s) -> clients X = clients s -> small_reqs X.
Proof. intros HJ Ec Ecl. eapply small_kept; [exact HJ|eapply calls_kept_killed; [apply drop_queue_killed|exact Ec]|exact Ecl]. Qed.

Lemma polled_small (s : sys) h s1 oh : small_reqs s -> polled s h s1 oh -> small_reqs s1.
Proof.
  intros HJ [H| | | |r Hr]; try exact HJ.
  - unfold abandon. rewrite release_eq. eapply small_upd; [exact HJ|reflexivity..].
  - unfold reply. destruct (is_closed _ _); [|destruct (too_big _ _)]; rewrite release_eq; (eapply small_upd; [exact HJ|reflexivity..]).
Qed.

Lemma step_small (s : sys) a :
  (forall cl c, a = AInvoke cl c -> c_reqbig c = false) -> small_reqs s -> small_reqs (step s a).
Proof.
  intros Ha HJ.
  assert (Hfin : forall (X : sys) r, small_reqs X -> small_reqs (finish r X)).
  { intros X r HX. rewrite finish_eq. eapply small_drop_queue; [exact HX|reflexivity..]. }
  assert (Hstop : forall X : sys, small_reqs X -> small_reqs (stop_now X)).
  { intros X HX. rewrite stop_now_eq. eapply small_drop_queue; [exact HX|reflexivity..]. }
  destruct a; cbn [Server.step].
  - destruct (client_exists s cl); [|exact HJ]. destruct HJ as [H1 H2]. split; [|exact H2].
    intros i cr. unfold get_call. prj. intros E. destruct (Nat.lt_ge_cases (N.to_nat i) (length (calls s))) as [H|H].
    + rewrite nth_error_app1 in E by exact H. exact (H1 i cr E).
    + rewrite nth_error_app2 in E by exact H. destruct (_ - _)%nat as [|[|n]]; try discriminate.
      injection E as <-. exact (Ha cl c eq_refl).
  - destruct (get_call s i) as [cr|] eqn:Ecr; [|exact HJ]. destruct (cr_st cr); try exact HJ.
    destruct (_ || _); [eapply small_upd; [exact HJ|reflexivity..]|].
    destruct (c_reqbig (cr_call cr)) eqn:Eb; [rewrite (proj1 HJ i cr Ecr) in Eb; discriminate|].
    eapply small_upd; [exact HJ|reflexivity..].
  - destruct (get_call s i) as [cr|]; [|exact HJ].
    destruct (cr_st cr); try exact HJ; (eapply small_upd; [exact HJ|reflexivity..]).
  - destruct (get_call s i) as [cr|]; [|exact HJ]. destruct (cr_st cr); try exact HJ. eapply small_upd; [exact HJ|reflexivity..].
  - destruct (first_of_client _ _); [|exact HJ]. destruct (nth_error _ _) as [[cl q]|]; [|exact HJ].
    destruct (is_done _); [|destruct (c_bad _)]; try exact HJ; (eapply small_upd; [exact HJ|reflexivity..]).
  - destruct (get_call s i) as [cr|]; [|exact HJ]. destruct (cr_slot cr); try exact HJ. eapply small_upd; [exact HJ|reflexivity..].
  - destruct (get_call s i) as [cr|]; [|exact HJ]. destruct (cr_slot cr); try exact HJ. eapply small_upd; [exact HJ|reflexivity..].
  - destruct (get_call s i) as [cr|]; [|exact HJ]. destruct (cr_st cr); try exact HJ.
    destruct (cr_slot cr); try destruct (cut s); try exact HJ; (eapply small_upd; [exact HJ|reflexivity..]).
  - split; [exact (proj1 HJ)|]. prj. intros cl E. destruct (Nat.lt_ge_cases cl (length (clients s))) as [H|H].
    + rewrite nth_error_app1 in E by exact H. exact (proj2 HJ cl E).
    + rewrite nth_error_app2 in E by exact H. destruct (_ - _)%nat as [|[|n]]; discriminate.
  - split; [exact (proj1 HJ)|]. prj. intros cl0 E. rewrite nth_error_upd in E.
    destruct (Nat.eqb _ cl0); [destruct (nth_error (clients s) cl0); discriminate|exact (proj2 HJ cl0 E)].
  - destruct (_ && _); exact HJ.
  - destruct (cut s); [exact HJ|].
    assert (Hc : forall X : sys, calls X = map cut_cell (calls (lose_wire (wire s) s)) -> clients X = clients s -> small_reqs X).
    { intros X Ec Ecl. eapply small_kept; [exact HJ| |exact Ecl].
      apply (calls_kept_trans s (lose_wire (wire s) s)); [eapply calls_kept_killed; [apply lose_wire_killed|reflexivity]|].
      intros i cr'. unfold get_call. rewrite Ec, nth_error_map.
      destruct (nth_error _ _) as [c|]; cbn [option_map]; [|discriminate]. intros [= <-]. exists c. split; reflexivity. }
    destruct (qclosed s); apply Hc; try reflexivity; rewrite lose_wire_eq; reflexivity.
  - destruct (loop_step_cases s) as [| | | | | |rest _ _| | | | |h s1 oh _ Ep]; try exact HJ.
    + apply Hfin, HJ.
    + eapply small_upd; [exact HJ|reflexivity..].
    + cbv zeta. destruct (pol s); [exact HJ|exact HJ|apply Hfin, HJ].
    + apply (polled_small _ _ _ _ HJ) in Ep. exact Ep.
  - unfold Server.task_step. destruct (nth_error (tasks s) (N.to_nat k)) as [h|]; [|exact HJ].
    destruct (poll_h s h) as [s1 oh] eqn:Ep. apply polled_of, (polled_small _ _ _ _ HJ) in Ep. destruct oh; exact Ep.
  - destruct (nth_error _ _); exact HJ.
  - destruct (loop s) as [|q m|h| |r]; try destruct hard; try exact HJ; apply Hstop; try exact HJ.
    + eapply small_upd; [exact HJ|reflexivity..].
    + unfold abandon. rewrite release_eq. eapply small_upd; [exact HJ|reflexivity..].
Qed.

Definition no_big_requests (acts : list (action Arg)) : Prop :=
  forall cl c, In (AInvoke cl c) acts -> c_reqbig c = false.

Theorem request_ok_never_poisons f sp p re ncl s0 acts :
  no_big_requests acts ->
  forall cl, nth_error (clients (run acts (init f sp p re ncl s0))) cl <> Some ClPoisoned.
Proof.
  intros Hok. apply (run_inv small_reqs).
  - intros s a Hin. apply step_small. intros cl c ->. exact (Hok cl c Hin).
  - split; cbn.
    + intros i cr. unfold get_call. cbn. destruct (N.to_nat i); discriminate.
    + intros cl E. apply nth_error_In, repeat_spec in E. discriminate.
Qed.

End Proofs.
