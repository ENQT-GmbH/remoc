(** Linearizability of a client-visible call history w.r.t. a sequential specification, and an
    executable, certifying checker for it (used by C12; the harness asks this checker, extracted,
    about every history it records on the real implementation).

    A history is the chronological list of invocation and response events seen by the clients:
    [HInv i c] -- call number [i] (fresh) is invoked with call [c];
    [HRet i (Some r)] -- call [i] returns the callee's result [r];
    [HRet i None] -- call [i] returns a call error (its effect may or may not have happened, now or later).
    Calls without a response (pending, or whose future was dropped) have only the [HInv].

    The sequential specification is a deterministic state machine: [apply s c] is the new state and
    the result; calls that take the target by shared reference or by value do not change the state
    seen by others ([is_mut c = false]).

    [Linearizable s0 h]: there is a sequence [lin] of distinct calls, each invoked in [h] with exactly
    these arguments, containing every call that returned a result, such that running [lin] one call
    after the other from [s0] produces exactly the returned results, and such that a call that
    returned a result before another call was invoked comes first (real-time order).  Calls that
    returned an error or nothing appear at most once, anywhere after their invocation. *)
From Remoc Require Import Lib.Base.

Section Lin.
Context {St Call Rep : Type}.
Variable is_mut : Call -> bool.
Variable apply : St -> Call -> St * Rep.

Inductive hev := HInv (i : N) (c : Call) | HRet (i : N) (o : option Rep).

Definition lin_entry : Type := N * Call * Rep.
Definition le_id (e : lin_entry) : N := fst (fst e).

Definition next_state (s : St) (c : Call) : St := if is_mut c then fst (apply s c) else s.

Fixpoint replay (s : St) (l : list lin_entry) : Prop :=
  match l with
  | [] => True
  | (_, c, r) :: t => r = snd (apply s c) /\ replay (next_state s c) t
  end.

Fixpoint idx (i : N) (l : list N) : option nat :=
  match l with
  | [] => None
  | j :: t => if j =? i then Some O else option_map S (idx i t)
  end.

Definition Linearizable (s0 : St) (h : list hev) : Prop :=
  exists lin : list lin_entry,
    NoDup (map le_id lin) /\
    (forall i c r, In (i, c, r) lin -> In (HInv i c) h) /\
    (forall i r, In (HRet i (Some r)) h -> exists c, In (i, c, r) lin) /\
    replay s0 lin /\
    (forall h1 h2 h3 a ra b cb x y,
        h = h1 ++ HRet a (Some ra) :: h2 ++ HInv b cb :: h3 ->
        idx a (map le_id lin) = Some x -> idx b (map le_id lin) = Some y -> (x < y)%nat).

(** * The checker *)
Variable call_eqb : Call -> Call -> bool.
Variable rep_eqb : Rep -> Rep -> bool.
Hypothesis call_eqb_eq : forall a b, call_eqb a b = true -> a = b.
Hypothesis rep_eqb_eq : forall a b, rep_eqb a b = true -> a = b.

(** validation of a candidate linearization: decides the five clauses of [Linearizable] *)
Fixpoint nodupb (l : list N) : bool :=
  match l with
  | [] => true
  | x :: t => negb (existsb (N.eqb x) t) && nodupb t
  end.

Definition hev_is_inv (i : N) (c : Call) (e : hev) : bool :=
  match e with HInv j d => (j =? i) && call_eqb d c | _ => false end.

Definition entry_has (i : N) (r : Rep) (e : lin_entry) : bool :=
  let '(j, _, r') := e in (j =? i) && rep_eqb r' r.

Fixpoint replayb (s : St) (l : list lin_entry) : bool :=
  match l with
  | [] => true
  | (_, c, r) :: t => rep_eqb r (snd (apply s c)) && replayb (next_state s c) t
  end.

Definition before_ok (ids : list N) (a b : N) : bool :=
  match idx a ids, idx b ids with
  | Some x, Some y => Nat.ltb x y
  | _, _ => true
  end.

Definition later_ok (ids : list N) (a : N) (t : list hev) : bool :=
  forallb (fun e => match e with HInv b _ => before_ok ids a b | _ => true end) t.

Fixpoint rt_ok (ids : list N) (h : list hev) : bool :=
  match h with
  | [] => true
  | HRet a (Some _) :: t => later_ok ids a t && rt_ok ids t
  | _ :: t => rt_ok ids t
  end.

Definition validate (s0 : St) (h : list hev) (lin : list lin_entry) : bool :=
  nodupb (map le_id lin) &&
  forallb (fun e => let '(i, c, _) := e in existsb (hev_is_inv i c) h) lin &&
  forallb (fun e => match e with HRet i (Some r) => existsb (entry_has i r) lin | _ => true end) h &&
  replayb s0 lin &&
  rt_ok (map le_id lin) h.

(** search for a candidate (Wing-Gong style depth-first search; its result is validated, so the
    search itself carries no proof obligation) *)
Record op := mkOp { o_id : N; o_call : Call; o_inv : nat; o_ret : option (nat * Rep) }.

Fixpoint find_ret (i : N) (h : list hev) (p : nat) : option (nat * Rep) :=
  match h with
  | [] => None
  | HRet j (Some r) :: t => if j =? i then Some (p, r) else find_ret i t (S p)
  | _ :: t => find_ret i t (S p)
  end.

Fixpoint ops_from (whole h : list hev) (p : nat) : list op :=
  match h with
  | [] => []
  | HInv i c :: t => mkOp i c p (find_ret i whole O) :: ops_from whole t (S p)
  | _ :: t => ops_from whole t (S p)
  end.

Definition completed (o : op) : bool := match o_ret o with Some _ => true | None => false end.

(** calls without a result matter only if they may have changed the state *)
Definition ops_of (h : list hev) : list op :=
  filter (fun o => completed o || is_mut (o_call o)) (ops_from h h O).

Definition minimal (o : op) (rem : list op) : bool :=
  forallb (fun o' => match o_ret o' with Some (q, _) => negb (Nat.ltb q (o_inv o)) | None => true end) rem.

Definition without (o : op) (rem : list op) : list op :=
  filter (fun o' => negb (o_id o' =? o_id o)) rem.

Fixpoint dfs (fuel : nat) (s : St) (rem : list op) : option (list lin_entry) :=
  match fuel with
  | O => None
  | S f =>
      if forallb (fun o => negb (completed o)) rem then Some []
      else
        (fix try (cands : list op) : option (list lin_entry) :=
           match cands with
           | [] => None
           | o :: cs =>
               if minimal o rem then
                 let r := snd (apply s (o_call o)) in
                 let ok := match o_ret o with Some (_, r0) => rep_eqb r r0 | None => true end in
                 if ok then
                   match dfs f (next_state s (o_call o)) (without o rem) with
                   | Some l => Some ((o_id o, o_call o, r) :: l)
                   | None => try cs
                   end
                 else try cs
               else try cs
           end) rem
  end.

(** every level of [dfs] removes the chosen call from [rem]: [length ops] levels and the final test *)
Definition linearizable (s0 : St) (h : list hev) : bool :=
  let ops := ops_of h in
  match dfs (S (length ops)) s0 ops with
  | Some lin => validate s0 h lin
  | None => false
  end.

(** * Soundness *)
Lemma nodupb_sound l : nodupb l = true -> NoDup l.
Proof.
  induction l as [|x t IH]; cbn [nodupb]; intros H; [constructor|].
  apply andb_true_iff in H as [H1 H2]. constructor; [|auto].
  intros Hin. apply negb_true_iff in H1.
  assert (existsb (N.eqb x) t = true) as E; [|congruence].
  apply existsb_exists. exists x. split; [exact Hin|apply N.eqb_refl].
Qed.

Lemma replayb_sound l : forall s, replayb s l = true -> replay s l.
Proof.
  induction l as [|[[i c] r] t IH]; intros s H; cbn [replayb replay] in *; [exact I|].
  apply andb_true_iff in H as [H1 H2]. split; [apply rep_eqb_eq, H1|apply IH, H2].
Qed.

Lemma later_ok_sound ids a t h2 b cb h3 x y :
  later_ok ids a t = true -> t = h2 ++ HInv b cb :: h3 ->
  idx a ids = Some x -> idx b ids = Some y -> (x < y)%nat.
Proof.
  unfold later_ok. intros H -> Hx Hy. rewrite forallb_forall in H.
  specialize (H (HInv b cb)). cbn beta iota in H. unfold before_ok in H. rewrite Hx, Hy in H.
  apply Nat.ltb_lt, H. apply in_or_app. right. left. reflexivity.
Qed.

Lemma rt_ok_sound ids h : rt_ok ids h = true ->
  forall h1 h2 h3 a ra b cb x y, h = h1 ++ HRet a (Some ra) :: h2 ++ HInv b cb :: h3 ->
  idx a ids = Some x -> idx b ids = Some y -> (x < y)%nat.
Proof.
  induction h as [|e t IH]; intros H h1 h2 h3 a ra b cb x y E Hx Hy.
  - destruct h1; discriminate.
  - destruct h1 as [|e1 h1]; cbn [app] in E; injection E as -> ->.
    + cbn [rt_ok] in H. apply andb_true_iff in H as [H _].
      eapply later_ok_sound; eauto.
    + assert (rt_ok ids (h1 ++ HRet a (Some ra) :: h2 ++ HInv b cb :: h3) = true) as H'.
      { cbn [rt_ok] in H. destruct e1 as [j c|j [r|]]; [exact H| |exact H].
        apply andb_true_iff in H as [_ H]. exact H. }
      eapply IH; eauto.
Qed.

Theorem validate_sound s0 h lin : validate s0 h lin = true -> Linearizable s0 h.
Proof.
  unfold validate. intros H.
  apply andb_true_iff in H as [H H5]. apply andb_true_iff in H as [H H4].
  apply andb_true_iff in H as [H H3]. apply andb_true_iff in H as [H1 H2].
  exists lin. split; [apply nodupb_sound, H1|]. split; [|split; [|split]].
  - intros i c r Hin. rewrite forallb_forall in H2. specialize (H2 _ Hin). cbn beta iota in H2.
    apply existsb_exists in H2 as [e [He1 He2]]. destruct e as [j d|j o]; cbn [hev_is_inv] in He2; [|discriminate].
    apply andb_true_iff in He2 as [Ej Ed]. apply N.eqb_eq in Ej. apply call_eqb_eq in Ed. subst. exact He1.
  - intros i r Hin. rewrite forallb_forall in H3. specialize (H3 _ Hin). cbn beta iota in H3.
    apply existsb_exists in H3 as [[[j c] r'] [He1 He2]]. cbn [entry_has] in He2.
    apply andb_true_iff in He2 as [Ej Er]. apply N.eqb_eq in Ej. apply rep_eqb_eq in Er. subst. exists c. exact He1.
  - apply replayb_sound, H4.
  - apply rt_ok_sound, H5.
Qed.

Theorem linearizable_sound s0 h : linearizable s0 h = true -> Linearizable s0 h.
Proof.
  unfold linearizable. destruct (dfs _ _ _) as [lin|]; [|discriminate].
  apply validate_sound.
Qed.

End Lin.
