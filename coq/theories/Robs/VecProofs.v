(** The [ObservableVec] model: the mirror task (and a consumer by hand) follows one call ([step]) and a whole
    subscription stream ([stream_correct]); [Props/C13_Vec.v] derives its theorems from these. *)
From Remoc Require Import Lib.Base Robs.SeqCommon Robs.SeqCommonProofs Robs.Vec.

Lemma handle_push m v :
  len (mv m ++ [v]) <= mmax m -> handle_event m (EPush v) = HOk (mset m (mv m ++ [v])).
Proof. intros H. cbn [handle_event]. now destruct (N.ltb_spec (mmax m) (len (mv m ++ [v]))); [lia|]. Qed.
Lemma handle_insert m i v :
  i <= len (mv m) -> handle_event m (EInsert i v) = HOk (mset m (insert_at (N.to_nat i) v (mv m))).
Proof. intros H. cbn [handle_event]. now destruct (N.ltb_spec (len (mv m)) i); [lia|]. Qed.
Lemma handle_set m i v :
  i < len (mv m) -> handle_event m (ESet i v) = HOk (mset m (set_at (N.to_nat i) v (mv m))).
Proof. intros H. cbn [handle_event]. now destruct (N.leb_spec (len (mv m)) i); [lia|]. Qed.
Lemma handle_remove m i :
  i < len (mv m) -> handle_event m (ERemove i) = HOk (mset m (remove_at (N.to_nat i) (mv m))).
Proof. intros H. cbn [handle_event]. now destruct (N.leb_spec (len (mv m)) i); [lia|]. Qed.
Lemma handle_swap_remove m i :
  i < len (mv m) -> handle_event m (ESwapRemove i) = HOk (mset m (swap_remove_back_at (N.to_nat i) (mv m))).
Proof. intros H. cbn [handle_event]. now destruct (N.leb_spec (len (mv m)) i); [lia|]. Qed.

Lemma task_ev brk m e l tl :
  mdone m = false -> handle_event m e = HOk (mset m l) ->
  task_gen brk m (e :: tl) = task_gen brk (mset m l) tl.
Proof. intros Hd H. cbn [task_gen]. rewrite H. cbn [mset mdone]. now rewrite Hd, andb_false_r. Qed.

Lemma task_pushes brk vs : forall m tl,
  mdone m = false -> len (mv m ++ vs) <= mmax m ->
  task_gen brk m (map EPush vs ++ tl) = task_gen brk (mset m (mv m ++ vs)) tl.
Proof.
  induction vs as [|v vs IH]; intros m tl Hd H.
  - rewrite app_nil_r. now destruct m.
  - cbn [map app]. rewrite (task_ev brk m _ (mv m ++ [v])).
    + rewrite IH; cbn [mset mv mmax mdone]; rewrite <- ?app_assoc; auto.
    + exact Hd.
    + apply handle_push. rewrite !len_app, !len_cons, len_nil in *. lia.
Qed.

Lemma task_writes brk ws : forall m tl,
  mdone m = false -> Forall (fun w => (fst w < length (mv m))%nat) ws ->
  task_gen brk m (set_events ws ++ tl) = task_gen brk (mset m (apply_writes (mv m) ws)) tl.
Proof.
  induction ws as [|w ws IH]; intros m tl Hd H.
  - now destruct m.
  - inversion H as [|? ? Hw Hr]; subst. cbn [set_events map app].
    rewrite (task_ev brk m _ (set_at (fst w) (snd w) (mv m))).
    + rewrite IH; cbn [mset mv mdone]; rewrite ?set_at_length; auto.
    + exact Hd.
    + rewrite <- (Nat2N.id (fst w)) at 2. apply handle_set. unfold len. lia.
Qed.

Lemma apply_done_state c o c1 e1 :
  cdone c = true -> apply_op c o = Ok (c1, e1) -> c1 = c /\ e1 = [].
Proof.
  intros Hd H. destruct o; lazy beta iota zeta delta [apply_op] in H; rewrite Hd in H;
    try discriminate; try (now injection H as <- <-).
  destruct vs; [now injection H as <- <-|discriminate].
Qed.

(** the two shapes of a call on a collection that is not done: no event, or events after which the
    mirror holds [l] *)
Lemma live_same brk c cp mx tl :
  cdone c = false ->
  task_gen brk (mirror_of c cp mx) ([] ++ tl) =
  if brk && cdone c then HOk (mirror_of c cp mx) else task_gen brk (mirror_of c cp mx) tl.
Proof. intros ->. now rewrite andb_false_r. Qed.

Lemma live_upd brk c l es cp mx tl :
  cdone c = false ->
  task_gen brk (mirror_of c cp mx) (es ++ tl) = task_gen brk (mset (mirror_of c cp mx) l) tl ->
  task_gen brk (mirror_of c cp mx) (es ++ tl) =
  if brk && cdone (upd c l) then HOk (mirror_of (upd c l) cp mx) else task_gen brk (mirror_of (upd c l) cp mx) tl.
Proof. intros Hd ->. cbn [upd cdone]. now rewrite Hd, andb_false_r. Qed.

Lemma step brk c o c1 e1 cp mx tl :
  apply_op c o = Ok (c1, e1) ->
  brk = false \/ cdone c = false ->
  len (items c1) <= mx ->
  task_gen brk (mirror_of c cp mx) (e1 ++ tl) =
  if brk && cdone c1 then HOk (mirror_of c1 cp mx) else task_gen brk (mirror_of c1 cp mx) tl.
Proof.
  intros H Hb Hmx.
  destruct (cdone c) eqn:Hd.
  { destruct Hb as [->|Hb]; [|discriminate].
    destruct (apply_done_state _ _ _ _ Hd H) as [-> ->]. reflexivity. }
  clear Hb. assert (Hm : mdone (mirror_of c cp mx) = false) by exact Hd.
  destruct o; lazy beta iota zeta delta [apply_op] in H; rewrite Hd in H.
  - injection H as <- <-. apply live_upd, task_ev, handle_push; assumption.
  - destruct (items c) eqn:Hl; [|rewrite <- Hl in H]; injection H as <- <-; [now apply live_same|].
    now apply live_upd, task_ev.
  - destruct (N.ltb_spec i (len (items c))); [destruct w|]; injection H as <- <-; try now apply live_same.
    now apply live_upd, task_ev, handle_set.
  - injection H as <- <-. apply live_upd, task_writes, iter_writes_range; assumption.
  - destruct (N.leb_spec i (len (items c))); [|discriminate]. injection H as <- <-.
    now apply live_upd, task_ev, handle_insert.
  - destruct (N.ltb_spec i (len (items c))); [|discriminate]. injection H as <- <-.
    now apply live_upd, task_ev, handle_remove.
  - destruct (N.ltb_spec i (len (items c))); [|discriminate]. injection H as <- <-.
    now apply live_upd, task_ev, handle_swap_remove.
  - injection H as <- <-. now apply live_upd, task_ev.
  - destruct (n =? len (items c)); injection H as <- <-; [now apply live_same|now apply live_upd, task_ev].
  - destruct (n <? len (items c)); injection H as <- <-; [now apply live_upd, task_ev|now apply live_same].
  - destruct (items c); injection H as <- <-; [now apply live_same|now apply live_upd, task_ev].
  - (* retain: the index set sent selects what the closure kept *)
    destruct (dropped_idx ks (items c) 0) eqn:Hr; injection H as <- <-.
    + rewrite (retain_by_nil_dropped _ _ _ Hr). exact (live_same brk c cp mx tl Hd).
    + rewrite <- Hr. apply live_upd, task_ev; [assumption..|].
      destruct (_ <? _); cbn [handle_event mirror_of mv]; now rewrite ?retain_set_kept, ?retain_set_dropped.
  - injection H as <- <-. reflexivity.
  - (* [done]: the only call after which the mirror task stops *)
    injection H as <- <-. cbn [app task_gen handle_event mirror_of mdone cdone items]. now destruct brk.
  - destruct vs as [|v0 vs]; injection H as <- <-; [now apply live_same|].
    apply (live_upd brk c _ (map EPush (v0 :: vs))); [assumption|]. now apply task_pushes.
Qed.

Definition start (init : list N) : coll := {| items := init; cdone := false |}.

(** The consumer starts with done flag [d]: [cdone ck] for the mirror task ([sub_mirror md ck mx]),
    [false] for a consumer by hand ([hand_start md ck mx]).  After the initial-value events it holds
    the contents at subscription time. *)
Lemma init_phase brk md ck d mx later :
  len (items ck) <= mx ->
  task_gen brk (sub_mirror md {| items := items ck; cdone := d |} mx) (sub_stream md ck later) =
  task_gen brk {| mv := items ck; mcomplete := true;
                  mdone := match md with Snapshot => d | Incremental => false end; mmax := mx |}
           (if cdone ck then [EDone] else later).
Proof.
  intros Hmx. unfold sub_stream, sub_mirror. cbn [items cdone]. rewrite andb_false_r.
  destruct md; [reflexivity|].
  rewrite <- app_assoc, task_pushes by (try reflexivity; exact Hmx).
  cbn [app task_gen handle_event mset mv mcomplete mdone mmax]. now rewrite andb_false_r.
Qed.

Lemma stream_correct brk md ck ops mx cf e2 d :
  run_ops ck ops = Ok (cf, e2) -> run_bounded mx ck ops -> (cdone ck = false -> d = false) ->
  task_gen brk (sub_mirror md {| items := items ck; cdone := d |} mx) (sub_stream md ck e2)
  = HOk (mirror_of cf true mx).
Proof.
  intros Hr Hb Hd0. rewrite init_phase by exact (bounded_head items apply_op _ _ _ Hb).
  destruct (cdone ck) eqn:Hd.
  - (* subscribed after done: only the synthesized [Done] follows *)
    destruct (runs_done _ _ apply_done_state _ _ _ _ Hd Hr) as [-> ->]. unfold mirror_of. rewrite Hd.
    cbn [task_gen handle_event mv mcomplete mdone mmax]. now destruct brk.
  - replace (match md with Snapshot => d | Incremental => false end) with (cdone ck)
      by (rewrite Hd, (Hd0 eq_refl); now destruct md).
    exact (runs_sim_end items cdone apply_op apply_done_state _ brk mx
             (fun c => task_gen brk (mirror_of c true mx)) (fun c => HOk (mirror_of c true mx))
             (fun c o c1 e1 tl => step brk c o c1 e1 true mx tl) ops ck cf e2
             (fun _ => eq_refl) Hr (or_intror Hd) Hb).
Qed.

Lemma run_bounded_final mx ops : forall c c1 e1,
  run_ops c ops = Ok (c1, e1) -> run_bounded mx c ops -> len (items c1) <= mx.
Proof. exact (bounded_final items apply_op mx ops). Qed.

Lemma apply_done_iff c o c1 e1 :
  apply_op c o = Ok (c1, e1) -> cdone c1 = true <-> (cdone c = true \/ o = MarkDone).
Proof.
  intros H. destruct (cdone c) eqn:Hd.
  - destruct (apply_done_state _ _ _ _ Hd H) as [-> _]. tauto.
  - destruct o; lazy beta iota zeta delta [apply_op] in H; rewrite Hd in H;
      repeat match type of H with (match ?x with _ => _ end) = _ => destruct x end;
      try discriminate; injection H as <- _; cbn [cdone upd]; rewrite ?Hd;
      (split; [discriminate|intros [?|?]; discriminate]) || tauto.
Qed.

From Remoc Require Gen.Api.
Import Vec.Names.

Lemma api_covered :
  map op_name modelled_ops = minus Gen.Api.vec_ObservableVec_mutators non_mutating /\
  Gen.Api.vec_RefMut_mutators = [] /\ Gen.Api.vec_IterMut_mutators = [].
Proof. repeat split; reflexivity. Qed.
