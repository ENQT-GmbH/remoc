(** Instances of the generic subscription/mirror system ([Mirror.v]) for the four broadcast-based
    observable collections, from their C13 models. *)
From Remoc Require Import Lib.Base Robs.SeqCommon Robs.Mirror.
From Remoc Require Robs.Vec Robs.VecDeque Robs.HashMap Robs.HashSet.

Definition seq_cls (e : rerr) : cls :=
  match e with MaxSizeExceeded _ => CMaxSize | InvalidIndex _ => CInvalid end.
Definition smode_of (incr : bool) : smode := if incr then Incremental else Snapshot.

Module VecI.
  Import Robs.Vec.
  Definition apply (c : coll) (o : op) : option (coll * list event) :=
    match apply_op c o with Ok r => Some r | Panic => None end.
  Definition handle (m : mirror) (e : event) : mirror * option rerr :=
    match handle_event m e with HOk m' => (m', None) | HErr m' err => (m', Some err) end.
  Definition is_done (e : event) : bool := match e with EDone => true | _ => false end.
  Definition init_events (incr : bool) (c : coll) : list event :=
    if incr then map EPush (items c) ++ [EInitialComplete] else [].
  Definition iface : Mirror.iface :=
    mk_iface coll op event mirror rerr apply cdone handle seq_cls mdone EDone is_done
             (fun incr c mx => sub_mirror (smode_of incr) c mx) init_events.
End VecI.

Module DequeI.
  Import Robs.VecDeque.
  Definition apply (c : coll) (o : op) : option (coll * list event) :=
    match apply_op c o with Ok r => Some r | Panic => None end.
  Definition handle (m : mirror) (e : event) : mirror * option rerr :=
    match handle_event m e with HOk m' => (m', None) | HErr m' err => (m', Some err) end.
  Definition is_done (e : event) : bool := match e with EDone => true | _ => false end.
  Definition init_events (incr : bool) (c : coll) : list event :=
    if incr then map EPushBack (items c) ++ [EInitialComplete] else [].
  Definition iface : Mirror.iface :=
    mk_iface coll op event mirror rerr apply cdone handle seq_cls mdone EDone is_done
             (fun incr c mx => sub_mirror (smode_of incr) c mx) init_events.
End DequeI.

Module MapI.
  Import Robs.HashMap.
  Definition md_of (incr : bool) : mode := if incr then Incremental else Snapshot.
  Definition init_events (incr : bool) (s : obs) : list event :=
    if incr then map (fun e => ESet (fst e) (snd e)) (o_hm s) ++ [EInitialComplete] else [].
  Definition iface : Mirror.iface :=
    mk_iface obs op event mirror rerr apply_op o_done handle_event (fun _ => CMaxSize) m_done EDone is_done_ev
             (fun incr s mx => mirror_init (md_of incr) s mx) init_events.
End MapI.

Module SetI.
  Import Robs.HashSet.
  Definition md_of (incr : bool) : mode := if incr then Incremental else Snapshot.
  Definition init_events (incr : bool) (s : obs) : list event :=
    if incr then map ESet (elems (o_hs s)) ++ [EInitialComplete] else [].
  Definition iface : Mirror.iface :=
    mk_iface obs op event mirror rerr apply_op o_done handle_event (fun _ => CMaxSize) m_done EDone is_done_ev
             (fun incr s mx => mirror_init (md_of incr) s mx) init_events.
End SetI.

(** what a consumer by hand of the C13 model reaches without error, [hfold] reaches too *)
Section VecLink.
  Import Robs.Vec.
  Lemma vec_hfold_fold l : forall m m', fold_events m l = HOk m' -> hfold VecI.iface m l = Some m'.
  Proof.
    unfold fold_events. induction l as [|e l IH]; intros m m' H; cbn [task_gen hfold] in *.
    - now injection H as ->.
    - cbn [i_handle VecI.iface]. unfold VecI.handle. destruct (handle_event m e) as [m1|m1 err]; [|discriminate].
      cbn [andb] in H. now apply IH.
  Qed.
End VecLink.

Section DequeLink.
  Import Robs.VecDeque.
  Lemma deque_hfold_fold l : forall m m', fold_events m l = HOk m' -> hfold DequeI.iface m l = Some m'.
  Proof.
    unfold fold_events. induction l as [|e l IH]; intros m m' H; cbn [task_gen hfold] in *.
    - now injection H as ->.
    - cbn [i_handle DequeI.iface]. unfold DequeI.handle. destruct (handle_event m e) as [m1|m1 err]; [|discriminate].
      cbn [andb] in H. now apply IH.
  Qed.
End DequeLink.
