(** Proofs about [Robs/ListDist.v]: for every interleaving, every list subscriber has received a
    prefix of the buffer, in order, nothing twice, nothing skipped; [Done] only after everything. *)
From Remoc Require Import Lib.Base Robs.Mirror Robs.MirrorProofs Robs.List_ Robs.ListDist.

(** requests: no push is queued behind a [done] / after the task has seen [done] *)
Fixpoint ok_reqs (seen_done : bool) (l : list req) : Prop :=
  match l with
  | [] => True
  | RPush _ :: r => seen_done = false /\ ok_reqs false r
  | RDone :: r => ok_reqs true r
  end.
Definition has_done (l : list req) : bool := existsb (fun r => match r with RDone => true | _ => false end) l.

Lemma ok_reqs_push b l v : ok_reqs b l -> has_done l = false -> b = false -> ok_reqs false (l ++ [RPush v]).
Proof.
  revert b. induction l as [|[w|] l IH]; intros b H Hd Hb; cbn [app ok_reqs has_done existsb] in *.
  - auto.
  - destruct H as [_ H]. split; [reflexivity|]. now apply (IH false).
  - discriminate.
Qed.
Lemma ok_reqs_done b l : ok_reqs b l -> ok_reqs b (l ++ [RDone]).
Proof.
  revert b. induction l as [|[w|] l IH]; intros b H; cbn [app ok_reqs] in *; auto.
  destruct H as [Hb H]. split; auto.
Qed.
Lemma has_done_app l1 l2 : has_done (l1 ++ l2) = has_done l1 || has_done l2.
Proof. unfold has_done. apply existsb_app. Qed.

Definition sinv_l (buf : list N) (td : bool) (u : lsub) : Prop :=
  log_vals (l_log u) ++ ev_vals (l_chan u) = firstn (l_pos u) buf /\
  (l_pos u <= length buf)%nat /\
  l_len u = length (log_vals (l_log u)) /\
  (l_sent_done u = true -> l_pos u = length buf /\ td = true /\ (l_chan u = [EDone] \/ log_has_done (l_log u) = true)) /\
  (log_has_done (l_log u) = true ->
     l_sent_done u = true /\ l_chan u = [] /\ l_ended u = true /\
     exists l, l_log u = l ++ [LEv EDone] /\ log_has_done l = false) /\
  (l_chan u = [] \/ (exists v, l_chan u = [EPush v]) \/ (l_chan u = [EDone] /\ l_sent_done u = true)) /\
  (forall c, In (LErr c) (l_log u) -> c = CClosed /\ l_ended u = true /\ l_removed u = true) /\
  (l_complete u = true ->
     exists l1 l2, l_log u = l1 ++ LEv EInitialComplete :: l2 /\ length (log_vals l1) = l_ilen u) /\
  (l_reg u = false -> l_pos u = 0%nat /\ l_chan u = [] /\ l_sent_done u = false /\ l_removed u = false).

Definition linv_g (s : lstate) : Prop :=
  ok_reqs (tdone s) (reqs s) /\
  (tdone s || has_done (reqs s) = true -> pdone s = true) /\
  (forall k u, nth_error (lsubs s) k = Some u -> sinv_l (buffer s) (tdone s) u).

Lemma log_vals_app l1 l2 : log_vals (l1 ++ l2) = log_vals l1 ++ log_vals l2.
Proof. unfold log_vals. now rewrite flat_map_app. Qed.
Lemma log_has_done_app l1 l2 : log_has_done (l1 ++ l2) = log_has_done l1 || log_has_done l2.
Proof. unfold log_has_done. apply existsb_app. Qed.

Ltac prjl := cbn [l_reg l_pos l_sent_done l_removed l_chan l_ilen l_len l_complete l_ended l_alive l_log] in *.

(* splits the nine conjuncts of [sinv_l] and closes those a transition does not touch; the others
   remain, in the order of the definition *)
Ltac frame := repeat match goal with |- _ /\ _ => split end; try assumption; try discriminate.

Lemma sinv_l_grow buf td v u : td = false -> sinv_l buf td u -> sinv_l (buf ++ [v]) td u.
Proof.
  intros Htd (H1 & H2 & H3 & H4 & H5 & H6 & H7 & H8 & H9). unfold sinv_l. frame.
  - rewrite H1. symmetry. now apply firstn_snoc_le.
  - rewrite app_length. lia.
  - intros Hs. destruct (H4 Hs) as (_ & Hx & _). congruence.
Qed.

Lemma sinv_l_done buf u : sinv_l buf false u -> sinv_l buf true u.
Proof.
  intros (H1 & H2 & H3 & H4 & H5 & H6 & H7 & H8 & H9). unfold sinv_l. frame.
  intros Hs. destruct (H4 Hs) as (_ & Hx & _). discriminate.
Qed.

Lemma sinv_reg buf td u u' :
  sinv_l buf td u -> (if l_reg u then None else Some (set_task u true 0 false false [])) = Some u' -> sinv_l buf td u'.
Proof.
  intros (H1 & H2 & H3 & H4 & H5 & H6 & H7 & H8 & H9) H. destruct (l_reg u) eqn:Hr; [discriminate|]. injection H as <-.
  destruct (H9 eq_refl) as (Hp & Hc & Hs & Hrm). unfold sinv_l, set_task. prjl.
  rewrite Hp, Hc in H1. rewrite Hs in H4, H5. frame.
  - lia.
  - intros Hd. destruct (H5 Hd) as (Hx & _). discriminate.
  - now left.
  - intros c Hc'. destruct (H7 c Hc') as (? & ? & ?). congruence.
Qed.

Lemma sinv_send buf td u u' : sinv_l buf td u -> task_send buf td u = Some u' -> sinv_l buf td u'.
Proof.
  intros (H1 & H2 & H3 & H4 & H5 & H6 & H7 & H8 & H9) H. unfold task_send in H.
  destruct (l_reg u) eqn:Hr; [|discriminate]. destruct (l_removed u) eqn:Hrm; [discriminate|].
  destruct (l_chan u) as [|e0 ch] eqn:Hch; [|discriminate]. cbn [andb negb is_nil] in H.
  cbn [ev_vals flat_map] in H1. rewrite app_nil_r in H1.
  destruct (l_alive u).
  - destruct (nth_error buf (l_pos u)) as [v|] eqn:Hn.
    + injection H as <-. unfold sinv_l, set_task. prjl.
      assert (Hlt : (l_pos u < length buf)%nat) by (apply nth_error_Some; congruence).
      frame.
      * cbn [ev_vals flat_map app]. rewrite H1. symmetry. now apply firstn_S_nth.
      * intros Hs. destruct (H4 Hs) as (Hx & _). lia.
      * intros Hd. destruct (H5 Hd) as (Hs & _). destruct (H4 Hs) as (Hx & _). lia.
      * right. left. now exists v.
    + destruct td; [|discriminate]. destruct (l_sent_done u) eqn:Hsd; [discriminate|]. injection H as <-.
      unfold sinv_l, set_task. prjl.
      assert (Hge : (length buf <= l_pos u)%nat) by now apply nth_error_None.
      frame.
      * cbn [ev_vals flat_map app]. now rewrite app_nil_r.
      * intros _. split; [lia|]. split; [reflexivity|now left].
      * intros Hd. destruct (H5 Hd) as (Hs & _). discriminate.
      * right. right. now split.
  - injection H as <-. unfold sinv_l, set_task. prjl. frame.
    + cbn [ev_vals flat_map]. now rewrite app_nil_r.
    + intros c Hc. destruct (H7 c Hc) as (? & ? & ?). auto.
Qed.

Lemma sinv_retire buf td u u' : sinv_l buf td u -> task_retire buf td u = Some u' -> sinv_l buf td u'.
Proof.
  intros (H1 & H2 & H3 & H4 & H5 & H6 & H7 & H8 & H9) H. unfold task_retire in H.
  destruct (l_reg u) eqn:Hr; [|discriminate]. destruct (l_removed u); [discriminate|]. cbn [andb negb] in H.
  destruct (if td then l_sent_done u else Nat.leb (length buf) (l_pos u)); [|discriminate]. injection H as <-.
  unfold sinv_l, set_task. prjl. frame.
  intros c Hc. destruct (H7 c Hc) as (? & ? & ?). auto.
Qed.

Lemma err_snoc (P : cls -> Prop) lg x :
  (forall c, ~ In (LErr c) lg) -> (forall c, x = LErr c -> P c) -> forall c, In (LErr c) (lg ++ [x]) -> P c.
Proof.
  intros Hne Hx c Hc. apply in_app_or in Hc. destruct Hc as [Hc|[Hc|[]]]; [now apply Hne in Hc|now apply Hx].
Qed.

Lemma complete_snoc lg x n :
  (exists l1 l2, lg = l1 ++ LEv EInitialComplete :: l2 /\ length (log_vals l1) = n) ->
  exists l1 l2, lg ++ [x] = l1 ++ LEv EInitialComplete :: l2 /\ length (log_vals l1) = n.
Proof. intros (l1 & l2 & -> & Hl). exists l1, (l2 ++ [x]). now rewrite <- app_assoc. Qed.

Lemma sinv_recv buf td u u' : sinv_l buf td u -> sub_recv u = Some u' -> sinv_l buf td u'.
Proof.
  intros (H1 & H2 & H3 & H4 & H5 & H6 & H7 & H8 & H9) H. unfold sub_recv in H.
  destruct (l_alive u); [|discriminate]. destruct (l_ended u) eqn:Hen; [discriminate|]. cbn [andb negb] in H.
  assert (Hnd : log_has_done (l_log u) = false).
  { destruct (log_has_done (l_log u)) eqn:Hd; [|reflexivity]. destruct (H5 eq_refl) as (_ & _ & Hx & _). congruence. }
  assert (Hne : forall c, ~ In (LErr c) (l_log u)).
  { intros c Hc. destruct (H7 c Hc) as (_ & Hx & _). congruence. }
  destruct (Nat.eqb (l_len u) (l_ilen u) && negb (l_complete u)) eqn:Hic.
  - injection H as <-. apply andb_prop in Hic. destruct Hic as [Hl Hcp]. apply Nat.eqb_eq in Hl.
    unfold sinv_l, set_user. prjl. rewrite log_vals_app, log_has_done_app. cbn [log_vals log_has_done flat_map existsb]. rewrite !app_nil_r, orb_false_r.
    frame.
    + intros Hd. congruence.
    + apply err_snoc; [exact Hne|now intros c [=]].
    + intros _. exists (l_log u), []. split; [reflexivity|congruence].
  - destruct (l_chan u) as [|[v| |] ch] eqn:Hch; try discriminate.
    + destruct (l_removed u) eqn:Hrm; [|discriminate]. injection H as <-.
      cbn [ev_vals flat_map] in H1. rewrite app_nil_r in H1.
      unfold sinv_l, set_user. prjl. rewrite log_vals_app, log_has_done_app. cbn [log_vals log_has_done flat_map existsb]. rewrite !app_nil_r, orb_false_r.
      frame.
      * intros Hd. congruence.
      * apply err_snoc; [exact Hne|intros c [= <-]; auto].
      * intros Hcp. exact (complete_snoc _ _ _ (H8 Hcp)).
      * intros Hr. destruct (H9 Hr) as (_ & _ & _ & Hx). congruence.
    + injection H as <-.
      assert (ch = []) as -> by (destruct H6 as [H6|[[w H6]|[H6 _]]]; congruence).
      unfold sinv_l, set_user. prjl. rewrite log_vals_app, log_has_done_app. cbn [log_vals log_has_done flat_map existsb ev_vals app] in *. rewrite orb_false_r, app_nil_r.
      frame.
      * rewrite app_length. cbn [length]. lia.
      * intros Hs. destruct (H4 Hs) as (Ha & Hb & [Hc|Hc]); [discriminate|congruence].
      * intros Hd. congruence.
      * now left.
      * apply err_snoc; [exact Hne|now intros c [=]].
      * intros Hcp. exact (complete_snoc _ _ _ (H8 Hcp)).
      * intros Hr. destruct (H9 Hr) as (_ & Hx & _). discriminate.
    + injection H as <-.
      assert (ch = [] /\ l_sent_done u = true) as [-> Hsd] by (destruct H6 as [H6|[[w H6]|[H6 Hs]]]; [discriminate|discriminate|split; congruence]).
      unfold sinv_l, set_user. prjl. rewrite log_vals_app, log_has_done_app. cbn [log_vals log_has_done flat_map existsb ev_vals app] in *. rewrite orb_true_r, !app_nil_r in *.
      frame.
      * intros Hs. destruct (H4 Hs) as (Ha & Hb & _). auto.
      * intros _. split; [exact Hsd|]. split; [reflexivity|]. split; [reflexivity|]. now exists (l_log u).
      * now left.
      * apply err_snoc; [exact Hne|now intros c [=]].
      * intros Hcp. exact (complete_snoc _ _ _ (H8 Hcp)).
      * intros Hr. destruct (H9 Hr) as (_ & Hx & _). discriminate.
Qed.

Lemma sinv_drop buf td u u' :
  sinv_l buf td u ->
  (if l_alive u then Some (set_user u (l_chan u) (l_len u) (l_complete u) (l_ended u) false (l_log u)) else None) = Some u' ->
  sinv_l buf td u'.
Proof. intros H Hd. destruct (l_alive u); [|discriminate]. injection Hd as <-. unfold sinv_l, set_user in *. prjl. exact H. Qed.

Lemma linv_g_init init : linv_g (linit init).
Proof.
  unfold linv_g, linit. cbn. split; [exact I|]. split; [discriminate|]. intros k u H. destruct k; discriminate.
Qed.

Lemma upd_l_inv s i f s' :
  linv_g s -> upd_l s i f = Some s' ->
  (forall u u', sinv_l (buffer s) (tdone s) u -> f u = Some u' -> sinv_l (buffer s) (tdone s) u') -> linv_g s'.
Proof.
  intros (G1 & G2 & G3) Hu Hf. unfold upd_l in Hu. destruct (upd_nth (lsubs s) i f) as [l|] eqn:Hup; [|discriminate].
  injection Hu as <-. unfold linv_g. cbn [buffer tdone reqs pdone lsubs]. split; [exact G1|]. split; [exact G2|].
  intros k u Hk. rewrite (nth_error_upd_nth _ _ _ _ k Hup) in Hk. destruct (Nat.eqb k i); [|eauto].
  destruct (nth_error (lsubs s) i) as [u0|] eqn:Hi; [|discriminate]. eauto.
Qed.

Lemma linv_g_step s a s' : linv_g s -> lstep s a = Some s' -> linv_g s'.
Proof.
  intros G Hs. pose proof G as (G1 & G2 & G3). destruct a as [v| | | | |i|i|i|i|i]; cbn [lstep] in Hs.
  - destruct (palive s); [|discriminate]. destruct (pdone s) eqn:Hp; [discriminate|]. cbn [andb negb] in Hs. injection Hs as <-.
    assert (Hnd : tdone s = false /\ has_done (reqs s) = false).
    { destruct (tdone s); [now specialize (G2 eq_refl)|]. destruct (has_done (reqs s)); [now specialize (G2 eq_refl)|auto]. }
    destruct Hnd as [Htd Hhd]. unfold linv_g. cbn [buffer tdone reqs pdone lsubs].
    split; [rewrite Htd; eapply ok_reqs_push; eauto; now rewrite <- Htd|].
    split; [rewrite has_done_app, Htd, Hhd; discriminate|exact G3].
  - destruct (palive s); [|discriminate]. destruct (pdone s) eqn:Hp; [now injection Hs as <-|]. injection Hs as <-.
    unfold linv_g. cbn [buffer tdone reqs pdone lsubs]. split; [now apply ok_reqs_done|]. split; [reflexivity|exact G3].
  - injection Hs as <-. unfold linv_g. cbn [buffer tdone reqs pdone lsubs]. split; [exact G1|]. split; [exact G2|].
    intros k u Hk. apply nth_snoc in Hk. destruct Hk as [Hk|[_ ->]]; [eauto|].
    unfold sinv_l. prjl. cbn. repeat split; try discriminate; auto; try lia.
  - destruct (palive s); [|discriminate]. injection Hs as <-. exact G.
  - destruct (reqs s) as [|[v|] r] eqn:Hr; [discriminate| |]; injection Hs as <-; unfold linv_g; cbn [buffer tdone reqs pdone lsubs].
    + cbn [ok_reqs] in G1. destruct G1 as [Htd G1]. rewrite Htd in *.
      split; [exact G1|]. split; [intros H; apply G2; cbn [has_done existsb] in *; exact H|].
      intros k u Hk. apply sinv_l_grow; [reflexivity|]. eauto.
    + cbn [ok_reqs] in G1. split; [exact G1|]. split; [intros _; apply G2; cbn [has_done existsb]; now rewrite orb_true_r|].
      intros k u Hk. specialize (G3 _ _ Hk). destruct (tdone s); [exact G3|now apply sinv_l_done].
  - eapply upd_l_inv; eauto. intros u u'. apply sinv_reg.
  - eapply upd_l_inv; eauto. intros u u'. apply sinv_send.
  - destruct (negb (palive s) && is_nil (reqs s)); [|discriminate]. eapply upd_l_inv; eauto. intros u u'. apply sinv_retire.
  - eapply upd_l_inv; eauto. intros u u'. apply sinv_recv.
  - eapply upd_l_inv; eauto. intros u u'. apply sinv_drop.
Qed.

Lemma linv_g_run acts : forall s s', linv_g s -> lrun acts s = Some s' -> linv_g s'.
Proof. exact (orun_inv lstep linv_g linv_g_step acts). Qed.

(** the buffer only grows, and not at all once the task has seen [done] *)
Lemma buffer_mono s a s' : linv_g s -> lstep s a = Some s' ->
  exists x, buffer s' = buffer s ++ x /\ (tdone s = true -> x = [] /\ tdone s' = true).
Proof.
  intros (G1 & _ & _) Hs. destruct a as [v| | | | |i|i|i|i|i]; cbn [lstep] in Hs;
    try (unfold upd_l in Hs; match type of Hs with context [upd_nth ?l ?i ?f] => destruct (upd_nth l i f) end; [|discriminate];
         injection Hs as <-; exists []; cbn; rewrite app_nil_r; auto).
  - destruct (palive s && negb (pdone s)); [|discriminate]. injection Hs as <-. exists []. cbn. rewrite app_nil_r. auto.
  - destruct (palive s); [|discriminate]. destruct (pdone s); injection Hs as <-; exists []; cbn; rewrite app_nil_r; auto.
  - injection Hs as <-. exists []. cbn. rewrite app_nil_r. auto.
  - destruct (palive s); [|discriminate]. injection Hs as <-. exists []. cbn. rewrite app_nil_r. auto.
  - destruct (reqs s) as [|[v|] r]; [discriminate| |]; injection Hs as <-; cbn.
    + exists [v]. split; [reflexivity|]. intros Htd. rewrite Htd in G1. cbn in G1. destruct G1; discriminate.
    + exists []. rewrite app_nil_r. auto.
  - destruct (negb (palive s) && is_nil (reqs s)); [|discriminate].
    unfold upd_l in Hs. destruct (upd_nth (lsubs s) i _); [|discriminate]. injection Hs as <-. exists []. cbn. rewrite app_nil_r. auto.
Qed.

(** C14 (list): every subscriber, at every point of every interleaving of pushes, subscribes, task
    steps and (slow) consumers, has received exactly the first [l_len] elements of the buffer, in
    order -- each once, none skipped; the only error it can be given is [Closed]; and [Done] is
    the last thing it receives, after every element of the finished list. *)
Lemma list_subscriber init acts s i u :
  lrun acts (linit init) = Some s -> nth_error (lsubs s) i = Some u ->
  log_vals (l_log u) = firstn (l_len u) (buffer s) /\
  (forall c, In (LErr c) (l_log u) -> c = CClosed) /\
  (log_has_done (l_log u) = true ->
     log_vals (l_log u) = buffer s /\ tdone s = true /\
     exists l, l_log u = l ++ [LEv EDone] /\ log_has_done l = false) /\
  (l_complete u = true ->
     exists l1 l2, l_log u = l1 ++ LEv EInitialComplete :: l2 /\ length (log_vals l1) = l_ilen u).
Proof.
  intros Hr Hn. pose proof (linv_g_run _ _ _ (linv_g_init init) Hr) as (_ & _ & G3).
  destruct (G3 _ _ Hn) as (H1 & H2 & H3 & H4 & H5 & H6 & H7 & H8 & H9).
  assert (Hpre : log_vals (l_log u) = firstn (l_len u) (buffer s)).
  { rewrite H3. assert (Hx : firstn (length (log_vals (l_log u))) (log_vals (l_log u) ++ ev_vals (l_chan u)) = log_vals (l_log u)).
    { apply firstn_app_all. }
    rewrite H1 in Hx. rewrite firstn_firstn in Hx. rewrite <- Hx at 1. f_equal.
    assert (length (log_vals (l_log u)) <= l_pos u)%nat; [|lia].
    assert (Hl : length (log_vals (l_log u) ++ ev_vals (l_chan u)) = length (firstn (l_pos u) (buffer s))) by now rewrite H1.
    rewrite app_length, firstn_length in Hl. lia. }
  split; [exact Hpre|]. split; [intros c Hc; now destruct (H7 c Hc)|]. split; [|exact H8].
  intros Hd. destruct (H5 Hd) as (Hs & Hch & _ & Hl). destruct (H4 Hs) as (Hp & Htd & _).
  rewrite Hch in H1. cbn [ev_vals flat_map] in H1. rewrite app_nil_r, Hp, firstn_all in H1. auto.
Qed.
