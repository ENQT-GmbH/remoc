(** The [ObservableList] model: the mirror task (and a consumer by hand) follows one call ([step]) and a whole
    subscription stream ([stream_correct]); [Props/C13_List.v] derives its theorems from these. *)
From Remoc Require Import Lib.Base Robs.SeqCommon Robs.SeqCommonProofs Robs.List_.

Lemma task_pushes brk vs : forall acc cp mx tl,
  len (acc ++ vs) <= mx ->
  task_gen brk {| mv := acc; mcomplete := cp; mdone := false; mmax := mx |} (map EPush vs ++ tl) =
  task_gen brk {| mv := acc ++ vs; mcomplete := cp; mdone := false; mmax := mx |} tl.
Proof.
  induction vs as [|v vs IH]; intros acc cp mx tl H.
  - now rewrite app_nil_r.
  - cbn [map app task_gen handle_event mv mcomplete mdone mmax].
    destruct (N.ltb_spec mx (len (acc ++ [v]))) as [Hlt|_];
      [rewrite !len_app, !len_cons, len_nil in *; lia|].
    cbn [mdone]. rewrite andb_false_r, IH, <- app_assoc; [reflexivity|now rewrite <- app_assoc].
Qed.

Lemma apply_done_state c o c1 e1 :
  cdone c = true -> apply_op c o = Ok (c1, e1) -> c1 = c /\ e1 = [].
Proof.
  intros Hd H. unfold apply_op in H. rewrite Hd in H.
  destruct o as [v| |[|v vs]]; try discriminate; now injection H as <- <-.
Qed.

Lemma step brk c o c1 e1 cp mx tl :
  apply_op c o = Ok (c1, e1) ->
  brk = false \/ cdone c = false ->
  len (items c1) <= mx ->
  task_gen brk (mirror_of c cp mx) (e1 ++ tl) =
  if brk && cdone c1 then HOk (mirror_of c1 cp mx) else task_gen brk (mirror_of c1 cp mx) tl.
Proof.
  intros H Hb Hmx.
  destruct (cdone c) eqn:Hd.
  { destruct Hb as [->|Hb]; [|discriminate].
    destruct (apply_done_state _ _ _ _ Hd H) as [-> ->]. reflexivity. }
  clear Hb. unfold apply_op in H. rewrite Hd in H. unfold mirror_of at 1. rewrite Hd.
  destruct o as [v| |[|v0 vs]]; injection H as <- <-; cbn [cdone items mirror_of] in *; rewrite ?andb_false_r.
  - exact (task_pushes brk [v] _ cp mx tl Hmx).
  - cbn [app task_gen handle_event mv mcomplete mdone mmax]. now destruct brk.
  - rewrite Hd, andb_false_r. unfold mirror_of. now rewrite Hd.
  - exact (task_pushes brk (v0 :: vs) _ cp mx tl Hmx).
Qed.

Definition start (init : list N) : coll := {| items := init; cdone := false |}.

Lemma stream_correct brk ck ops mx cf e2 :
  run_ops ck ops = Ok (cf, e2) ->
  run_bounded mx ck ops ->
  task_gen brk (sub_mirror mx) (sub_stream ck e2) = HOk (mirror_of cf true mx).
Proof.
  intros Hr Hb. unfold sub_stream, sub_mirror.
  rewrite task_pushes by exact (bounded_head items apply_op _ _ _ Hb).
  cbn [app task_gen handle_event mv mcomplete mdone mmax]. rewrite andb_false_r.
  destruct (cdone ck) eqn:Hd.
  - destruct (runs_done _ _ apply_done_state _ _ _ _ Hd Hr) as [-> ->]. unfold mirror_of. rewrite Hd.
    cbn [task_gen handle_event mv mcomplete mdone mmax]. now destruct brk.
  - rewrite <- Hd.
    exact (runs_sim_end items cdone apply_op apply_done_state _ brk mx
             (fun c => task_gen brk (mirror_of c true mx)) (fun c => HOk (mirror_of c true mx))
             (fun c o c1 e1 tl => step brk c o c1 e1 true mx tl) ops ck cf e2
             (fun _ => eq_refl) Hr (or_intror Hd) Hb).
Qed.


Lemma apply_done_iff c o c1 e1 :
  apply_op c o = Ok (c1, e1) -> cdone c1 = true <-> (cdone c = true \/ o = MarkDone).
Proof.
  intros H. destruct (cdone c) eqn:Hd.
  - destruct (apply_done_state _ _ _ _ Hd H) as [-> _]. tauto.
  - unfold apply_op in H. rewrite Hd in H.
    destruct o as [v| |[|v vs]]; injection H as <- _; cbn [cdone]; rewrite ?Hd;
      (split; [discriminate|intros [?|?]; discriminate]) || tauto.
Qed.


Lemma run_items ops : forall c cf e,
  run_ops c ops = Ok (cf, e) -> exists added, items cf = items c ++ added.
Proof.
  induction ops as [|o r IH]; intros c cf e H.
  - injection H as <- _. exists []. now rewrite app_nil_r.
  - apply (runs_cons apply_op) in H. destruct H as (c2 & e2 & e3 & Ha & Hr & _).
    destruct (IH _ _ _ Hr) as [a2 ->]. unfold apply_op in Ha.
    destruct o as [v| |[|v0 vs]]; destruct (cdone c); try discriminate; injection Ha as <- _; cbn [items];
      rewrite <- ?app_assoc; eauto.
Qed.

From Remoc Require Gen.Api.
Import List_.Names.

Lemma api_covered : map op_name modelled_ops = minus Gen.Api.list_ObservableList_mutators non_mutating.
Proof. reflexivity. Qed.
