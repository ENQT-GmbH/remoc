(** Proofs about the observable-hash-map model: replaying the events an operation emits on a copy
    of the map reproduces the map (unless a [retain] closure silently changed a kept value, F4);
    the mirror task and a hand-written consumer therefore end with the observed contents. *)
From Remoc Require Import Lib.Base Robs.KeyMap Robs.KeyMapProofs Robs.HashMap.

(** The notions of [KeyMapProofs.Replay] for the events of a map. *)
Definition data_ev (e : event) : bool := negb (is_done_ev e || is_complete_ev e).
Definition data (evs : list event) : Prop := forallb data_ev evs = true.

Fixpoint peak (m : hmap) (evs : list event) : N :=
  match evs with
  | [] => len m
  | e :: r => N.max (len m) (peak (apply_event m e) r)
  end.

Lemma data_nil : data []. Proof. reflexivity. Qed.

Lemma replay_app m a b : replay m (a ++ b) = replay (replay m a) b.
Proof. exact (Replay.replay_app m a b). Qed.
Lemma peak_ge m evs : len m <= peak m evs.
Proof. exact (Replay.peak_ge m evs). Qed.
Lemma peak_app a m b : peak m (a ++ b) = N.max (peak m a) (peak (replay m a) b).
Proof. exact (Replay.peak_app a m b). Qed.

Definition tr (m : hmap) (evs : list event) (m' : hmap) : Prop :=
  wf m' /\ replay m evs = m' /\ data evs.
Definition flat m evs m' := tr m evs m' /\ len m' = len m /\ peak m evs <= len m.
Definition up m evs m' := tr m evs m' /\ len m <= len m' /\ peak m evs <= len m'.
Definition down m evs m' := tr m evs m' /\ len m' <= len m /\ peak m evs <= len m.
Definition good m evs m' := tr m evs m' /\ peak m evs <= N.max (len m) (len m').

Lemma flat_up m e1 m1 e2 m2 : flat m e1 m1 -> up m1 e2 m2 -> up m (e1 ++ e2) m2.
Proof. exact (Replay.flat_up m e1 m1 e2 m2). Qed.

Lemma andthen_fst r f : fst (andthen r f) = fst (f (fst r)).
Proof. destruct r as [m1 e1]. cbn [andthen fst]. destruct (f m1). reflexivity. Qed.
Lemma andthen_snd r f : snd (andthen r f) = snd r ++ snd (f (fst r)).
Proof. destruct r as [m1 e1]. cbn [andthen fst snd]. destruct (f m1). reflexivity. Qed.

Lemma set_present_flat k v m : wf m -> lookup k m <> None -> flat m [ESet k v] (ins k v m).
Proof.
  intros W Hp. pose proof (length_ins_present k v m W Hp) as HL.
  repeat split; [apply wf_ins; exact W|unfold len; lia|].
  cbn [peak apply_event]. unfold len. lia.
Qed.

Lemma set_up k v m : wf m -> up m [ESet k v] (ins k v m).
Proof.
  intros W. pose proof (length_ins_le k v m) as HL.
  repeat split; [apply wf_ins; exact W|unfold len; lia|].
  cbn [peak apply_event]. unfold len. lia.
Qed.

Lemma remove_down k m : wf m -> down m [ERemove k] (del k m).
Proof.
  intros W. pose proof (length_del_le k m) as HL.
  repeat split; [apply wf_del; exact W|unfold len; lia|].
  cbn [peak apply_event]. unfold len. lia.
Qed.

Lemma clear_down m : down m [EClear] [].
Proof. repeat split; cbn [peak apply_event]; unfold len; cbn [length]; lia. Qed.

Lemma shrink_flat m : wf m -> flat m [EShrinkToFit] m.
Proof. intros W. repeat split; auto. cbn [peak apply_event]. lia. Qed.

Lemma ref_access_flat k a m : wf m -> flat m (snd (ref_access k a m)) (fst (ref_access k a m)).
Proof.
  intros W. unfold ref_access. destruct (lookup k m) as [c|] eqn:E; [|apply Replay.flat_nil, W].
  destruct a as [| |v]; cbn [fst snd].
  - apply Replay.flat_nil, W.
  - rewrite <- (ins_lookup_id k c m W E) at 2. apply set_present_flat; [exact W|congruence].
  - apply set_present_flat; [exact W|congruence].
Qed.

Lemma ref_access_present k a m :
  lookup k m <> None -> lookup k (fst (ref_access k a m)) <> None.
Proof.
  intros Hp. unfold ref_access. destruct (lookup k m) as [c|] eqn:E; [|congruence].
  destruct a as [| |v]; cbn [fst]; try congruence. rewrite lookup_ins_same. discriminate.
Qed.

Lemma and_modify_flat k mods : forall m, wf m ->
  flat m (snd (and_modify k mods m)) (fst (and_modify k mods m)).
Proof.
  induction mods as [|w r IH]; intros m W; cbn [and_modify].
  - apply Replay.flat_nil, W.
  - rewrite andthen_fst, andthen_snd.
    pose proof (ref_access_flat k (match w with Some v => AWrite v | None => ATouch end) m W) as H1.
    eapply Replay.flat_flat; [exact H1|]. apply IH. apply H1.
Qed.

Lemma vac_insert_up k v a m : wf m ->
  up m (snd (vac_insert k v a m)) (fst (vac_insert k v a m)).
Proof.
  intros W. unfold vac_insert. rewrite andthen_fst, andthen_snd. cbn [fst snd].
  eapply Replay.up_flat; [apply set_up, W|]. apply ref_access_flat, wf_ins, W.
Qed.

Lemma or_insert_up k v a m : wf m ->
  up m (snd (or_insert k v a m)) (fst (or_insert k v a m)).
Proof.
  intros W. unfold or_insert. destruct (lookup k m).
  - apply Replay.flat_to_up, ref_access_flat, W.
  - apply vac_insert_up, W.
Qed.

Lemma occ_step_flat k s m : wf m -> lookup k m <> None ->
  flat m (snd (occ_step_run k s m)) (fst (occ_step_run k s m)) /\
  lookup k (fst (occ_step_run k s m)) <> None.
Proof.
  intros W Hp. destruct s as [a|v]; cbn [occ_step_run].
  - split; [apply ref_access_flat, W|apply ref_access_present, Hp].
  - cbn [fst snd]. split; [apply set_present_flat; assumption|]. rewrite lookup_ins_same. discriminate.
Qed.

Lemma occ_steps_flat k sts : forall m, wf m -> lookup k m <> None ->
  flat m (snd (occ_steps k sts m)) (fst (occ_steps k sts m)) /\
  lookup k (fst (occ_steps k sts m)) <> None.
Proof.
  induction sts as [|s r IH]; intros m W Hp; cbn [occ_steps].
  - split; [apply Replay.flat_nil, W|exact Hp].
  - rewrite andthen_fst, andthen_snd.
    destruct (occ_step_flat k s m W Hp) as [H1 H2].
    destruct (IH (fst (occ_step_run k s m))) as [H3 H4]; [apply H1|exact H2|].
    split; [eapply Replay.flat_flat; eassumption|exact H4].
Qed.

Lemma occ_final_down k f m : wf m ->
  down m (snd (occ_final_run k f m)) (fst (occ_final_run k f m)).
Proof.
  intros W. destruct f as [| | |a]; cbn [occ_final_run fst snd].
  - apply Replay.flat_to_down, Replay.flat_nil, W.
  - apply remove_down, W.
  - apply remove_down, W.
  - apply Replay.flat_to_down, ref_access_flat, W.
Qed.

Lemma vac_run_up k u m : wf m -> up m (snd (vac_run k u m)) (fst (vac_run k u m)).
Proof.
  intros W. destruct u as [| |v a]; cbn [vac_run fst snd].
  - apply Replay.flat_to_up, Replay.flat_nil, W.
  - apply Replay.flat_to_up, Replay.flat_nil, W.
  - apply vac_insert_up, W.
Qed.

Lemma entry_final_good k u m : wf m ->
  good m (snd (entry_final_run k u m)) (fst (entry_final_run k u m)).
Proof.
  intros W. destruct u as [|v a|v a|v a|a|sts f vac]; cbn [entry_final_run].
  - apply Replay.flat_to_good, Replay.flat_nil, W.
  - apply Replay.up_good, or_insert_up, W.
  - apply Replay.up_good, or_insert_up, W.
  - apply Replay.up_good, or_insert_up, W.
  - apply Replay.up_good, or_insert_up, W.
  - destruct (lookup k m) eqn:E.
    + rewrite andthen_fst, andthen_snd.
      destruct (occ_steps_flat k sts m W) as [H1 _]; [congruence|].
      apply Replay.down_good. eapply Replay.flat_down; [exact H1|]. apply occ_final_down. apply H1.
    + apply Replay.up_good, vac_run_up, W.
Qed.

Lemma iter_mut_flat uses : forall seen m, wf m ->
  flat m (snd (iter_mut_go seen uses m)) (fst (iter_mut_go seen uses m)).
Proof.
  induction uses as [|[k a] r IH]; intros seen m W; cbn [iter_mut_go].
  - apply Replay.flat_nil, W.
  - destruct (existsb (N.eqb k) seen).
    + apply IH, W.
    + rewrite andthen_fst, andthen_snd.
      pose proof (ref_access_flat k a m W) as H1.
      eapply Replay.flat_flat; [exact H1|]. apply IH. apply H1.
Qed.

Lemma retain_go_all_gt f k0 es : all_gt k0 es -> all_gt k0 (fst (retain_go f es)).
Proof.
  induction es as [|[k v] r IH]; intros H; cbn [retain_go]; [exact H|].
  apply all_gt_cons in H. destruct H as [H1 H2]. specialize (IH H2).
  destruct (retain_go f r) as [m' evs]. cbn [fst] in *.
  destruct (d_keep (f k)); cbn [fst]; [|exact IH]. apply all_gt_cons. auto.
Qed.

Lemma retain_go_wf f es : wf es -> wf (fst (retain_go f es)).
Proof.
  induction es as [|[k v] r IH]; intros H; cbn [retain_go]; [exact I|].
  destruct H as [H1 H2]. specialize (IH H2).
  pose proof (retain_go_all_gt f k r H1) as HG.
  destruct (retain_go f r) as [m' evs]. cbn [fst] in *.
  destruct (d_keep (f k)); cbn [fst]; [|exact IH]. apply wf_cons. auto.
Qed.

(** without a silent write, [retain] only removes, and the [Remove] events replay it *)
Lemma retain_go_down f es : forall p, wf (p ++ es) -> retain_silent f es = false ->
  down (p ++ es) (snd (retain_go f es)) (p ++ fst (retain_go f es)).
Proof.
  induction es as [|[k v] r IH]; intros p W S; cbn [retain_go].
  - cbn [fst snd]. apply Replay.flat_to_down, Replay.flat_nil, W.
  - unfold retain_silent in S. cbn [existsb fst snd] in S. apply orb_false_iff in S. destruct S as [S1 S2].
    fold (retain_silent f r) in S2.
    destruct (retain_go f r) as [m' evs] eqn:ER. cbn [fst snd] in *.
    destruct (d_keep (f k)) eqn:EK; cbn [fst snd].
    + (* kept: the value is unchanged *)
      assert (Hv : match d_acc (f k) with AWrite w => w | _ => v end = v).
      { cbn [andb] in S1. destruct (d_acc (f k)) as [| |w]; try reflexivity.
        apply negb_false_iff in S1. lia. }
      rewrite Hv.
      replace (p ++ (k, v) :: r) with ((p ++ [(k, v)]) ++ r) by (rewrite <- app_assoc; reflexivity).
      replace (p ++ (k, v) :: m') with ((p ++ [(k, v)]) ++ m') by (rewrite <- app_assoc; reflexivity).
      specialize (IH (p ++ [(k, v)])). cbn [fst snd] in IH. apply IH; [|exact S2].
      rewrite <- app_assoc. exact W.
    + (* removed: [Remove k], whatever the closure wrote *)
      pose proof (wf_app_remove_mid p (k, v) r W) as W'.
      specialize (IH p W' S2). cbn [fst snd] in IH.
      destruct IH as ((W2 & R2 & D2) & L2 & P2).
      assert (Hdel : del k (p ++ (k, v) :: r) = p ++ r).
      { apply del_app_mid. apply lt_neq_prefix. eapply wf_app_lt. exact W. }
      assert (Hlen : len (p ++ r) <= len (p ++ (k, v) :: r)).
      { unfold len. rewrite !app_length. cbn [length]. lia. }
      repeat split.
      * exact W2.
      * change (replay (p ++ (k, v) :: r) (ERemove k :: evs)) with (replay (del k (p ++ (k, v) :: r)) evs).
        rewrite Hdel. exact R2.
      * unfold data in *. cbn [forallb]. rewrite D2. reflexivity.
      * lia.
      * cbn [peak apply_event]. rewrite Hdel. lia.
Qed.

Lemma retain_down dflt ds m : wf m -> retain_silent (decide dflt ds) m = false ->
  down m (snd (retain_go (decide dflt ds) m)) (fst (retain_go (decide dflt ds) m)).
Proof. intros W S. exact (retain_go_down (decide dflt ds) m [] W S). Qed.

Theorem mutate_good m o : wf m -> op_silent m o = false ->
  good m (snd (mutate m o)) (fst (mutate m o)).
Proof.
  intros W S. destruct o as [|k v|k| |dflt ds|k mods u|k a|uses| |]; cbn [mutate].
  - apply Replay.flat_to_good, Replay.flat_nil, W.
  - apply Replay.up_good, set_up, W.
  - destruct (lookup k m); cbn [fst snd].
    + apply Replay.down_good, remove_down, W.
    + apply Replay.flat_to_good, Replay.flat_nil, W.
  - destruct m as [|e m]; cbn [fst snd].
    + apply Replay.flat_to_good, Replay.flat_nil, W.
    + apply Replay.down_good, clear_down.
  - apply Replay.down_good, retain_down; assumption.
  - rewrite andthen_fst, andthen_snd.
    pose proof (and_modify_flat k mods m W) as H1.
    eapply Replay.flat_good; [exact H1|]. apply entry_final_good. apply H1.
  - apply Replay.flat_to_good, ref_access_flat, W.
  - apply Replay.flat_to_good, iter_mut_flat, W.
  - apply Replay.flat_to_good, shrink_flat, W.
  - apply Replay.flat_to_good, Replay.flat_nil, W.
Qed.

Lemma mutate_wf m o : wf m -> wf (fst (mutate m o)).
Proof.
  intros W. destruct (op_silent m o) eqn:S.
  - destruct o; cbn [op_silent] in S; try discriminate. cbn [mutate]. apply retain_go_wf, W.
  - apply (mutate_good m o W S).
Qed.

Definition is_done_op (o : op) : bool := match o with MarkDone => true | _ => false end.

Lemma step_done s o : o_done s = true -> step s o = (s, []).
Proof. intros D. unfold step, apply_op. rewrite D. destruct o; reflexivity. Qed.

Lemma step_live s o : o_done s = false -> is_done_op o = false ->
  step s o = ({| o_hm := fst (mutate (o_hm s) o); o_done := false |}, snd (mutate (o_hm s) o)).
Proof.
  intros D N0. destruct s as [hm d]. cbn [o_done o_hm] in *. subst d.
  unfold step, apply_op. cbn [o_done o_hm].
  destruct o; try discriminate; try reflexivity; cbn [mutate]; cbn [fst snd];
    match goal with |- context [let (_, _) := ?t in _] => destruct t; reflexivity end.
Qed.

Lemma step_mark_done s : o_done s = false ->
  step s MarkDone = ({| o_hm := o_hm s; o_done := true |}, [EDone]).
Proof. intros D. unfold step, apply_op. rewrite D. reflexivity. Qed.

Lemma run_ops_nil s : run_ops s [] = (s, []).
Proof. reflexivity. Qed.

Lemma run_ops_cons s o r :
  run_ops s (o :: r) =
  (fst (run_ops (fst (step s o)) r), snd (step s o) ++ snd (run_ops (fst (step s o)) r)).
Proof.
  unfold run_ops. cbn [run_trace]. destruct (step s o) as [s1 e]. cbn [fst snd].
  destruct (run_trace s1 r) as [t s2]. reflexivity.
Qed.

Lemma run_ops_done ops : forall s, o_done s = true -> run_ops s ops = (s, []).
Proof.
  induction ops as [|o r IH]; intros s D; [reflexivity|].
  rewrite run_ops_cons, (step_done s o D). cbn [fst snd]. rewrite (IH s D). reflexivity.
Qed.

Lemma run_ops_app a : forall s b,
  run_ops s (a ++ b) =
  (fst (run_ops (fst (run_ops s a)) b), snd (run_ops s a) ++ snd (run_ops (fst (run_ops s a)) b)).
Proof.
  induction a as [|o r IH]; intros s b.
  - rewrite run_ops_nil. cbn [app fst snd]. destruct (run_ops s b). reflexivity.
  - cbn [app]. rewrite !run_ops_cons, IH. cbn [fst snd]. rewrite app_assoc. reflexivity.
Qed.

Lemma step_wf s o : wf (o_hm s) -> wf (o_hm (fst (step s o))).
Proof.
  intros W. destruct (o_done s) eqn:D.
  - rewrite (step_done s o D). exact W.
  - destruct (is_done_op o) eqn:E.
    + destruct o; try discriminate. rewrite (step_mark_done s D). exact W.
    + rewrite (step_live s o D E). cbn [fst o_hm]. apply mutate_wf, W.
Qed.

Lemma run_ops_wf ops : forall s, wf (o_hm s) -> wf (o_hm (fst (run_ops s ops))).
Proof.
  induction ops as [|o r IH]; intros s W; [exact W|].
  rewrite run_ops_cons. cbn [fst]. apply IH, step_wf, W.
Qed.

Lemma fits_head max s ops : fits max s ops = true -> len (o_hm s) <= max.
Proof. destruct ops; cbn [fits]; intros H; apply andb_true_iff in H; lia. Qed.

(** What a live map broadcasts: content events that replay to the final contents, then [Done]
    iff [done()] was called; sizes along the way are bounded by the sizes between operations. *)
Lemma run_ops_live ops : forall s, o_done s = false -> wf (o_hm s) -> silent_free s ops = true ->
  exists pre,
    snd (run_ops s ops) = pre ++ (if o_done (fst (run_ops s ops)) then [EDone] else []) /\
    data pre /\
    replay (o_hm s) pre = o_hm (fst (run_ops s ops)) /\
    (forall max, fits max s ops = true -> peak (o_hm s) pre <= max).
Proof.
  induction ops as [|o r IH]; intros s D W S.
  - exists []. rewrite run_ops_nil. cbn [fst snd]. rewrite D. repeat split.
    intros max F. cbn [peak]. apply (fits_head max s [] F).
  - cbn [silent_free] in S. rewrite D in S. cbn [negb andb] in S.
    apply andb_true_iff in S. destruct S as [S1 S2]. apply negb_true_iff in S1.
    rewrite run_ops_cons.
    destruct (is_done_op o) eqn:E.
    + destruct o; try discriminate. rewrite (step_mark_done s D). cbn [fst snd].
      rewrite run_ops_done by reflexivity. cbn [fst snd o_done].
      exists []. repeat split.
      intros max F. cbn [peak]. apply (fits_head max s _ F).
    + rewrite (step_live s o D E) in *. cbn [fst snd] in *.
      pose proof (mutate_good (o_hm s) o W S1) as ((W1 & R1 & D1) & P1).
      set (s1 := {| o_hm := fst (mutate (o_hm s) o); o_done := false |}) in *.
      destruct (IH s1 eq_refl W1 S2) as (pre & Hs & Hd & Hr & Hp).
      exists (snd (mutate (o_hm s) o) ++ pre). repeat split.
      * rewrite Hs. rewrite app_assoc. reflexivity.
      * apply Replay.data_app. auto.
      * rewrite replay_app, R1. exact Hr.
      * intros max F. cbn [fits] in F. apply andb_true_iff in F. destruct F as [F1 F2].
        rewrite (step_live s o D E) in F2. cbn [fst] in F2. fold s1 in F2.
        pose proof (Hp max F2) as Hp2. pose proof (fits_head max s1 r F2) as Hh.
        cbn [s1 o_hm] in Hh, Hp2. rewrite peak_app, R1. lia.
Qed.

Lemma initial_sets_up es : forall p, wf (p ++ es) ->
  up p (map (fun e => ESet (fst e) (snd e)) es) (p ++ es).
Proof.
  induction es as [|[k v] r IH]; intros p W.
  - rewrite app_nil_r in *. apply Replay.flat_to_up, Replay.flat_nil, W.
  - cbn [map fst snd].
    change (ESet k v :: map (fun e => ESet (fst e) (snd e)) r)
      with ([ESet k v] ++ map (fun e => ESet (fst e) (snd e)) r).
    assert (Hins : ins k v p = p ++ [(k, v)]).
    { apply ins_append. eapply wf_app_lt. exact W. }
    replace (p ++ (k, v) :: r) with ((p ++ [(k, v)]) ++ r) in * by (rewrite <- app_assoc; reflexivity).
    apply Replay.up_up with (m1 := p ++ [(k, v)]).
    + rewrite <- Hins. apply set_up. apply (wf_app_l p ([(k, v)] ++ r)). rewrite app_assoc. exact W.
    + apply IH. exact W.
Qed.

Lemma mirror_task_data evs : forall rest hm c mx, data evs -> peak hm evs <= mx ->
  mirror_task {| m_hm := hm; m_complete := c; m_done := false; m_max := mx |} (evs ++ rest)
  = mirror_task {| m_hm := replay hm evs; m_complete := c; m_done := false; m_max := mx |} rest.
Proof.
  induction evs as [|e r IH]; intros rest hm c mx Hd Hp; [reflexivity|].
  unfold data in Hd. cbn [forallb] in Hd. apply andb_true_iff in Hd. destruct Hd as [He Hd].
  cbn [peak] in Hp. pose proof (peak_ge (apply_event hm e) r) as Hge.
  change (replay hm (e :: r)) with (replay (apply_event hm e) r).
  cbn [app mirror_task].
  destruct e as [k v|k| | | |]; cbn [handle_event m_hm m_complete m_done m_max apply_event] in *; try discriminate.
  - destruct (mx <? len (ins k v hm)) eqn:E; [lia|]. apply IH; [exact Hd|lia].
  - apply IH; [exact Hd|lia].
  - apply IH; [exact Hd|lia].
  - apply IH; [exact Hd|lia].
Qed.

Lemma init_phase md sk max bevs :
  wf (o_hm sk) -> len (o_hm sk) <= max ->
  mirror_task (mirror_init md sk max) (sub_stream md sk bevs) =
  mirror_task {| m_hm := o_hm sk; m_complete := true;
                 m_done := match md with Snapshot => o_done sk | Incremental => false end; m_max := max |}
              (if o_done sk then [EDone] else bevs).
Proof.
  intros W Hh. unfold mirror_init, sub_stream, initial_map. destruct md; [reflexivity|].
  pose proof (initial_sets_up (o_hm sk) [] W) as ((_ & R0 & D0) & L0 & P0). cbn [app] in R0, L0, P0.
  rewrite <- app_assoc, (mirror_task_data _ _ [] false max D0), R0 by lia. reflexivity.
Qed.

Theorem mirror_correct sk ops md max :
  wf (o_hm sk) -> silent_free sk ops = true -> fits max sk ops = true ->
  let r := mirror_task (mirror_init md sk max) (sub_stream md sk (snd (run_ops sk ops))) in
  snd r = None /\
  m_hm (fst r) = o_hm (fst (run_ops sk ops)) /\
  m_done (fst r) = o_done (fst (run_ops sk ops)) /\
  m_complete (fst r) = true.
Proof.
  intros W S F. cbv zeta. rewrite init_phase by (try exact W; exact (fits_head max sk ops F)).
  destruct (o_done sk) eqn:D.
  - (* subscribed after done(): only the synthesized [Done] follows *)
    rewrite (run_ops_done ops sk D). cbn. rewrite D. repeat split; reflexivity.
  - destruct (run_ops_live ops sk D W S) as (pre & Hs & Hd & Hr & Hp).
    replace (match md with Snapshot => false | Incremental => false end) with false by now destruct md.
    rewrite Hs, (mirror_task_data pre _ (o_hm sk) true max Hd (Hp max F)), Hr.
    destruct (o_done (fst (run_ops sk ops))); cbn; repeat split; reflexivity.
Qed.

Theorem hand_correct sk ops md :
  wf (o_hm sk) -> silent_free sk ops = true ->
  let st := sub_stream md sk (snd (run_ops sk ops)) in
  replay (initial_map md sk) st = o_hm (fst (run_ops sk ops)) /\
  existsb is_done_ev st = o_done (fst (run_ops sk ops)) /\
  match md with Snapshot => True | Incremental => existsb is_complete_ev st = true end.
Proof.
  intros W S. cbv zeta. unfold sub_stream.
  (* what follows the initial value replays to the final contents and ends with [Done] iff done *)
  assert (Ht : replay (o_hm sk) (if o_done sk then [EDone] else snd (run_ops sk ops)) = o_hm (fst (run_ops sk ops)) /\
               existsb is_done_ev (if o_done sk then [EDone] else snd (run_ops sk ops)) = o_done (fst (run_ops sk ops))).
  { destruct (o_done sk) eqn:D; [rewrite (run_ops_done ops sk D); cbn; now rewrite D|].
    destruct (run_ops_live ops sk D W S) as (pre & -> & Hd & Hr & _).
    destruct (Replay.data_no_ctrl _ Hd) as [M1 _]. rewrite replay_app, Hr, existsb_app, M1.
    now destruct (o_done (fst (run_ops sk ops))). }
  destruct Ht as [Ht1 Ht2]. destruct md; [now cbn [initial_map app]|].
  pose proof (initial_sets_up (o_hm sk) [] W) as ((_ & R0 & D0) & _ & _). cbn [app initial_map] in *.
  destruct (Replay.data_no_ctrl _ D0) as [N1 N2].
  rewrite !replay_app, R0, !existsb_app, N1, N2, Ht2. cbn [existsb is_complete_ev orb]. repeat split. exact Ht1.
Qed.

Lemma final_state_split init ops k :
  final_state init ops = fst (run_ops (state_at init ops k) (skipn k ops)).
Proof.
  unfold final_state, state_at. rewrite <- (firstn_skipn k ops) at 1. rewrite run_ops_app. reflexivity.
Qed.

Lemma state_at_wf init ops k : wf (o_hm (state_at init ops k)).
Proof. unfold state_at. apply run_ops_wf. cbn [obs_of o_hm]. apply wf_of_list. Qed.

Theorem mirror_ok_outside_known_class init ops k md max :
  silent_free_from init ops k = true ->
  fits_from max init ops k = true ->
  mirror_ok init ops k md max.
Proof.
  unfold silent_free_from, fits_from, mirror_ok, stream_at. intros S F.
  rewrite (final_state_split init ops k).
  destruct (mirror_correct _ _ md max (state_at_wf init ops k) S F) as (H1 & H2 & H3 & H4).
  repeat split; try assumption. intros key. rewrite H2. reflexivity.
Qed.

Theorem hand_ok_outside_known_class init ops k md :
  silent_free_from init ops k = true -> hand_ok init ops k md.
Proof.
  unfold silent_free_from, hand_ok, stream_at. intros S.
  rewrite (final_state_split init ops k).
  destruct (hand_correct _ _ md (state_at_wf init ops k) S) as (H1 & H2 & H3).
  repeat split; try assumption. intros key. rewrite H1. reflexivity.
Qed.

Lemma lookup_in {A} k (ds : list (N * A)) d : lookup k ds = Some d -> In (k, d) ds.
Proof.
  induction ds as [|[k1 d1] r IH]; cbn [lookup]; [discriminate|].
  destruct (k1 =? k) eqn:E; intros H.
  - injection H as <-. left. f_equal. lia.
  - right. auto.
Qed.

Lemma no_write_not_silent dflt ds m :
  decision_writes dflt = false -> forallb (fun kd => negb (decision_writes (snd kd))) ds = true ->
  retain_silent (decide dflt ds) m = false.
Proof.
  intros H0 Hds. unfold retain_silent.
  assert (Hall : forall k, decision_writes (decide dflt ds k) = false).
  { intros k. unfold decide. destruct (lookup k ds) as [d|] eqn:E; [|exact H0].
    apply lookup_in in E. rewrite forallb_forall in Hds. specialize (Hds _ E). cbn [snd] in Hds.
    apply negb_true_iff in Hds. exact Hds. }
  induction m as [|e r IH]; [reflexivity|]. cbn [existsb]. rewrite IH, orb_false_r.
  specialize (Hall (fst e)). unfold decision_writes in Hall.
  destruct (d_keep (decide dflt ds (fst e))); [|reflexivity]. cbn [andb] in *.
  destruct (d_acc (decide dflt ds (fst e))); [reflexivity|reflexivity|discriminate].
Qed.

Lemma no_retain_mutation_silent_free ops : forall s,
  no_retain_mutation ops = true -> silent_free s ops = true.
Proof.
  induction ops as [|o r IH]; intros s H; [reflexivity|].
  unfold no_retain_mutation in H. cbn [forallb] in H. apply andb_true_iff in H. destruct H as [H1 H2].
  cbn [silent_free]. rewrite (IH _ H2), andb_true_r. apply negb_true_iff.
  destruct (o_done s); [reflexivity|]. cbn [negb andb].
  destruct o; try reflexivity. cbn [op_silent].
  apply andb_true_iff in H1. destruct H1 as [Ha Hb]. apply negb_true_iff in Ha.
  apply no_write_not_silent; assumption.
Qed.

Lemma no_retain_mutation_skipn k : forall ops,
  no_retain_mutation ops = true -> no_retain_mutation (skipn k ops) = true.
Proof.
  induction k as [|k IH]; intros ops H; [exact H|]. destruct ops as [|o r]; [exact H|].
  cbn [skipn]. apply IH. unfold no_retain_mutation in *. cbn [forallb] in H.
  apply andb_true_iff in H. tauto.
Qed.

Theorem no_retain_mutation_sound init ops k :
  no_retain_mutation ops = true -> silent_free_from init ops k = true.
Proof.
  intros H. unfold silent_free_from. apply no_retain_mutation_silent_free, no_retain_mutation_skipn, H.
Qed.

Theorem no_retain_mutation_ok init ops k md max :
  no_retain_mutation ops = true ->
  fits_from max init ops k = true ->
  mirror_ok init ops k md max /\ hand_ok init ops k md.
Proof.
  intros H F. pose proof (no_retain_mutation_sound init ops k H) as S. split.
  - apply mirror_ok_outside_known_class; assumption.
  - apply hand_ok_outside_known_class; assumption.
Qed.

From Remoc Require Gen.Api Robs.SeqCommonProofs.
Import SeqCommonProofs (str_in).

Lemma api_covered :
  Gen.Api.hash_map_ObservableHashMap_mutators = map op_name all_ops ++ consuming_ops /\
  Gen.Api.hash_map_Entry_mutators = entry_methods /\
  Gen.Api.hash_map_OccupiedEntry_mutators = occupied_methods /\
  Gen.Api.hash_map_VacantEntry_mutators = vacant_methods /\
  Gen.Api.hash_map_RefMut_mutators = [] /\ Gen.Api.hash_map_IterMut_mutators = [] /\
  Gen.Api.hash_map_ValuesMut_mutators = [].
Proof. repeat split; reflexivity. Qed.

Lemma entry_names_complete u : match entry_final_name u with Some n => In n entry_methods | None => True end.
Proof. destruct u; try exact I; apply str_in; reflexivity. Qed.
Lemma occupied_names_complete s f :
  In (occ_step_name s) occupied_methods /\
  match occ_final_name f with Some n => In n occupied_methods | None => True end.
Proof. split; [destruct s|destruct f; try exact I]; apply str_in; reflexivity. Qed.
Lemma vacant_names_complete u : match vac_name u with Some n => In n vacant_methods | None => True end.
Proof. destruct u; try exact I; apply str_in; reflexivity. Qed.

(** the witness of F4: the full statement fails on it *)
Definition f4_ops : list op := [Retain {| d_keep := true; d_acc := AWrite 11 |} []].

(** the witness of the former F11 class (repaired in /repo by commit 290b96a): an incremental
    subscription of a non-empty map made after [done()] *)
Definition f11_ops : list op := [MarkDone].
