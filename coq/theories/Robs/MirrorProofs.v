(** Proofs about [Robs/Mirror.v]: an invariant over all action lists from which C14 follows. *)
From Remoc Require Import Lib.Base Rch.Broadcast Rch.BroadcastProofs Robs.Mirror.

Lemma nth_error_upd_nth {A} (f : A -> option A) : forall (l : list A) i l' k,
  upd_nth l i f = Some l' ->
  nth_error l' k = if Nat.eqb k i then match nth_error l i with Some x => f x | None => None end else nth_error l k.
Proof.
  induction l as [|x r IH]; intros i l' k H; [destruct i; discriminate|].
  destruct i as [|j]; cbn [upd_nth] in H.
  - destruct (f x) as [y|] eqn:Hy; [|discriminate]. injection H as <-.
    destruct k; cbn [Nat.eqb nth_error]; congruence.
  - destruct (upd_nth r j f) as [r'|] eqn:Hr; [|discriminate]. injection H as <-.
    destruct k as [|k]; cbn [Nat.eqb nth_error]; [reflexivity|]. now apply IH.
Qed.

Lemma upd_nth_at {A} (f : A -> option A) : forall l i l',
  upd_nth l i f = Some l' -> exists x y, nth_error l i = Some x /\ f x = Some y.
Proof.
  induction l as [|x r IH]; intros i l' H; [destruct i; discriminate|].
  destruct i as [|j]; cbn [upd_nth nth_error] in *.
  - destruct (f x) as [y|] eqn:Hy; [|discriminate]. now exists x, y.
  - destruct (upd_nth r j f) as [r'|] eqn:Hr; [|discriminate]. exact (IH _ _ Hr).
Qed.

(** the broadcast model's [upd] is [upd_nth] on its subscribers *)
Lemma upd_eq (f : sub -> option sub) : forall l i, upd l i f = upd_nth l i f.
Proof. induction l as [|x r IH]; intros [|j]; cbn [upd upd_nth]; try reflexivity. now rewrite IH. Qed.

Lemma nth_error_upd (f : sub -> option sub) (l : list sub) i l' k :
  upd l i f = Some l' ->
  nth_error l' k = if Nat.eqb k i then match nth_error l i with Some x => f x | None => None end else nth_error l k.
Proof. rewrite upd_eq. apply nth_error_upd_nth. Qed.

Lemma upd_at (f : sub -> option sub) (l : list sub) i l' x :
  upd l i f = Some l' -> nth_error l i = Some x -> exists y, f x = Some y /\ nth_error l' i = Some y.
Proof.
  rewrite upd_eq. intros H Hx. destruct (upd_nth_at _ _ _ _ H) as (x0 & y & Hx0 & Hy).
  rewrite Hx in Hx0. injection Hx0 as <-. exists y. split; [exact Hy|].
  now rewrite (nth_error_upd_nth _ _ _ _ i H), Nat.eqb_refl, Hx.
Qed.

Lemma firstn_skipn_snoc {A} (h : list A) s t e :
  nth_error h (s + t) = Some e -> firstn (S t) (skipn s h) = firstn t (skipn s h) ++ [e].
Proof.
  revert h t. induction s as [|s IH]; intros h t H.
  - cbn [skipn plus] in *. revert h H. induction t as [|t IHt]; intros h H.
    + destruct h; cbn in *; congruence.
    + destruct h as [|x h]; [discriminate|]. cbn [nth_error] in H.
      change (firstn (S (S t)) (x :: h)) with (x :: firstn (S t) h). rewrite (IHt _ H). reflexivity.
  - destruct h as [|x h]; [destruct t; discriminate|]. cbn [plus nth_error skipn] in *. now apply IH.
Qed.

Lemma firstn_skipn_app_stable {A} (h x : list A) s t :
  (s + t <= length h)%nat -> firstn t (skipn s (h ++ x)) = firstn t (skipn s h).
Proof.
  intros H. rewrite skipn_app. rewrite firstn_app.
  replace (t - length (skipn s h))%nat with O by (rewrite skipn_length; lia).
  cbn [firstn]. now rewrite app_nil_r.
Qed.

Lemma vals_from_length a k : length (vals_from a k) = k.
Proof. revert a. induction k as [|k IH]; intros a; cbn [vals_from length]; auto. Qed.

Lemma end_state_vals e k : end_state e false (vals_from e k) = (e + N.of_nat k, false).
Proof.
  revert e. induction k as [|k IH]; intros e; cbn [vals_from end_state].
  - f_equal. lia.
  - rewrite IH. f_equal. lia.
Qed.

Lemma wf_after_vals e k l :
  wf_stream e false (vals_from e k ++ l) -> wf_stream (e + N.of_nat k) false l.
Proof. intros H. apply wf_app in H. destruct H as [_ H]. now rewrite end_state_vals in H. Qed.

Lemma wf_head e x l : wf_stream e false (x :: l) -> x = Value e \/ x = Lagged.
Proof. intros H. inversion H; subst; auto. Qed.

Lemma end_state_mono e b l : wf_stream e b l -> e <= fst (end_state e b l).
Proof.
  induction 1 as [e b|e l H IH|e j l Hj H IH|e b l H IH]; cbn [end_state fst] in *; lia.
Qed.

Lemma end_state_val_lt e b l i : wf_stream e b l -> In (Value i) l -> i < fst (end_state e b l).
Proof.
  induction 1 as [e b|e l H IH|e j l Hj H IH|e b l H IH]; intros Hin; cbn [end_state] in *.
  - contradiction.
  - destruct Hin as [Hin|Hin]; [injection Hin as <-; apply end_state_mono in H; lia|auto].
  - destruct Hin as [Hin|Hin]; [injection Hin as <-; apply end_state_mono in H; lia|auto].
  - destruct Hin as [Hin|Hin]; [discriminate|auto].
Qed.

Lemma pending_bound n s : pending_ok n s -> fst (end_state (start s) false (stream s)) <= n.
Proof.
  unfold pending_ok. destruct (end_state (start s) false (stream s)) as [e b]. cbn [fst].
  destruct (status_of s) as [|[|]|]; [destruct b| | |]; intros H; try lia; tauto.
Qed.

Lemma next_item n (b : sub) k x rest :
  sinv n b -> alive b = true ->
  stream b = vals_from (start b) k ++ x :: rest ->
  x = Lagged \/ (x = Value (start b + N.of_nat k) /\ start b + N.of_nat k < n).
Proof.
  intros (Hwf & Hp & _) Ha Hs. specialize (Hp Ha). apply pending_bound in Hp.
  assert (Hw := Hwf). rewrite Hs in Hw. apply wf_after_vals in Hw.
  destruct (wf_head _ _ _ Hw) as [->| ->]; [right|now left]. split; [reflexivity|].
  eapply N.lt_le_trans; [|exact Hp]. eapply end_state_val_lt; [exact Hwf|].
  rewrite Hs. apply in_or_app. right. now left.
Qed.

(** effect of the broadcast sub-level functions on what a subscriber-side view depends on *)
Definition same_view (b b' : sub) : Prop :=
  start b' = start b /\ consumed b' = consumed b /\ alive b' = alive b.

Lemma view_send n b : same_view b (sub_send n b).
Proof.
  unfold same_view, sub_send, set_status, push, park. destruct (status_of b); [|now auto|now auto].
  destruct (negb (alive b)); [now auto|]. destruct (room b); now auto.
Qed.
Lemma view_readmit1 b b' : sub_readmit1 b = Some b' -> same_view b b'.
Proof.
  unfold same_view, sub_readmit1, set_status, push. destruct (status_of b) as [|[|]|]; try discriminate.
  destruct (negb (alive b)); [intros H; injection H as <-; now auto|].
  destruct (room b); [|discriminate]. intros H; injection H as <-; now auto.
Qed.
Lemma view_readmit2 b b' : sub_readmit2 b = Some b' -> same_view b b'.
Proof.
  unfold same_view, sub_readmit2, set_status, set_held. destruct (status_of b) as [|[|]|]; try discriminate.
  destruct (negb (alive b)); [intros H; injection H as <-; now auto|].
  destruct (room b); [|discriminate]. intros H; injection H as <-; now auto.
Qed.
Lemma view_release b b' : sub_release b = Some b' -> same_view b b'.
Proof.
  unfold same_view, sub_release, set_held. destruct (0 <? held b); [|discriminate].
  intros H; injection H as <-; now auto.
Qed.

Lemma consume_view b b' :
  sub_consume b = Some b' ->
  exists x q, queue b = x :: q /\ queue b' = q /\ consumed b' = consumed b ++ [x] /\
              start b' = start b /\ alive b' = true /\ alive b = true /\ status_of b' = status_of b.
Proof.
  unfold sub_consume. destruct (alive b) eqn:Ha; [|discriminate]. destruct (queue b) as [|x q] eqn:Hq; [discriminate|].
  intros H; injection H as <-. exists x, q. cbn. repeat split; reflexivity.
Qed.

Lemma drop_view b b' : sub_drop b = Some b' -> start b' = start b /\ consumed b' = consumed b.
Proof. unfold sub_drop. destruct (alive b); [|discriminate]. intros H; injection H as <-. cbn. auto. Qed.

Lemma upd_state_nth st i f st' k :
  upd_state st i f = Some st' ->
  next st' = next st /\
  nth_error (subs st') k =
    if Nat.eqb k (N.to_nat i) then match nth_error (subs st) (N.to_nat i) with Some x => f x | None => None end
    else nth_error (subs st) k.
Proof.
  unfold upd_state. destruct (upd (subs st) (N.to_nat i) f) as [l|] eqn:Hu; [|discriminate].
  intros H; injection H as <-. cbn [next subs]. split; [reflexivity|]. now apply nth_error_upd.
Qed.

Lemma upd_state_at st i f st' b :
  upd_state st i f = Some st' -> nth_error (subs st) (N.to_nat i) = Some b ->
  exists b', f b = Some b' /\ nth_error (subs st') (N.to_nat i) = Some b'.
Proof.
  unfold upd_state. destruct (upd (subs st) (N.to_nat i) f) as [l|] eqn:Hu; [|discriminate].
  intros [= <-]. exact (upd_at _ _ _ _ _ Hu).
Qed.

Lemma sinv_at b0 j b : Inv b0 -> nth_error (subs b0) j = Some b -> sinv (next b0) b.
Proof. unfold Inv. rewrite Forall_forall. intros H Hn. apply H. eapply nth_error_In; eauto. Qed.

Section Proofs.
  Variable I : iface.
  (** the [Done] event is recognisable (true of all four event types) *)
  Hypothesis done_ev : forall e, i_isdone I e = true -> e = i_edone I.

  Local Notation rsub := (rsub I).
  Local Notation mstate := (mstate I).
  Local Notation E := (iE I).

  (** the subscriber's position in its broadcast receiver *)
  Definition binv (h : list E) (b0 : Broadcast.state) (r : rsub) : Prop :=
    match r_bidx r with
    | None => r_taken r = 0%nat /\ r_events r = false
    | Some j =>
        exists b, nth_error (subs b0) j = Some b /\ start b = N.of_nat (r_start r) /\
          firstn (r_taken r) (consumed b) = vals_from (start b) (r_taken r) /\
          (r_start r + r_taken r <= length h)%nat /\
          (r_events r = false -> r_sdone r = true) /\
          (r_stopped r = false -> alive b = true /\ (r_remote r = false -> r_taken r = length (consumed b)))
    end.

  (** the events [L] returned so far: the consumed part of the initial value, then a gap-free run of
      the history from the subscription point *)
  Definition linv_log (h : list E) (r : rsub) (L : list E) : Prop :=
    exists A0, r_einit r = A0 ++ r_init r /\
      L = A0 ++ match r_bidx r with
                | None => if r_sdone r then [i_edone I] else []
                | Some _ => firstn (r_taken r) (skipn (r_start r) h)
                end /\
      (r_init r <> [] -> r_taken r = 0%nat /\ r_sdone r = false).
  Definition linv (h : list E) (r : rsub) : Prop := linv_log h r (evs_of I (r_log r)).

  (** the consumer: no error and every returned event applied, or stopped at the first error with
      the state it had then *)
  Definition cinv (r : rsub) : Prop :=
    let L := evs_of I (r_log r) in
    match r_err r with
    | None => r_log r = map REv L /\ applied I r L (r_m r)
    | Some c =>
        r_stopped r = true /\
        ((r_log r = map REv L ++ [RErr c] /\ applied I r L (r_m r)) \/
         (r_mirror r = true /\ r_log r = map REv L /\
          exists L' e m' err, L = L' ++ [e] /\ hfold I (r_m0 r) L' = Some m' /\
                              i_handle I m' e = (r_m r, Some err) /\ i_cls I err = c))
    end.

  Definition uniq (l : list rsub) : Prop :=
    forall i1 i2 r1 r2 j, nth_error l i1 = Some r1 -> nth_error l i2 = Some r2 ->
                          r_bidx r1 = Some j -> r_bidx r2 = Some j -> i1 = i2.

  Definition ginv (s : mstate) : Prop :=
    Inv (bc s) /\ N.of_nat (length (hist s)) = next (bc s) /\ uniq (rsubs s) /\
    (forall k r, nth_error (rsubs s) k = Some r -> binv (hist s) (bc s) r /\ linv (hist s) r /\ cinv r).

  Lemma evs_of_app l1 l2 : evs_of I (l1 ++ l2) = evs_of I l1 ++ evs_of I l2.
  Proof. unfold evs_of. now rewrite flat_map_app. Qed.
  Lemma evs_of_map l : evs_of I (map REv l) = l.
  Proof. induction l as [|x l IH]; cbn; [reflexivity|]. f_equal. exact IH. Qed.

  Lemma hfold_snoc m l e m1 m2 :
    hfold I m l = Some m1 -> i_handle I m1 e = (m2, None) -> hfold I m (l ++ [e]) = Some m2.
  Proof.
    revert m. induction l as [|x l IH]; intros m H1 H2; cbn [hfold app] in *.
    - injection H1 as ->. now rewrite H2.
    - destruct (i_handle I m x) as [m' [err|]]; [discriminate|]. now apply IH.
  Qed.

  Ltac prj := cbn [r_mirror r_remote r_bidx r_start r_m0 r_einit r_init r_events r_sdone r_taken r_fault
                   r_log r_m r_err r_stopped] in *.

  Lemma cinv_none r : cinv r -> r_stopped r = false -> r_err r = None.
  Proof. unfold cinv. destruct (r_err r); [|reflexivity]. intros [H _] H2. congruence. Qed.

  Lemma deliver_shape r x : exists m e st, deliver I r x = set_cons I r (r_log r ++ [x]) m e st.
  Proof.
    unfold deliver. destruct x as [ev|c]; [|eauto].
    destruct (r_mirror r); [destruct (i_handle I (r_m r) ev) as [m' [err|]]|]; eauto.
  Qed.

  Lemma log_snoc_ev lg e : lg = map REv (evs_of I lg) -> lg ++ [REv e] = map REv (evs_of I (lg ++ [REv e])).
  Proof. intros H. rewrite evs_of_app, map_app. cbn [evs_of flat_map app map]. now rewrite <- H. Qed.

  Lemma cinv_deliver_ev r e :
    cinv r -> r_err r = None -> cinv (deliver I r (REv e)).
  Proof.
    unfold cinv. intros H He. rewrite He in H. destruct H as [Hl Ha]. apply (log_snoc_ev _ e) in Hl.
    unfold deliver, applied in *.
    destruct (r_mirror r) eqn:Hm; [destruct (i_handle I (r_m r) e) as [m' [err|]] eqn:Hh|];
      unfold set_cons; prj; rewrite ?Hm, ?evs_of_app; cbn [evs_of flat_map app].
    - split; [reflexivity|]. right. rewrite evs_of_app in Hl. split; [reflexivity|]. split; [exact Hl|].
      exists (evs_of I (r_log r)), e, (r_m r), err. auto.
    - rewrite evs_of_app in Hl. split; [exact Hl|]. eapply hfold_snoc; eauto.
    - rewrite evs_of_app in Hl. split; [exact Hl|exact Ha].
  Qed.

  Lemma cinv_deliver_err r c :
    cinv r -> r_err r = None -> cinv (deliver I r (RErr c)).
  Proof.
    unfold cinv. intros H He. rewrite He in H. destruct H as [Hl Ha].
    unfold deliver, set_cons, applied in *. prj. split; [reflexivity|]. left.
    rewrite evs_of_app. cbn [evs_of flat_map app]. rewrite app_nil_r. split; [now rewrite <- Hl|exact Ha].
  Qed.

  Lemma cinv_set_sub r ini ev sd tk f : cinv (set_sub I r ini ev sd tk f) <-> cinv r.
  Proof. unfold cinv, applied, set_sub. prj. tauto. Qed.

  Arguments deliver : simpl never.
  Arguments set_sub : simpl never.
  Arguments take_item : simpl never.

  Lemma recv_out_spec b0 d r o :
    recv_out I b0 d r = Some o ->
    match o with
    | OInit _ e rest _ => r_init r = e :: rest
    | OErr _ _ => True
    | OTake _ b1 _ x =>
        r_init r = [] /\ r_events r = true /\ exists j b, r_bidx r = Some j /\ nth_error (subs b0) j = Some b /\
          ((r_remote r = true /\ b1 = b0 /\ nth_error (consumed b) (r_taken r) = Some x) \/
           (r_remote r = false /\ upd_state b0 (N.of_nat j) sub_consume = Some b1 /\ exists q, queue b = x :: q))
    | OSynthDone _ => r_init r = [] /\ r_events r = false /\ r_sdone r = false
    end.
  Proof.
    unfold recv_out. destruct (r_init r) as [|e [|e' rest]].
    2: now intros [= <-].
    2: destruct (r_fault r) as [[[|ni] nw]|]; now intros [= <-].
    destruct (r_events r); [|destruct (r_sdone r); [discriminate|now intros [= <-]]].
    destruct (r_bidx r) as [j|]; [|discriminate].
    destruct (nth_error (subs b0) j) as [b|] eqn:Hn; [|discriminate].
    assert (Hc : forall c, (if d && negb (parked b) && is_nil (queue b) then Some (OErr I c) else None) = Some o ->
                           o = OErr I c) by (intros c; destruct (_ && _); now intros [= <-]).
    destruct (r_remote r).
    - destruct (r_fault r) as [[ni [|nw]]|]; [now intros [= <-]| |];
        (destruct (nth_error (consumed b) (r_taken r)) as [x|] eqn:Hx; [|try now intros [= <-]]).
      1, 2: intros [= <-]; do 2 (split; [reflexivity|]); exists j, b; auto 6.
      intros H. now rewrite (Hc _ H).
    - destruct (queue b) as [|x q] eqn:Hq.
      + intros H. now rewrite (Hc _ H).
      + destruct (upd_state b0 (N.of_nat j) sub_consume) as [b1|] eqn:Hu; [|discriminate].
        intros [= <-]. do 2 (split; [reflexivity|]). exists j, b. eauto 8.
  Qed.

  Definition bstep (b0 b1 : Broadcast.state) (r : rsub) : Prop :=
    b1 = b0 \/ exists j, r_bidx r = Some j /\ upd_state b0 (N.of_nat j) sub_consume = Some b1.

  (** (an error stops the consumer: [binv] of [deliver r (RErr c)] is [binv] of [r] stopped, by computation) *)
  Lemma binv_deliver_ev h b0 r e : r_stopped r = false -> binv h b0 r -> binv h b0 (deliver I r (REv e)).
  Proof.
    intros Hst. destruct (deliver_shape r (REv e)) as (m & err & st & ->). unfold binv, set_cons. prj.
    destruct (r_bidx r); [|auto]. intros (b & H1 & H2 & H3 & H4 & H5 & H6). exists b. repeat split; try assumption; now apply H6.
  Qed.

  Lemma binv_stop h b0 r lg m e : binv h b0 r -> binv h b0 (set_cons I r lg m e true).
  Proof.
    unfold binv, set_cons. prj. destruct (r_bidx r); [|auto].
    intros (b & H1 & H2 & H3 & H4 & H5 & _). exists b. repeat split; auto; discriminate.
  Qed.

  Lemma deliver_inv h b (r r1 : rsub) x :
    r_stopped r1 = false -> cinv r1 -> r_bidx r1 = r_bidx r -> r_log r1 = r_log r ->
    binv h b (deliver I r1 x) -> linv_log h r1 (evs_of I (r_log r ++ [x])) ->
    binv h b (deliver I r1 x) /\ linv h (deliver I r1 x) /\ cinv (deliver I r1 x) /\
    r_bidx (deliver I r1 x) = r_bidx r.
  Proof.
    intros Hst Hc Hbi Hlog Hb Hl. pose proof (cinv_none _ Hc Hst) as He. rewrite <- Hlog in Hl.
    split; [exact Hb|]. destruct (deliver_shape r1 x) as (m & e & st & E). split; [|split].
    - rewrite E. exact Hl.
    - destruct x; [now apply cinv_deliver_ev|now apply cinv_deliver_err].
    - rewrite E. exact Hbi.
  Qed.

  (** the item taken (directly, or from what the forwarding task has consumed) is the next value, in range, or the
      marker; [b'] is the receiver afterwards *)
  Lemma take_view b0 b1 (r : rsub) x j b :
    Inv b0 -> nth_error (subs b0) j = Some b -> r_bidx r = Some j ->
    firstn (r_taken r) (consumed b) = vals_from (start b) (r_taken r) ->
    alive b = true -> (r_remote r = false -> r_taken r = length (consumed b)) ->
    ((r_remote r = true /\ b1 = b0 /\ nth_error (consumed b) (r_taken r) = Some x) \/
     (r_remote r = false /\ upd_state b0 (N.of_nat j) sub_consume = Some b1 /\ exists q, queue b = x :: q)) ->
    (x = Lagged \/ (x = Value (start b + N.of_nat (r_taken r)) /\ start b + N.of_nat (r_taken r) < next b0)) /\
    exists b', nth_error (subs b1) j = Some b' /\ start b' = start b /\ alive b' = true /\
      nth_error (consumed b') (r_taken r) = Some x /\
      firstn (r_taken r) (consumed b') = firstn (r_taken r) (consumed b) /\
      (r_remote r = false -> S (r_taken r) = length (consumed b')) /\
      bstep b0 b1 r.
  Proof.
    intros HI Hn Hj Hfirst Halive Hlocal Hcase. pose proof (sinv_at _ _ _ HI Hn) as Hsinv.
    destruct Hcase as [(Hrm & -> & Hnx)|(Hrm & Hu & q & Hq)].
    - split.
      + destruct (nth_error_split _ _ Hnx) as (l1 & l2 & Hc12 & Hl1).
        eapply (next_item _ b (r_taken r) x (l2 ++ queue b)); eauto.
        unfold stream. rewrite Hc12, <- app_assoc. cbn [app]. f_equal.
        rewrite <- Hfirst, Hc12, <- Hl1. rewrite firstn_app, firstn_all, Nat.sub_diag. cbn [firstn]. now rewrite app_nil_r.
      + exists b. repeat split; auto; [congruence|now left].
    - destruct (upd_state_nth _ _ _ _ j Hu) as [_ Hnj].
      rewrite Nat2N.id, Nat.eqb_refl, Hn in Hnj.
      destruct (sub_consume b) as [b'|] eqn:Hcons; [|unfold sub_consume in Hcons; rewrite Halive, Hq in Hcons; discriminate].
      destruct (consume_view _ _ Hcons) as (x' & q' & Hq' & _ & Hc' & Hs' & Ha' & _ & _).
      rewrite Hq in Hq'. injection Hq' as <- <-.
      specialize (Hlocal Hrm).
      split.
      + eapply (next_item _ b (r_taken r) x q); eauto.
        unfold stream. rewrite Hq. f_equal. rewrite <- Hfirst, Hlocal. now rewrite firstn_all.
      + exists b'. repeat split; auto.
        * rewrite Hc', Hlocal. apply nth_error_snoc.
        * rewrite Hc'. apply firstn_snoc_le. lia.
        * intros _. rewrite Hc', app_length. cbn [length]. lia.
        * right. exists j. auto.
  Qed.

  Lemma recv_inv h b0 dropped r b1 r' :
    Inv b0 -> N.of_nat (length h) = next b0 ->
    binv h b0 r -> linv h r -> cinv r ->
    recv_sub I b0 h dropped r = Some (b1, r') ->
    bstep b0 b1 r /\ binv h b1 r' /\ linv h r' /\ cinv r' /\ r_bidx r' = r_bidx r.
  Proof.
    intros HI Hlen Hb (A0 & Ha & Hev & Hne) Hc. unfold recv_sub. destruct (r_stopped r) eqn:Hst; [discriminate|].
    destruct (recv_out I b0 dropped r) as [o|] eqn:Ho; [|discriminate]. apply recv_out_spec in Ho.
    destruct o as [e rest f|c|b1' f x|]; unfold apply_out.
    - intros [= <- <-]. split; [now left|]. destruct (Hne ltac:(now rewrite Ho)) as [Ht Hsd].
      apply deliver_inv; try reflexivity; [exact Hst|now apply cinv_set_sub| |].
      + apply binv_deliver_ev; [exact Hst|exact Hb].
      + exists (A0 ++ [e]). unfold set_sub. prj. rewrite evs_of_app, Hev, Ht, Hsd, Ha, Ho, <- !app_assoc.
        repeat split; auto. cbn [evs_of flat_map firstn]. destruct (r_bidx r); reflexivity.
    - (* [Closed] or a receive error *)
      intros [= <- <-]. split; [now left|]. apply deliver_inv; try assumption; try reflexivity.
      + exact (binv_stop _ _ _ _ _ _ Hb).
      + exists A0. rewrite evs_of_app, app_nil_r. auto.
    - destruct Ho as (Hinit & Hevt & j & b & Hj & Hn & Hcase).
      unfold binv in Hb. rewrite Hj in Hb. destruct Hb as (b_ & Hn_ & Hstart & Hfirst & Hbound & Hsd & Hal).
      rewrite Hn in Hn_. injection Hn_ as <-. destruct (Hal Hst) as [Halive Hlocal].
      destruct (take_view _ _ _ _ _ _ HI Hn Hj Hfirst Halive Hlocal Hcase)
        as (Hx & b' & Hnb' & Hsb' & Hab' & Hnx' & Hf' & Hloc' & Hbs).
      destruct Hx as [->|[-> Hlt]]; unfold take_item.
      + (* the marker: the consumer stops *)
        intros [= <- <-]. split; [exact Hbs|].
        apply deliver_inv; try reflexivity; [exact Hst|now apply cinv_set_sub| |].
        * unfold deliver, binv, set_cons, set_sub. prj. rewrite Hj. exists b'.
          rewrite Hsb', Hf'. repeat split; auto; discriminate.
        * exists A0. unfold set_sub. prj. rewrite evs_of_app, app_nil_r. auto.
      + rewrite Hstart in *. rewrite <- Hlen in Hlt.
        replace (N.to_nat (N.of_nat (r_start r) + N.of_nat (r_taken r))) with (r_start r + r_taken r)%nat by (clear; lia).
        destruct (nth_error h (r_start r + r_taken r)) as [e|] eqn:Hnth; [|discriminate].
        replace (if i_isdone I e then i_edone I else e) with e
          by (destruct (i_isdone I e) eqn:Hd; [now apply done_ev|reflexivity]).
        intros [= <- <-]. split; [exact Hbs|].
        apply deliver_inv; try reflexivity; [exact Hst|now apply cinv_set_sub| |].
        * apply binv_deliver_ev; [exact Hst|]. unfold binv, set_sub. prj. rewrite Hj. exists b'.
          rewrite Hsb'. repeat split; auto.
          -- rewrite (firstn_S_nth _ _ _ Hnx'), Hf', Hfirst. now rewrite vals_from_snoc.
          -- assert (Hx2 : nth_error h (r_start r + r_taken r) <> None) by congruence. apply nth_error_Some in Hx2. clear - Hx2. lia.
          -- destruct (i_isdone I e); [reflexivity|discriminate].
        * exists A0. unfold set_sub. prj. rewrite Hj in *. rewrite evs_of_app, Hev. cbn [evs_of flat_map].
          rewrite <- app_assoc, (firstn_skipn_snoc _ _ _ _ Hnth). repeat split; auto; congruence.
    - (* the synthesized final [Done] *)
      destruct Ho as (Hinit & Hevt & Hsd). intros [= <- <-]. split; [now left|].
      assert (Hbi : r_bidx r = None).
      { unfold binv in Hb. destruct (r_bidx r) as [j|]; [|reflexivity].
        destruct Hb as (b & _ & _ & _ & _ & Hs & _). specialize (Hs Hevt). congruence. }
      apply deliver_inv; try reflexivity; [exact Hst|now apply cinv_set_sub| |].
      + apply binv_deliver_ev; [exact Hst|]. unfold binv, set_sub in *. prj. rewrite Hbi in *. tauto.
      + exists A0. unfold set_sub. prj. rewrite Hbi in *. rewrite evs_of_app, Hev, Hsd, Hinit in *.
        cbn [evs_of flat_map]. rewrite !app_nil_r in *. repeat split; auto; congruence.
  Qed.

  Lemma binv_frame h h' b0 b1 r :
    (length h <= length h')%nat ->
    (forall j b, r_bidx r = Some j -> nth_error (subs b0) j = Some b ->
       exists b', nth_error (subs b1) j = Some b' /\ start b' = start b /\
         ((consumed b' = consumed b /\ alive b' = alive b) \/
          (r_stopped r = true /\ exists ext, consumed b' = consumed b ++ ext) \/
          (r_remote r = true /\ alive b' = alive b /\ exists ext, consumed b' = consumed b ++ ext))) ->
    binv h b0 r -> binv h' b1 r.
  Proof.
    unfold binv. intros Hlen Hf H. destruct (r_bidx r) as [j|]; [|exact H].
    destruct H as (b & H1 & H2 & H3 & H4 & H5 & H6).
    destruct (Hf j b eq_refl H1) as (b' & Hn & Hs & Hc). exists b'. rewrite Hs.
    assert (Htk : (r_taken r <= length (consumed b))%nat).
    { assert (Hx : length (firstn (r_taken r) (consumed b)) = r_taken r) by (rewrite H3; apply vals_from_length).
      rewrite firstn_length in Hx. clear - Hx. lia. }
    split; [exact Hn|]. split; [exact H2|].
    destruct Hc as [[Hc Ha]|[[Hst (ext & Hc)]|(Hrm & Ha & ext & Hc)]].
    - rewrite Hc, Ha. split; [exact H3|]. split; [lia|]. split; [exact H5|exact H6].
    - rewrite Hc. split; [now rewrite firstn_snoc_le|]. split; [lia|]. split; [exact H5|]. intros; congruence.
    - rewrite Hc, Ha. split; [now rewrite firstn_snoc_le|]. split; [lia|]. split; [exact H5|].
      intros Hs'. destruct (H6 Hs') as [Hal _]. split; [exact Hal|]. intros; congruence.
  Qed.

  Lemma binv_same_bc h b0 r : binv h b0 r -> forall h', (length h <= length h')%nat -> binv h' b0 r.
  Proof.
    intros H h' Hl. eapply binv_frame; [exact Hl| |exact H]. intros j b _ Hn. exists b. auto.
  Qed.

  Lemma binv_upd h b0 b1 i f r :
    upd_state b0 i f = Some b1 -> (forall b b', f b = Some b' -> same_view b b') ->
    binv h b0 r -> binv h b1 r.
  Proof.
    intros Hu Hv. apply binv_frame; [lia|]. intros j b _ Hn.
    destruct (Nat.eq_dec j (N.to_nat i)) as [->|Hne].
    - destruct (upd_state_at _ _ _ _ _ Hu Hn) as (b' & Hfb & Hn'). exists b'.
      destruct (Hv _ _ Hfb) as (Hs & Hc & Ha). auto.
    - exists b. destruct (upd_state_nth _ _ _ _ j Hu) as [_ ->].
      destruct (Nat.eqb_spec j (N.to_nat i)); [contradiction|auto].
  Qed.

  Lemma linv_grow h x b0 r : binv h b0 r -> linv h r -> linv (h ++ x) r.
  Proof.
    unfold linv, binv. intros Hb (A0 & H1 & H2 & H3). exists A0. split; [exact H1|]. split; [|exact H3].
    rewrite H2. destruct (r_bidx r); [|reflexivity]. destruct Hb as (b & _ & _ & _ & Hb & _).
    now rewrite firstn_skipn_app_stable.
  Qed.

  Lemma binv_lt h b0 r j : binv h b0 r -> r_bidx r = Some j -> (j < length (subs b0))%nat.
  Proof.
    unfold binv. intros H Hj. rewrite Hj in H. destruct H as (b & Hn & _). apply nth_error_Some. congruence.
  Qed.

  Lemma ginv_init c : ginv (init_state I c).
  Proof.
    unfold ginv, init_state. cbn [bc hist rsubs]. split; [apply Inv_init|]. split; [reflexivity|].
    split; [intros i1 i2 r1 r2 j H; destruct i1; discriminate|]. intros k r H. destruct k; discriminate.
  Qed.

  Lemma new_rsub_inv mi rm incr c mx bidx h b0 :
    (match bidx with
     | None => True
     | Some j => exists b, nth_error (subs b0) j = Some b /\ start b = N.of_nat (length h) /\ consumed b = [] /\ alive b = true
     end) ->
    let r := new_rsub I mi rm incr c mx bidx (length h) in
    binv h b0 r /\ linv h r /\ cinv r.
  Proof.
    intros Hb r. unfold r, new_rsub. repeat split.
    - unfold binv. prj. destruct bidx as [j|]; [|auto].
      destruct Hb as (b & Hn & Hs & Hc & Ha). exists b. rewrite Hc. repeat split; auto; try lia; try discriminate.
    - exists []. prj. cbn [app firstn]. split; [reflexivity|]. split; [destruct bidx; reflexivity|auto].
    - unfold applied. prj. cbn [evs_of flat_map]. destruct mi; reflexivity.
  Qed.

  Lemma binv_others h l b0 b1 j f i r k rk :
    uniq l -> nth_error l i = Some r -> r_bidx r = Some j -> upd_state b0 (N.of_nat j) f = Some b1 ->
    k <> i -> nth_error l k = Some rk -> binv h b0 rk -> binv h b1 rk.
  Proof.
    intros Hu Hi Hj Hupd Nk Hk. apply binv_frame; [lia|]. intros j' b Hj' Hn.
    destruct (upd_state_nth _ _ _ _ j' Hupd) as [_ Hjj]. rewrite Nat2N.id in Hjj.
    destruct (Nat.eqb_spec j' j) as [->|_]; [elim Nk; eapply Hu; eauto|]. exists b. rewrite Hjj. auto.
  Qed.

  (** Subscriber [i] becomes [r'], with the same receiver, and at most that receiver is updated:
      only the invariant of [r'] is left to show. *)
  Lemma ginv_at s i r r' l b1 c t :
    ginv s -> nth_error (rsubs s) i = Some r ->
    (forall k, nth_error l k = if Nat.eqb k i then Some r' else nth_error (rsubs s) k) ->
    r_bidx r' = r_bidx r -> Inv b1 ->
    (b1 = bc s \/ exists j f, r_bidx r = Some j /\ upd_state (bc s) (N.of_nat j) f = Some b1) ->
    binv (hist s) b1 r' /\ linv (hist s) r' /\ cinv r' ->
    ginv (mk_mstate I b1 c t (hist s) l).
  Proof.
    intros (HI & Hlen & Hu & Hr) Hi Hl Hbi HI1 Hb1 Hr'. unfold ginv. cbn [bc hist rsubs]. split; [exact HI1|].
    split; [destruct Hb1 as [->|(j & f & _ & Hupd)]; [exact Hlen|now destruct (upd_state_nth _ _ _ _ 0%nat Hupd) as [-> _]]|].
    split.
    - intros i1 i2 r1 r2 j H1 H2 Hj1 Hj2.
      assert (Hold : forall k rk, nth_error l k = Some rk -> r_bidx rk = Some j ->
                                  exists rk0, nth_error (rsubs s) k = Some rk0 /\ r_bidx rk0 = Some j).
      { intros k rk Hk Hjk. rewrite Hl in Hk. destruct (Nat.eqb_spec k i) as [->|]; [|eauto].
        injection Hk as <-. exists r. split; congruence. }
      destruct (Hold _ _ H1 Hj1) as (q1 & Hq1 & Hq1j), (Hold _ _ H2 Hj2) as (q2 & Hq2 & Hq2j). eapply Hu; eauto.
    - intros k rk Hk. rewrite Hl in Hk. destruct (Nat.eqb_spec k i) as [->|Nk]; [now injection Hk as <-|].
      destruct (Hr _ _ Hk) as (Hbk & Hlk & Hck). split; [|now split].
      destruct Hb1 as [->|(j & f & Hj & Hupd)]; [exact Hbk|exact (binv_others _ _ _ _ _ _ _ _ _ _ Hu Hi Hj Hupd Nk Hk Hbk)].
  Qed.

  Lemma ginv_snoc s b1 r0 c t :
    ginv s -> Inv b1 -> next b1 = next (bc s) ->
    (forall r, binv (hist s) (bc s) r -> binv (hist s) b1 r) ->
    (forall j k r, r_bidx r0 = Some j -> nth_error (rsubs s) k = Some r -> r_bidx r <> Some j) ->
    binv (hist s) b1 r0 /\ linv (hist s) r0 /\ cinv r0 ->
    ginv (mk_mstate I b1 c t (hist s) (rsubs s ++ [r0])).
  Proof.
    intros (HI & Hlen & Hu & Hr) HI1 Hn Hold Hfresh Hr0. unfold ginv. cbn [bc hist rsubs]. split; [exact HI1|].
    split; [now rewrite Hn|]. split.
    - intros i1 i2 r1 r2 j H1 H2 Hj1 Hj2. apply nth_snoc in H1, H2.
      destruct H1 as [H1|[-> ->]], H2 as [H2|[-> ->]]; [eapply Hu; eauto| | |reflexivity]; exfalso; eapply Hfresh; eauto.
    - intros k r Hk. apply nth_snoc in Hk. destruct Hk as [Hk|[_ ->]]; [|exact Hr0].
      destruct (Hr _ _ Hk) as (Hb & Hl & Hc). auto.
  Qed.

  Lemma ginv_view s j f b1 c t :
    ginv s -> Inv b1 -> upd_state (bc s) j f = Some b1 -> (forall b b', f b = Some b' -> same_view b b') ->
    ginv (mk_mstate I b1 c t (hist s) (rsubs s)).
  Proof.
    intros (HI & Hlen & Hu & Hr) HI1 Hb1 Hv. unfold ginv. cbn [bc hist rsubs]. split; [exact HI1|].
    split; [now destruct (upd_state_nth _ _ _ _ 0%nat Hb1) as [-> _]|]. split; [exact Hu|].
    intros k rk Hk. destruct (Hr _ _ Hk) as (Hbk & Hlk & Hck). split; [|now split].
    exact (binv_upd _ _ _ _ _ _ Hb1 Hv Hbk).
  Qed.

  Lemma ginv_step s a s' : ginv s -> step I s a = Some s' -> ginv s'.
  Proof.
    intros G Hs. pose proof G as (HI & Hlen & Hu & Hr).
    destruct a as [o| | |mi rm incr cap mx|i|i|i ni nw|j|j|j|i]; cbn [step] in Hs.
    - destruct (coll s) as [c|]; [|discriminate]. destruct (to_emit s); [|discriminate].
      destruct (i_apply I c o) as [[c' evs]|]; [|discriminate]. injection Hs as <-. exact G.
    - destruct (coll s) as [c|]; [|discriminate]. destruct (to_emit s) as [|e rest]; [discriminate|].
      injection Hs as <-. unfold ginv. cbn [bc hist rsubs].
      split; [apply (Inv_step (bc s) Send); [exact HI|reflexivity]|].
      split; [unfold send_state; cbn [next]; rewrite app_length; cbn [length]; lia|].
      split; [exact Hu|]. intros k r Hk. destruct (Hr k r Hk) as (Hb & Hl & Hc). split; [|split; [|exact Hc]].
      + eapply binv_frame; [| |exact Hb]; [rewrite app_length; lia|].
        intros j b _ Hn. exists (sub_send (next (bc s)) b). unfold send_state. cbn [subs].
        rewrite nth_error_map, Hn. split; [reflexivity|]. destruct (view_send (next (bc s)) b) as (H1 & H2 & H3). auto.
      + exact (linv_grow _ _ _ _ Hb Hl).
    - destruct (coll s) as [c|]; [|discriminate]. destruct (to_emit s); [|discriminate]. injection Hs as <-. exact G.
    - destruct (coll s) as [c|]; [|discriminate]. destruct (to_emit s); [|discriminate].
      destruct (i_cdone I c).
      + (* after [done]: no receiver *)
        injection Hs as <-. apply ginv_snoc; auto; [discriminate|now apply new_rsub_inv].
      + (* a new receiver, behind all others *)
        destruct (Broadcast.step (bc s) (Subscribe cap)) as [b1|] eqn:Hsub; [|discriminate]. injection Hs as <-.
        pose proof (Inv_step _ _ _ HI Hsub) as HI1.
        cbn [Broadcast.step] in Hsub. destruct (cap =? 0); [discriminate|]. injection Hsub as <-.
        apply ginv_snoc; [exact G|exact HI1|reflexivity| | |].
        * intros r. apply binv_frame; [lia|]. intros j b _ Hn. exists b.
          cbn [subs]. rewrite nth_error_app1 by (apply nth_error_Some; congruence). auto.
        * intros j k r [= <-] Hk Hj. destruct (Hr _ _ Hk) as (Hb & _). apply (binv_lt _ _ _ _ Hb) in Hj. lia.
        * apply new_rsub_inv. exists (new_sub cap (next (bc s))).
          cbn [subs]. rewrite nth_error_snoc. cbn. rewrite Hlen. auto.
    - destruct (nth_error (rsubs s) i) as [r|] eqn:Hi; [|discriminate].
      destruct (recv_sub I (bc s) (hist s) match coll s with Some _ => false | None => true end r) as [[b1 r']|] eqn:Hrecv; [|discriminate].
      destruct (upd_nth (rsubs s) i (fun _ => Some r')) as [l|] eqn:Hup; [|discriminate]. injection Hs as <-.
      destruct (Hr _ _ Hi) as (Hb & Hl & Hc).
      destruct (recv_inv _ _ _ _ _ _ HI Hlen Hb Hl Hc Hrecv) as (Hbs & Hb' & Hl' & Hc' & Hbi).
      apply (ginv_at s i r r'); auto.
      + intros k. now rewrite (nth_error_upd_nth _ _ _ _ k Hup), Hi.
      + destruct Hbs as [->|(j & Hj & Hupd)]; [exact HI|exact (Inv_step (bc s) (Consume (N.of_nat j)) _ HI Hupd)].
      + destruct Hbs as [->|(j & Hj & Hupd)]; eauto.
    - destruct (nth_error (rsubs s) i) as [r|] eqn:Hi; [|discriminate].
      destruct (r_remote r) eqn:Hrm; [|discriminate]. destruct (r_fault r); [discriminate|].
      destruct (r_bidx r) as [j|] eqn:Hj; [|discriminate].
      destruct (upd_state (bc s) (N.of_nat j) sub_consume) as [b1|] eqn:Hupd; [|discriminate]. injection Hs as <-.
      destruct (Hr _ _ Hi) as (Hb & Hl & Hc).
      apply (ginv_at s i r r); eauto.
      + intros k. destruct (Nat.eqb_spec k i); congruence.
      + exact (Inv_step (bc s) (Consume (N.of_nat j)) _ HI Hupd).
      + split; [|now split].
        eapply binv_frame; [| |exact Hb]; [lia|]. intros j' b Hj' Hn. rewrite Hj in Hj'. injection Hj' as <-.
        rewrite <- (Nat2N.id j) in Hn. destruct (upd_state_at _ _ _ _ _ Hupd Hn) as (b' & Hcons & Hn'). rewrite Nat2N.id in Hn'.
        destruct (consume_view _ _ Hcons) as (x & q & _ & _ & Hc' & Hs' & Ha' & Ha & _).
        exists b'. split; [exact Hn'|]. split; [exact Hs'|]. right. right. split; [exact Hrm|]. split; [congruence|]. now exists [x].
    - destruct (upd_nth (rsubs s) i _) as [l|] eqn:Hup; [|discriminate]. injection Hs as <-.
      destruct (upd_nth_at _ _ _ _ Hup) as (r & r1 & Hi & Hf).
      assert (E : r1 = set_sub I r (r_init r) (r_events r) (r_sdone r) (r_taken r) (Some (ni, nw))).
      { cbv beta in Hf. destruct (r_remote r && negb (r_stopped r) && _); [now injection Hf|discriminate]. }
      apply (ginv_at s i r r1); auto.
      + intros k. now rewrite (nth_error_upd_nth _ _ _ _ k Hup), Hi, Hf.
      + now rewrite E.
      + rewrite E. exact (Hr _ _ Hi).
    - destruct (Broadcast.step (bc s) (Readmit1 j)) as [b1|] eqn:Hb1; [|discriminate]. injection Hs as <-.
      exact (ginv_view _ _ _ _ _ _ G (Inv_step _ _ _ HI Hb1) Hb1 view_readmit1).
    - destruct (Broadcast.step (bc s) (Readmit2 j)) as [b1|] eqn:Hb1; [|discriminate]. injection Hs as <-.
      exact (ginv_view _ _ _ _ _ _ G (Inv_step _ _ _ HI Hb1) Hb1 view_readmit2).
    - destruct (Broadcast.step (bc s) (Release j)) as [b1|] eqn:Hb1; [|discriminate]. injection Hs as <-.
      exact (ginv_view _ _ _ _ _ _ G (Inv_step _ _ _ HI Hb1) Hb1 view_release).
    - (* a subscriber is dropped: its receiver, if it has one, is dropped with it *)
      destruct (nth_error (rsubs s) i) as [r|] eqn:Hi; [|discriminate]. destruct (r_stopped r) eqn:Hst; [discriminate|].
      destruct (upd_nth (rsubs s) i _) as [l|] eqn:Hup; [|discriminate].
      destruct (Hr _ _ Hi) as (Hb & Hl & Hc). set (r' := set_cons I r (r_log r) (r_m r) (r_err r) true).
      assert (Hlc : linv (hist s) r' /\ cinv r').
      { split; [exact Hl|]. pose proof (cinv_none _ Hc Hst) as He. unfold cinv, applied, r', set_cons in *. prj.
        rewrite He in *. exact Hc. }
      assert (Hnth : forall k, nth_error l k = if Nat.eqb k i then Some r' else nth_error (rsubs s) k)
        by (intros k; now rewrite (nth_error_upd_nth _ _ _ _ k Hup), Hi).
      destruct (r_bidx r) as [j|] eqn:Hj.
      + destruct (upd_state (bc s) (N.of_nat j) sub_drop) as [b1|] eqn:Hupd; [|discriminate]. injection Hs as <-.
        apply (ginv_at s i r r' l); eauto; [exact (Inv_step (bc s) (Drop (N.of_nat j)) _ HI Hupd)|]. split; [|exact Hlc].
        unfold binv in *. unfold r', set_cons. prj. rewrite Hj in *.
        destruct Hb as (b & Hn & H2 & H3 & H4 & H5 & H6).
        rewrite <- (Nat2N.id j) in Hn. destruct (upd_state_at _ _ _ _ _ Hupd Hn) as (b' & Hd & Hn'). rewrite Nat2N.id in Hn'.
        destruct (drop_view _ _ Hd) as [Hs' Hc'']. exists b'. rewrite Hs', Hc''. repeat split; auto; discriminate.
      + injection Hs as <-. apply (ginv_at s i r r' l); auto. split; [exact (binv_stop _ _ _ _ _ _ Hb)|exact Hlc].
  Qed.

  Lemma ginv_run acts : forall s s', ginv s -> run I acts s = Some s' -> ginv s'.
  Proof. exact (orun_inv (step I) ginv ginv_step acts). Qed.

  Lemma log_prefix h b0 r :
    binv h b0 r -> linv h r ->
    evs_of I (r_log r) = firstn (length (evs_of I (r_log r))) (expected I h r).
  Proof.
    intros Hb (A0 & Ha & Hev & Hne). unfold expected. rewrite Hev, Ha.
    destruct (r_init r) as [|e0 rest] eqn:Hi.
    - rewrite app_nil_r. rewrite app_length, firstn_app_2. f_equal.
      destruct (r_bidx r).
      + rewrite firstn_length. destruct (Nat.min_spec (r_taken r) (length (skipn (r_start r) h))) as [[_ ->]|[Hle ->]]; [reflexivity|].
        now rewrite !firstn_all2 by lia.
      + destruct (r_sdone r); reflexivity.
    - destruct (Hne ltac:(discriminate)) as [Ht Hs]. rewrite Ht, Hs.
      replace (match r_bidx r with Some _ => firstn 0 (skipn (r_start r) h) | None => [] end) with (@nil E) by (destruct (r_bidx r); reflexivity).
      rewrite app_nil_r, <- app_assoc. now rewrite firstn_app_all.
  Qed.

  (** C14, safety: in every reachable state every subscriber has been given a gap-free prefix of the
      events it is entitled to, and its consumer has either applied exactly those (no error), or
      stopped at the first error holding the state it had then. *)
  Lemma flagged c0 acts s i r :
    run I acts (init_state I c0) = Some s -> nth_error (rsubs s) i = Some r ->
    let L := evs_of I (r_log r) in
    L = firstn (length L) (expected I (hist s) r) /\
    match r_err r with
    | None => r_log r = map REv L /\ applied I r L (r_m r)
    | Some c =>
        r_stopped r = true /\
        ((r_log r = map REv L ++ [RErr c] /\ applied I r L (r_m r)) \/
         (r_mirror r = true /\ r_log r = map REv L /\
          exists L' e m' err, L = L' ++ [e] /\ hfold I (r_m0 r) L' = Some m' /\
                              i_handle I m' e = (r_m r, Some err) /\ i_cls I err = c))
    end.
  Proof.
    intros Hrun Hn. pose proof (ginv_run _ _ _ (ginv_init c0) Hrun) as (_ & _ & _ & Hr).
    destruct (Hr _ _ Hn) as (Hb & Hl & Hc). split; [eapply log_prefix; eauto|exact Hc].
  Qed.

  (** a subscriber that has stopped (error, [Done] reached, or dropped) is never touched again *)
  Lemma stopped_frozen s a s' i r :
    step I s a = Some s' -> nth_error (rsubs s) i = Some r -> r_stopped r = true ->
    nth_error (rsubs s') i = Some r.
  Proof.
    intros Hs Hn Hst.
    destruct a as [o| | |mi rm incr cap mx|k|k|k ni nw|j|j|j|k]; cbn [step] in Hs.
    - destruct (coll s); [|discriminate]. destruct (to_emit s); [|discriminate].
      destruct (i_apply I i0 o) as [[c' evs]|]; [|discriminate]. now injection Hs as <-.
    - destruct (coll s); [|discriminate]. destruct (to_emit s); [discriminate|]. now injection Hs as <-.
    - destruct (coll s); [|discriminate]. destruct (to_emit s); [|discriminate]. now injection Hs as <-.
    - destruct (coll s); [|discriminate]. destruct (to_emit s); [|discriminate].
      assert (Hlt : (i < length (rsubs s))%nat) by (apply nth_error_Some; congruence).
      destruct (i_cdone I i0); [|destruct (Broadcast.step (bc s) (Subscribe cap)); [|discriminate]];
        injection Hs as <-; cbn [rsubs]; now rewrite nth_error_app1.
    - destruct (nth_error (rsubs s) k) as [rk|] eqn:Hk; [|discriminate].
      destruct (recv_sub I (bc s) (hist s) _ rk) as [[b1 r']|] eqn:Hrecv; [|discriminate].
      destruct (upd_nth (rsubs s) k (fun _ => Some r')) as [l|] eqn:Hup; [|discriminate]. injection Hs as <-. cbn [rsubs].
      rewrite (nth_error_upd_nth _ _ _ _ i Hup). destruct (Nat.eqb_spec i k) as [->|Nk]; [|exact Hn].
      rewrite Hn in Hk. injection Hk as <-. unfold recv_sub in Hrecv. rewrite Hst in Hrecv. discriminate.
    - destruct (nth_error (rsubs s) k) as [rk|]; [|discriminate].
      destruct (r_remote rk); [|discriminate]. destruct (r_fault rk); [discriminate|]. destruct (r_bidx rk); [|discriminate].
      destruct (upd_state (bc s) (N.of_nat n) sub_consume); [|discriminate]. now injection Hs as <-.
    - destruct (upd_nth (rsubs s) k _) as [l|] eqn:Hup; [|discriminate]. injection Hs as <-. cbn [rsubs].
      destruct (upd_nth_at _ _ _ _ Hup) as (x & y & Hk & Hy).
      rewrite (nth_error_upd_nth _ _ _ _ i Hup). destruct (Nat.eqb_spec i k) as [->|]; [|exact Hn].
      rewrite Hn in Hk. injection Hk as <-. rewrite Hst, andb_false_r in Hy. discriminate.
    - destruct (Broadcast.step (bc s) (Readmit1 j)); [|discriminate]. now injection Hs as <-.
    - destruct (Broadcast.step (bc s) (Readmit2 j)); [|discriminate]. now injection Hs as <-.
    - destruct (Broadcast.step (bc s) (Release j)); [|discriminate]. now injection Hs as <-.
    - destruct (nth_error (rsubs s) k) as [rk|] eqn:Hk; [|discriminate]. destruct (r_stopped rk) eqn:Hsk; [discriminate|].
      destruct (upd_nth (rsubs s) k _) as [l|] eqn:Hup; [|discriminate].
      assert (Hl : nth_error l i = Some r).
      { rewrite (nth_error_upd_nth _ _ _ _ i Hup). destruct (Nat.eqb_spec i k) as [->|]; [congruence|exact Hn]. }
      destruct (r_bidx rk); [destruct (upd_state (bc s) (N.of_nat n) sub_drop); [|discriminate]|]; now injection Hs as <-.
  Qed.

  Lemma sticky acts : forall s s' i r,
    run I acts s = Some s' -> nth_error (rsubs s) i = Some r -> r_stopped r = true ->
    nth_error (rsubs s') i = Some r.
  Proof.
    intros s s' i r Hr Hn Hst. revert Hn Hr.
    apply (orun_inv (step I) (fun s => nth_error (rsubs s) i = Some r)).
    intros s0 a s1 H0 Hs. exact (stopped_frozen _ _ _ _ _ Hs H0 Hst).
  Qed.
End Proofs.
