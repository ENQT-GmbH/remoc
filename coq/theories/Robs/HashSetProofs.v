(** Proofs about the observable-hash-set model.  A set is a hash map with one value ([emb]: Rust's
    [HashSet<T> = HashMap<T, ()>]): operations, events, runs, subscription streams and the mirror task of
    [HashSet.v] are the images of those of [HashMap.v] under the embedding, no embedded operation is a
    [retain] that writes, and the embedding is injective; so the mirror task and a consumer by hand end
    with the observed contents because they do for maps ([HashMapProofs.v]). *)
From Remoc Require Import Lib.Base Robs.KeyMap Robs.KeyMapProofs Robs.HashSet.
From Remoc Require Robs.HashMap Robs.HashMapProofs.

(** The notions of [KeyMapProofs.Replay] for the events of a set. *)
Definition data_ev (e : event) : bool := negb (is_done_ev e || is_complete_ev e).
Definition data (evs : list event) : Prop := forallb data_ev evs = true.

Fixpoint peak (m : hset) (evs : list event) : N :=
  match evs with
  | [] => len m
  | e :: r => N.max (len m) (peak (apply_event m e) r)
  end.

Lemma data_nil : data []. Proof. reflexivity. Qed.


Definition tr (m : hset) (evs : list event) (m' : hset) : Prop :=
  wf m' /\ replay m evs = m' /\ data evs.
Definition flat m evs m' := tr m evs m' /\ len m' = len m /\ peak m evs <= len m.
Definition up m evs m' := tr m evs m' /\ len m <= len m' /\ peak m evs <= len m'.
Definition down m evs m' := tr m evs m' /\ len m' <= len m /\ peak m evs <= len m.
Definition good m evs m' := tr m evs m' /\ peak m evs <= N.max (len m) (len m').

Lemma flat_flat m e1 m1 e2 m2 : flat m e1 m1 -> flat m1 e2 m2 -> flat m (e1 ++ e2) m2.
Proof. exact (Replay.flat_flat m e1 m1 e2 m2). Qed.
Lemma flat_down m e1 m1 e2 m2 : flat m e1 m1 -> down m1 e2 m2 -> down m (e1 ++ e2) m2.
Proof. exact (Replay.flat_down m e1 m1 e2 m2). Qed.
Lemma flat_up m e1 m1 e2 m2 : flat m e1 m1 -> up m1 e2 m2 -> up m (e1 ++ e2) m2.
Proof. exact (Replay.flat_up m e1 m1 e2 m2). Qed.
Lemma up_flat m e1 m1 e2 m2 : up m e1 m1 -> flat m1 e2 m2 -> up m (e1 ++ e2) m2.
Proof. exact (Replay.up_flat m e1 m1 e2 m2). Qed.
Lemma flat_good m e1 m1 e2 m2 : flat m e1 m1 -> good m1 e2 m2 -> good m (e1 ++ e2) m2.
Proof. exact (Replay.flat_good m e1 m1 e2 m2). Qed.

Lemma run_ops_cons s o r :
  run_ops s (o :: r) =
  (fst (run_ops (fst (step s o)) r), snd (step s o) ++ snd (run_ops (fst (step s o)) r)).
Proof.
  unfold run_ops. cbn [run_trace]. destruct (step s o) as [s1 e]. cbn [fst snd].
  destruct (run_trace s1 r) as [t s2]. reflexivity.
Qed.

(** a set as the map that gives every member the value 0 (any constant would do): with a constant value
    [Insert] and [Replace] of the set are the same map operation *)
Definition emb (s : hset) : HashMap.hmap := map (fun e => (fst e, 0)) s.
Definition eop (o : op) : HashMap.op :=
  match o with
  | SetErrorHandler => HashMap.SetErrorHandler
  | Insert k | Replace k => HashMap.Insert k 0
  | Remove k | Take k => HashMap.Remove k
  | Clear => HashMap.Clear
  | Retain d ds => HashMap.Retain (HashMap.Build_decision d HashMap.ARead) (map (fun e => (fst e, HashMap.Build_decision (snd e) HashMap.ARead)) ds)
  | ShrinkToFit => HashMap.ShrinkToFit
  | MarkDone => HashMap.MarkDone
  end.
Definition eev (e : event) : HashMap.event :=
  match e with
  | ESet k => HashMap.ESet k 0 | ERemove k => HashMap.ERemove k | EClear => HashMap.EClear
  | EShrinkToFit => HashMap.EShrinkToFit | EDone => HashMap.EDone | EInitialComplete => HashMap.EInitialComplete
  end.
Definition eobs (s : obs) : HashMap.obs := HashMap.Build_obs (emb (o_hs s)) (o_done s).
Definition emode (md : mode) : HashMap.mode := match md with Snapshot => HashMap.Snapshot | Incremental => HashMap.Incremental end.
Definition emir (m : mirror) : HashMap.mirror := HashMap.Build_mirror (emb (m_hs m)) (m_complete m) (m_done m) (m_max m).
Definition eerr (e : rerr) : HashMap.rerr := match e with MaxSizeExceeded n => HashMap.MaxSizeExceeded n end.

Lemma emb_inj a b : emb a = emb b -> a = b.
Proof.
  revert b. induction a as [|[k []] a IH]; intros [|[k' []] b]; cbn; try discriminate; [reflexivity|].
  intros [= -> H]. now rewrite (IH _ H).
Qed.
Lemma lookup_emb k s : lookup k (emb s) = option_map (fun _ => 0) (lookup k s).
Proof. induction s as [|[k1 v] s IH]; cbn [emb map lookup fst]; [reflexivity|]. now destruct (k1 =? k). Qed.
Lemma ins_emb k s : emb (ins k tt s) = ins k 0 (emb s).
Proof.
  induction s as [|[k1 []] s IH]; cbn [emb map ins fst]; [reflexivity|].
  destruct (k <? k1); [reflexivity|]. destruct (k =? k1); [reflexivity|]. cbn [map fst]. now f_equal.
Qed.
Lemma del_emb k s : emb (del k s) = del k (emb s).
Proof. induction s as [|[k1 v] s IH]; cbn [emb map del fst]; [reflexivity|]. destruct (k1 =? k); [reflexivity|]. cbn [map fst]. now f_equal. Qed.
Lemma len_emb s : len (emb s) = len s.
Proof. unfold len, emb. now rewrite map_length. Qed.

Lemma retain_emb g f s : (forall k, g k = HashMap.Build_decision (f k) HashMap.ARead) ->
  HashMap.retain_go g (emb s) = (emb (fst (retain_go f s)), map eev (snd (retain_go f s))).
Proof.
  intros Hg. induction s as [|[k u] s IH]; cbn [emb map HashMap.retain_go retain_go fst snd]; [reflexivity|].
  fold (emb s). rewrite IH, Hg. destruct (retain_go f s) as [s' evs]. cbn [HashMap.d_keep HashMap.d_acc fst snd]. now destruct (f k).
Qed.
Lemma decide_emb d ds k :
  HashMap.decide (HashMap.Build_decision d HashMap.ARead) (map (fun e => (fst e, HashMap.Build_decision (snd e) HashMap.ARead)) ds) k = HashMap.Build_decision (decide d ds k) HashMap.ARead.
Proof.
  unfold HashMap.decide, decide. induction ds as [|[k1 b] ds IH]; cbn [map lookup fst snd]; [reflexivity|]. now destruct (k1 =? k).
Qed.

Lemma mutate_emb s o : HashMap.mutate (emb s) (eop o) = (emb (fst (mutate s o)), map eev (snd (mutate s o))).
Proof.
  destruct o; cbn [eop HashMap.mutate mutate fst snd map eev]; rewrite ?ins_emb, ?lookup_emb; try reflexivity.
  1, 2: destruct (lookup k s); cbn [option_map fst snd map eev]; now rewrite ?del_emb.
  - now destruct s.
  - apply retain_emb. intros k. apply decide_emb.
Qed.

Lemma step_emb s o : HashMap.step (eobs s) (eop o) = (eobs (fst (step s o)), map eev (snd (step s o))).
Proof.
  pose proof (mutate_emb (o_hs s) o) as Hm. unfold HashMap.step, step, HashMap.apply_op, apply_op, eobs. cbn [HashMap.o_done HashMap.o_hm].
  destruct o; cbn [eop] in *; destruct (o_done s) eqn:D; cbn [fst snd map o_done o_hs]; rewrite ?D, ?Hm;
    try destruct (mutate (o_hs s) _); cbn [fst snd map eev o_done o_hs]; rewrite ?D; reflexivity.
Qed.

Lemma run_emb ops : forall s,
  HashMap.run_ops (eobs s) (map eop ops) = (eobs (fst (run_ops s ops)), map eev (snd (run_ops s ops))).
Proof.
  induction ops as [|o r IH]; intros s; [reflexivity|]. cbn [map].
  rewrite HashMapProofs.run_ops_cons, run_ops_cons, step_emb. cbn [fst snd]. rewrite IH, map_app. reflexivity.
Qed.

Lemma obs_of_emb init : eobs (obs_of init) = HashMap.obs_of (map (fun k => (k, 0)) init).
Proof.
  unfold eobs, obs_of, HashMap.obs_of, of_list. cbn [o_hs o_done]. f_equal.
  change (@nil (N * N)) with (emb []). generalize (@nil (N * unit)).
  induction init as [|k r IH]; intros acc; cbn [map fold_left fst snd]; [reflexivity|]. now rewrite <- ins_emb, IH.
Qed.

Lemma fits_emb max ops : forall s, HashMap.fits max (eobs s) (map eop ops) = fits max s ops.
Proof.
  induction ops as [|o r IH]; intros s; cbn [map HashMap.fits fits eobs HashMap.o_hm]; rewrite len_emb; [reflexivity|].
  fold (eobs s). rewrite step_emb. cbn [fst]. now rewrite IH.
Qed.

Lemma no_mutation ops : HashMap.no_retain_mutation (map eop ops) = true.
Proof.
  unfold HashMap.no_retain_mutation. rewrite forallb_forall. intros o' Ho. apply in_map_iff in Ho as (o & <- & _).
  destruct o; cbn [eop]; try reflexivity. unfold HashMap.decision_writes. cbn [HashMap.d_keep HashMap.d_acc]. rewrite andb_false_r. cbn [negb andb].
  rewrite forallb_forall. intros kd Hk. apply in_map_iff in Hk as (e & <- & _). cbn [snd HashMap.d_keep HashMap.d_acc]. now rewrite andb_false_r.
Qed.

Lemma sub_stream_emb md s bevs :
  HashMap.sub_stream (emode md) (eobs s) (map eev bevs) = map eev (sub_stream md s bevs).
Proof.
  unfold HashMap.sub_stream, sub_stream, eobs. cbn [HashMap.o_hm HashMap.o_done]. rewrite map_app. f_equal; [|now destruct (o_done s)].
  destruct md; cbn [emode]; [reflexivity|]. rewrite map_app. f_equal. unfold emb. rewrite !map_map. reflexivity.
Qed.

Lemma mirror_init_emb md s max : HashMap.mirror_init (emode md) (eobs s) max = emir (mirror_init md s max).
Proof. now destruct md. Qed.

Lemma mirror_task_emb evs : forall m,
  HashMap.mirror_task (emir m) (map eev evs) = (emir (fst (mirror_task m evs)), option_map eerr (snd (mirror_task m evs))).
Proof.
  induction evs as [|e r IH]; intros m; [reflexivity|]. cbn [map HashMap.mirror_task mirror_task].
  assert (H : HashMap.handle_event (emir m) (eev e) = (emir (fst (handle_event m e)), option_map eerr (snd (handle_event m e)))).
  { destruct e; cbn [eev HashMap.handle_event handle_event emir HashMap.m_hm HashMap.m_complete HashMap.m_done HashMap.m_max fst snd];
      rewrite <- ?ins_emb, <- ?del_emb, ?len_emb; try reflexivity. now destruct (m_max m <? len _). }
  rewrite H. destruct (handle_event m e) as [m' [err|]]; cbn [fst snd option_map emir HashMap.m_done]; [reflexivity|].
  destruct (m_done m'); [reflexivity|apply IH].
Qed.

Lemma replay_emb evs : forall s, HashMap.replay (emb s) (map eev evs) = emb (replay s evs).
Proof.
  induction evs as [|e r IH]; intros s; [reflexivity|]. cbn [map]. unfold HashMap.replay, replay in *. cbn [fold_left].
  rewrite <- IH. f_equal. destruct e; cbn [eev HashMap.apply_event apply_event]; now rewrite <- ?ins_emb, <- ?del_emb.
Qed.
Lemma flags_emb evs :
  existsb HashMap.is_done_ev (map eev evs) = existsb is_done_ev evs /\
  existsb HashMap.is_complete_ev (map eev evs) = existsb is_complete_ev evs.
Proof. induction evs as [|[] r [I1 I2]]; cbn [map existsb eev HashMap.is_done_ev is_done_ev HashMap.is_complete_ev is_complete_ev]; now rewrite ?I1, ?I2. Qed.

(** the run of a set, seen as a run of the map *)
Lemma state_emb init ops k :
  eobs (state_at init ops k) = HashMap.state_at (map (fun k => (k, 0)) init) (map eop ops) k /\
  eobs (final_state init ops) = HashMap.final_state (map (fun k => (k, 0)) init) (map eop ops) /\
  forall md, map eev (stream_at init ops k md) = HashMap.stream_at (map (fun k => (k, 0)) init) (map eop ops) k (emode md).
Proof.
  assert (Es : eobs (state_at init ops k) = HashMap.state_at (map (fun k => (k, 0)) init) (map eop ops) k).
  { unfold state_at, HashMap.state_at. now rewrite <- obs_of_emb, firstn_map, run_emb. }
  split; [exact Es|]. split; [unfold final_state, HashMap.final_state; now rewrite <- obs_of_emb, run_emb|].
  intros md. unfold stream_at, HashMap.stream_at. cbv zeta. rewrite <- Es, skipn_map, run_emb. cbn [snd]. now rewrite sub_stream_emb.
Qed.

Theorem mirror_ok_always init ops k md max : fits_from max init ops k = true -> mirror_ok init ops k md max.
Proof.
  intros F. destruct (state_emb init ops k) as (Es & Ef & Est).
  destruct (HashMapProofs.no_retain_mutation_ok (map (fun k => (k, 0)) init) (map eop ops) k (emode md) max (no_mutation ops)) as [Hm _].
  { unfold HashMap.fits_from, fits_from in *. now rewrite <- Es, skipn_map, fits_emb. }
  unfold HashMap.mirror_ok, mirror_ok in *. rewrite <- Es, <- Ef, <- Est, mirror_init_emb, mirror_task_emb in Hm.
  cbn [fst snd emir eobs HashMap.m_hm HashMap.m_done HashMap.m_complete HashMap.o_hm HashMap.o_done] in Hm. destruct Hm as (H1 & _ & H3 & H4 & H5).
  apply emb_inj in H3. repeat split; try assumption; [|now rewrite H3]. now destruct (snd _).
Qed.

Theorem hand_ok_always init ops k md : hand_ok init ops k md.
Proof.
  destruct (state_emb init ops k) as (Es & Ef & Est).
  pose proof (HashMapProofs.hand_ok_outside_known_class (map (fun k => (k, 0)) init) (map eop ops) k (emode md)
                (HashMapProofs.no_retain_mutation_sound _ _ k (no_mutation ops))) as Hh.
  unfold HashMap.hand_ok, hand_ok in *. rewrite <- Es, <- Ef, <- Est in Hh. destruct (flags_emb (stream_at init ops k md)) as [D C].
  rewrite D, C in Hh. replace (HashMap.initial_map (emode md) (eobs (state_at init ops k))) with (emb (initial_set md (state_at init ops k))) in Hh by now destruct md.
  rewrite replay_emb in Hh. cbn [eobs HashMap.o_hm HashMap.o_done] in Hh. destruct Hh as (_ & H2 & H3 & H4). apply emb_inj in H2.
  repeat split; try assumption; [now rewrite H2|now destruct md].
Qed.

(** ** Tie to the generated facts *)
From Remoc Require Gen.Api.

Lemma api_covered :
  Gen.Api.hash_set_ObservableHashSet_mutators = map op_name all_ops ++ consuming_ops.
Proof. reflexivity. Qed.

(** the witness of the former F11 class (repaired in /repo by commit 290b96a) *)
Definition f11_ops : list op := [MarkDone].
