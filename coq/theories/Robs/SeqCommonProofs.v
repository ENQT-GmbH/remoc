(** Lemmas about the shared sequence operations of [SeqCommon], and about runs of mutator calls for
    any of the sequence collections ([SeqRun]). *)
From Coq Require String.
From Remoc Require Import Lib.Base Robs.SeqCommon.

Lemma str_in s l : existsb (String.eqb s) l = true -> In s l.
Proof. intros H. apply existsb_exists in H. destruct H as (x & Hx & E). apply String.eqb_eq in E. now subst. Qed.

Lemma len_length {A} (l : list A) : len l = N.of_nat (length l).
Proof. reflexivity. Qed.

Lemma set_at_length {A} (i : nat) (v : A) l : (i < length l)%nat -> length (set_at i v l) = length l.
Proof.
  intros H. unfold set_at. rewrite app_length. cbn [length]. rewrite firstn_length, skipn_length. lia.
Qed.

Lemma mem_false x s : (forall y, In y s -> y <> x) -> mem x s = false.
Proof.
  unfold mem. induction s as [|y s IH]; intros H; cbn [existsb]; [reflexivity|].
  rewrite IH by (intros z Hz; apply H; now right).
  assert (y <> x) by (apply H; now left).
  destruct (N.eqb_spec x y); [congruence|reflexivity].
Qed.

Lemma mem_head x s : mem x (x :: s) = true.
Proof. unfold mem. cbn [existsb]. now rewrite N.eqb_refl. Qed.

Lemma kept_idx_ge {A} ks (l : list A) pos x : In x (kept_idx ks l pos) -> pos <= x.
Proof.
  revert ks pos. induction l as [|a l IH]; intros ks pos H; [destruct ks; contradiction|].
  destruct ks as [|k ks]; cbn [kept_idx] in H.
  - destruct H as [<-|H]; [lia|]. apply IH in H. lia.
  - destruct k.
    + destruct H as [<-|H]; [lia|]. apply IH in H. lia.
    + apply IH in H. lia.
Qed.

Lemma dropped_idx_ge {A} ks (l : list A) pos x : In x (dropped_idx ks l pos) -> pos <= x.
Proof.
  revert ks pos. induction l as [|a l IH]; intros ks pos H; [destruct ks; contradiction|].
  destruct ks as [|k ks]; cbn [dropped_idx] in H; [contradiction|].
  destruct k.
  - apply IH in H. lia.
  - destruct H as [<-|H]; [lia|]. apply IH in H. lia.
Qed.

Lemma retain_set_cons_lt {A} neg p s pos (l : list A) :
  p < pos -> retain_set neg (p :: s) pos l = retain_set neg s pos l.
Proof.
  revert pos. induction l as [|a l IH]; intros pos H; cbn [retain_set]; [reflexivity|].
  rewrite IH by lia.
  assert (E : mem pos (p :: s) = mem pos s).
  { unfold mem. cbn [existsb]. destruct (N.eqb_spec pos p); [lia|reflexivity]. }
  now rewrite E.
Qed.

Lemma retain_set_kept {A} ks (l : list A) pos :
  retain_set false (kept_idx ks l pos) pos l = retain_by ks l.
Proof.
  revert ks pos. induction l as [|a l IH]; intros ks pos; [destruct ks; reflexivity|].
  destruct ks as [|k ks].
  - cbn [kept_idx retain_set retain_by]. rewrite mem_head. cbn [xorb].
    rewrite retain_set_cons_lt by lia. rewrite IH. destruct l; reflexivity.
  - destruct k; cbn [kept_idx retain_set retain_by].
    + rewrite mem_head. cbn [xorb]. rewrite retain_set_cons_lt by lia. now rewrite IH.
    + rewrite mem_false; [cbn [xorb]; apply IH|].
      intros y Hy. apply kept_idx_ge in Hy. lia.
Qed.

Lemma retain_set_dropped {A} ks (l : list A) pos :
  retain_set true (dropped_idx ks l pos) pos l = retain_by ks l.
Proof.
  revert ks pos. induction l as [|a l IH]; intros ks pos; [destruct ks; reflexivity|].
  destruct ks as [|k ks].
  - cbn [dropped_idx retain_set retain_by]. cbn [mem existsb xorb]. f_equal.
    specialize (IH [] (pos + 1)). destruct l; [reflexivity|]. exact IH.
  - destruct k; cbn [dropped_idx retain_set retain_by].
    + rewrite mem_false; [cbn [xorb]; now rewrite IH|].
      intros y Hy. apply dropped_idx_ge in Hy. lia.
    + rewrite mem_head. cbn [xorb]. rewrite retain_set_cons_lt by lia. apply IH.
Qed.

Lemma retain_by_nil_dropped {A} ks (l : list A) pos : dropped_idx ks l pos = [] -> retain_by ks l = l.
Proof.
  revert ks pos. induction l as [|a l IH]; intros ks pos H; [destruct ks; reflexivity|].
  destruct ks as [|k ks]; [reflexivity|].
  cbn [dropped_idx retain_by] in *. destruct k; [|discriminate].
  f_equal. eapply IH; eassumption.
Qed.

Lemma fwd_writes_range j n ws : Forall (fun w => (j <= fst w < j + n)%nat) (fwd_writes j n ws).
Proof.
  revert j ws. induction n as [|n IH]; intros j ws; cbn [fwd_writes]; [constructor|].
  destruct ws as [|w r]; [constructor|].
  apply Forall_app. split.
  - destruct w; [|constructor]. constructor; [cbn [fst]; lia|constructor].
  - eapply Forall_impl; [|apply IH]. cbn beta. intros a Ha. lia.
Qed.

Lemma iter_writes_range rev n ws : Forall (fun w => (fst w < n)%nat) (iter_writes rev n ws).
Proof.
  unfold iter_writes. pose proof (fwd_writes_range 0 n ws) as H.
  destruct rev.
  - apply Forall_map. eapply Forall_impl; [|exact H]. cbn beta. intros a Ha. cbn [fst]. lia.
  - eapply Forall_impl; [|exact H]. cbn beta. intros a Ha. lia.
Qed.

Lemma apply_writes_length l ws :
  Forall (fun w => (fst w < length l)%nat) ws -> length (apply_writes l ws) = length l.
Proof.
  unfold apply_writes. revert l. induction ws as [|w ws IH]; intros l H; cbn [fold_left]; [reflexivity|].
  inversion H as [|? ? Hw Hr]; subst.
  rewrite IH.
  - now apply set_at_length.
  - rewrite set_at_length by assumption. exact Hr.
Qed.

(** [Vec], [VecDeque] and [List_] each define [run_ops] and [run_bounded] by the recursion below over their own
    [apply_op]; [runs apply_op] and [bounded items apply_op] are convertible with them. *)
Section SeqRun.
  Context {coll op event : Type}.
  Variables (items : coll -> list N) (cdone : coll -> bool)
            (apply_op : coll -> op -> outcome (coll * list event)).

  Fixpoint runs (c : coll) (ops : list op) : outcome (coll * list event) :=
    match ops with
    | [] => Ok (c, [])
    | o :: r =>
        match apply_op c o with
        | Panic => Panic
        | Ok (c1, e1) =>
            match runs c1 r with
            | Panic => Panic
            | Ok (c2, e2) => Ok (c2, e1 ++ e2)
            end
        end
    end.

  Fixpoint bounded (mx : N) (c : coll) (ops : list op) : Prop :=
    len (items c) <= mx /\
    match ops with
    | [] => True
    | o :: r => match apply_op c o with Ok (c1, _) => bounded mx c1 r | Panic => True end
    end.

  Lemma runs_cons c o r cf e :
    runs c (o :: r) = Ok (cf, e) ->
    exists c1 e1 e2, apply_op c o = Ok (c1, e1) /\ runs c1 r = Ok (cf, e2) /\ e = e1 ++ e2.
  Proof.
    cbn [runs]. destruct (apply_op c o) as [[c1 e1]|]; [|discriminate].
    destruct (runs c1 r) as [[c2 e2]|] eqn:Hr; [|discriminate]. intros [= <- <-]. now exists c1, e1, e2.
  Qed.

  Lemma runs_app a : forall b c c2 e,
    runs c (a ++ b) = Ok (c2, e) ->
    exists c1 e1 e2, runs c a = Ok (c1, e1) /\ runs c1 b = Ok (c2, e2) /\ e = e1 ++ e2.
  Proof.
    induction a as [|o a IH]; intros b c c2 e H.
    - now exists c, [], e.
    - cbn [app] in H. apply runs_cons in H. destruct H as (c3 & e3 & e4 & Ha & Hr & ->).
      destruct (IH _ _ _ _ Hr) as (c1 & e1 & e2 & H1 & H2 & ->).
      exists c1, (e3 ++ e1), e2. cbn [runs]. rewrite Ha, H1. now rewrite app_assoc.
  Qed.

  Lemma runs_split c ops k cf e :
    runs c ops = Ok (cf, e) ->
    exists ck e1 e2, runs c (firstn k ops) = Ok (ck, e1) /\ runs ck (skipn k ops) = Ok (cf, e2) /\ e = e1 ++ e2.
  Proof. intros H. rewrite <- (firstn_skipn k ops) in H. now apply runs_app. Qed.

  Lemma bounded_head mx c ops : bounded mx c ops -> len (items c) <= mx.
  Proof. destruct ops; intros [H _]; exact H. Qed.

  Lemma bounded_cons mx c o r c1 e1 : bounded mx c (o :: r) -> apply_op c o = Ok (c1, e1) -> bounded mx c1 r.
  Proof. cbn [bounded]. intros [_ H] Ha. now rewrite Ha in H. Qed.

  Lemma bounded_final mx ops : forall c c1 e1,
    runs c ops = Ok (c1, e1) -> bounded mx c ops -> len (items c1) <= mx.
  Proof.
    induction ops as [|o r IH]; intros c c1 e1 H Hb.
    - injection H as <- _. exact (bounded_head _ _ _ Hb).
    - apply runs_cons in H. destruct H as (c2 & e2 & e3 & Ha & Hr & _).
      exact (IH _ _ _ Hr (bounded_cons _ _ _ _ _ _ Hb Ha)).
  Qed.

  Lemma runs_done_iff (mark : op) :
    (forall c o c1 e1, apply_op c o = Ok (c1, e1) -> cdone c1 = true <-> (cdone c = true \/ o = mark)) ->
    forall ops c cf e, runs c ops = Ok (cf, e) -> cdone cf = true <-> (cdone c = true \/ In mark ops).
  Proof.
    clear items. intros Hstep. induction ops as [|o r IH]; intros c cf e H.
    - injection H as <- _. cbn [In]. tauto.
    - apply runs_cons in H. destruct H as (c2 & e2 & e3 & Ha & Hr & _).
      rewrite (IH _ _ _ Hr), (Hstep _ _ _ _ Ha). cbn [In]. intuition congruence.
  Qed.

  Hypothesis apply_done_state : forall c o c1 e1,
    cdone c = true -> apply_op c o = Ok (c1, e1) -> c1 = c /\ e1 = [].

  Lemma runs_done ops : forall c c1 e1,
    cdone c = true -> runs c ops = Ok (c1, e1) -> c1 = c /\ e1 = [].
  Proof.
    induction ops as [|o r IH]; intros c c1 e1 Hd H.
    - now injection H as <- <-.
    - apply runs_cons in H. destruct H as (c2 & e2 & e3 & Ha & Hr & ->).
      destruct (apply_done_state _ _ _ _ Hd Ha) as [-> ->]. exact (IH _ _ _ Hd Hr).
  Qed.

  (** A consumer [T] of events ([brk]: it leaves its loop, with [stop], once the collection is done)
      that follows every single call follows every run. *)
  Section Sim.
    Variables (R : Type) (brk : bool) (mx : N) (T : coll -> list event -> R) (stop : coll -> R).
    Hypothesis step : forall c o c1 e1 tl,
      apply_op c o = Ok (c1, e1) -> brk = false \/ cdone c = false -> len (items c1) <= mx ->
      T c (e1 ++ tl) = if brk && cdone c1 then stop c1 else T c1 tl.

    Lemma runs_sim ops : forall c c1 e1 tl,
      runs c ops = Ok (c1, e1) -> brk = false \/ cdone c = false -> bounded mx c ops ->
      T c (e1 ++ tl) = if brk && cdone c1 then stop c1 else T c1 tl.
    Proof.
      induction ops as [|o r IH]; intros c c1 e1 tl H Hb Hbd.
      - injection H as <- <-. destruct Hb as [->| ->]; [reflexivity|now rewrite andb_false_r].
      - apply runs_cons in H. destruct H as (c2 & e2 & e3 & Ha & Hr & ->).
        apply (bounded_cons _ _ _ _ _ _) with (1 := Hbd) in Ha as Hbd2.
        rewrite <- app_assoc, (step _ _ _ _ _ Ha Hb (bounded_head _ _ _ Hbd2)).
        destruct brk; cbn [andb]; [|apply IH; auto].
        destruct (cdone c2) eqn:Hd2; [|apply IH; auto].
        destruct (runs_done _ _ _ _ Hd2 Hr) as [-> ->]. now rewrite Hd2.
    Qed.

    Lemma runs_sim_end ops c c1 e1 :
      (forall c, T c [] = stop c) ->
      runs c ops = Ok (c1, e1) -> brk = false \/ cdone c = false -> bounded mx c ops -> T c e1 = stop c1.
    Proof.
      intros Hnil H Hb Hbd. rewrite <- (app_nil_r e1), (runs_sim _ _ _ _ _ H Hb Hbd), Hnil.
      now destruct (brk && cdone c1).
    Qed.
  End Sim.
End SeqRun.
