(** Lemmas about [KeyMap]: lookups, canonical form, sizes; and about replaying change events on a
    map ([Replay]). *)
From Remoc Require Import Lib.Base Robs.KeyMap.

Section KeyMapProofs.
  Context {V : Type}.
  Implicit Types (m p r : kmap V) (k : N) (v : V).

  Lemma all_gt_nil k : all_gt k (@nil (N * V)).
  Proof. constructor. Qed.

  Lemma all_gt_cons k k' v m : all_gt k ((k', v) :: m) <-> k < k' /\ all_gt k m.
  Proof.
    unfold all_gt. split.
    - intros H. inversion H; subst. auto.
    - intros [H1 H2]. constructor; auto.
  Qed.

  Lemma all_gt_weaken k k' m : k' <= k -> all_gt k m -> all_gt k' m.
  Proof.
    unfold all_gt. intros Hle H. induction H as [|e l He Hl IH]; constructor; auto. lia.
  Qed.

  Lemma all_gt_app k m1 m2 : all_gt k (m1 ++ m2) <-> all_gt k m1 /\ all_gt k m2.
  Proof. unfold all_gt. apply Forall_app. Qed.

  Lemma wf_cons k v m : wf ((k, v) :: m) <-> all_gt k m /\ wf m.
  Proof. reflexivity. Qed.

  Lemma lookup_all_gt k k' m : all_gt k' m -> k <= k' -> lookup k m = None.
  Proof.
    induction m as [|[k0 v0] m IH]; intros Hgt Hle; cbn [lookup]; [reflexivity|].
    apply all_gt_cons in Hgt. destruct Hgt as [Hlt Hgt].
    destruct (k0 =? k) eqn:E; [lia|]. auto.
  Qed.

  Lemma lookup_ins_same k v m : lookup k (ins k v m) = Some v.
  Proof.
    induction m as [|[k0 v0] m IH]; cbn [ins lookup].
    - rewrite N.eqb_refl. reflexivity.
    - destruct (k <? k0) eqn:E1; cbn [lookup].
      + rewrite N.eqb_refl. reflexivity.
      + destruct (k =? k0) eqn:E2; cbn [lookup].
        * rewrite N.eqb_refl. reflexivity.
        * destruct (k0 =? k) eqn:E3; [lia|]. exact IH.
  Qed.

  Lemma lookup_ins_other k k' v m : k' <> k -> lookup k' (ins k v m) = lookup k' m.
  Proof.
    intros Hne. induction m as [|[k0 v0] m IH]; cbn [ins lookup].
    - destruct (k =? k') eqn:E; [lia|]. reflexivity.
    - destruct (k <? k0) eqn:E1; cbn [lookup].
      + destruct (k =? k') eqn:E; [lia|]. reflexivity.
      + destruct (k =? k0) eqn:E2; cbn [lookup].
        * destruct (k =? k') eqn:E3; [lia|]. destruct (k0 =? k') eqn:E4; [lia|]. reflexivity.
        * destruct (k0 =? k') eqn:E4; [reflexivity|]. exact IH.
  Qed.

  Lemma all_gt_ins k0 k v m : k0 < k -> all_gt k0 m -> all_gt k0 (ins k v m).
  Proof.
    intros Hlt. induction m as [|[k1 v1] m IH]; intros Hgt; cbn [ins].
    - apply all_gt_cons. split; [exact Hlt|apply all_gt_nil].
    - apply all_gt_cons in Hgt. destruct Hgt as [H1 H2].
      destruct (k <? k1) eqn:E1.
      + apply all_gt_cons. split; [exact Hlt|]. apply all_gt_cons. auto.
      + destruct (k =? k1) eqn:E2.
        * apply all_gt_cons. auto.
        * apply all_gt_cons. auto.
  Qed.

  Lemma wf_ins k v m : wf m -> wf (ins k v m).
  Proof.
    induction m as [|[k1 v1] m IH]; intros Hwf; cbn [ins].
    - cbn [wf]. split; [apply all_gt_nil|exact I].
    - destruct Hwf as [Hgt Hwf].
      destruct (k <? k1) eqn:E1.
      + apply wf_cons. split.
        * apply all_gt_cons. split; [lia|]. eapply all_gt_weaken; [|exact Hgt]. lia.
        * apply wf_cons. auto.
      + destruct (k =? k1) eqn:E2.
        * apply wf_cons. split; [|exact Hwf]. eapply all_gt_weaken; [|exact Hgt]. lia.
        * apply wf_cons. split; [|auto]. apply all_gt_ins; [lia|exact Hgt].
  Qed.

  Lemma length_ins_present k v m :
    wf m -> lookup k m <> None -> length (ins k v m) = length m.
  Proof.
    induction m as [|[k1 v1] m IH]; intros Hwf Hl; cbn [ins lookup] in *.
    - congruence.
    - destruct Hwf as [Hgt Hwf].
      destruct (k <? k1) eqn:E1.
      + exfalso. destruct (k1 =? k) eqn:E; [lia|]. apply Hl. apply lookup_all_gt with (k' := k1); [exact Hgt|lia].
      + destruct (k =? k1) eqn:E2; cbn [length]; [reflexivity|].
        destruct (k1 =? k) eqn:E3; [lia|]. f_equal. auto.
  Qed.

  Lemma length_ins_le k v m : (length m <= length (ins k v m) <= S (length m))%nat.
  Proof.
    induction m as [|[k1 v1] m IH]; cbn [ins length]; [lia|].
    destruct (k <? k1); cbn [length]; [lia|]. destruct (k =? k1); cbn [length]; lia.
  Qed.

  Lemma ins_append k v p : Forall (fun e => fst e < k) p -> ins k v p = p ++ [(k, v)].
  Proof.
    induction p as [|[k1 v1] p IH]; intros H; cbn [ins app]; [reflexivity|].
    inversion H as [|? ? Hlt Hr]; subst. cbn [fst] in Hlt.
    destruct (k <? k1) eqn:E1; [lia|]. destruct (k =? k1) eqn:E2; [lia|]. f_equal. auto.
  Qed.

  Lemma ins_lookup_id k v m : wf m -> lookup k m = Some v -> ins k v m = m.
  Proof.
    induction m as [|[k1 v1] m IH]; intros Hwf Hl; cbn [ins lookup] in *; [discriminate|].
    destruct Hwf as [Hgt Hwf].
    destruct (k <? k1) eqn:E1.
    - destruct (k1 =? k) eqn:E; [lia|].
      rewrite (lookup_all_gt k k1 m Hgt) in Hl; [discriminate|lia].
    - destruct (k =? k1) eqn:E2.
      + destruct (k1 =? k) eqn:E3; [|lia]. assert (k = k1) by lia. subst k1. congruence.
      + destruct (k1 =? k) eqn:E3; [lia|]. f_equal. auto.
  Qed.

  Lemma all_gt_del k0 k m : all_gt k0 m -> all_gt k0 (del k m).
  Proof.
    induction m as [|[k1 v1] m IH]; intros Hgt; cbn [del]; [exact Hgt|].
    apply all_gt_cons in Hgt. destruct Hgt as [H1 H2].
    destruct (k1 =? k); [exact H2|]. apply all_gt_cons. auto.
  Qed.

  Lemma wf_del k m : wf m -> wf (del k m).
  Proof.
    induction m as [|[k1 v1] m IH]; intros Hwf; cbn [del]; [exact I|].
    destruct Hwf as [Hgt Hwf]. destruct (k1 =? k); [exact Hwf|].
    apply wf_cons. split; [apply all_gt_del; exact Hgt|auto].
  Qed.

  Lemma length_del_le k m : (length (del k m) <= length m)%nat.
  Proof.
    induction m as [|[k1 v1] m IH]; cbn [del length]; [lia|].
    destruct (k1 =? k); cbn [length]; lia.
  Qed.

  Lemma lookup_del_same k m : wf m -> lookup k (del k m) = None.
  Proof.
    induction m as [|[k1 v1] m IH]; intros Hwf; cbn [del lookup]; [reflexivity|].
    destruct Hwf as [Hgt Hwf]. destruct (k1 =? k) eqn:E.
    - apply lookup_all_gt with (k' := k1); [exact Hgt|lia].
    - cbn [lookup]. rewrite E. auto.
  Qed.

  Lemma lookup_del_other k k' m : k' <> k -> lookup k' (del k m) = lookup k' m.
  Proof.
    intros Hne. induction m as [|[k1 v1] m IH]; cbn [del lookup]; [reflexivity|].
    destruct (k1 =? k) eqn:E.
    - destruct (k1 =? k') eqn:E2; [lia|]. reflexivity.
    - cbn [lookup]. destruct (k1 =? k'); [reflexivity|]. exact IH.
  Qed.

  Lemma del_app_mid k v p r : Forall (fun e => fst e <> k) p -> del k (p ++ (k, v) :: r) = p ++ r.
  Proof.
    induction p as [|[k1 v1] p IH]; intros H; cbn [app del].
    - rewrite N.eqb_refl. reflexivity.
    - inversion H as [|? ? Hne Hr]; subst. cbn [fst] in Hne.
      destruct (k1 =? k) eqn:E; [lia|]. f_equal. auto.
  Qed.

  Lemma wf_app_l p r : wf (p ++ r) -> wf p.
  Proof.
    induction p as [|[k1 v1] p IH]; intros H; [exact I|].
    cbn [app] in H. destruct H as [Hgt Hwf]. apply wf_cons. split; [|auto].
    apply all_gt_app in Hgt. tauto.
  Qed.

  Lemma wf_app_r p r : wf (p ++ r) -> wf r.
  Proof.
    induction p as [|[k1 v1] p IH]; intros H; [exact H|].
    cbn [app] in H. destruct H as [_ Hwf]. auto.
  Qed.

  Lemma wf_app_lt p k v r : wf (p ++ (k, v) :: r) -> Forall (fun e => fst e < k) p.
  Proof.
    induction p as [|[k1 v1] p IH]; intros H; [constructor|].
    cbn [app] in H. destruct H as [Hgt Hwf]. constructor; [|auto].
    apply all_gt_app in Hgt. destruct Hgt as [_ Hgt]. apply all_gt_cons in Hgt. cbn [fst]. tauto.
  Qed.

  Lemma wf_app_remove_mid p e r : wf (p ++ e :: r) -> wf (p ++ r).
  Proof.
    induction p as [|[k1 v1] p IH]; intros H; cbn [app] in *.
    - destruct e as [k v]. destruct H as [_ H]. exact H.
    - destruct H as [Hgt Hwf]. split; [|auto].
      apply all_gt_app in Hgt. destruct Hgt as [H1 H2]. apply all_gt_app. split; [exact H1|].
      destruct e as [k v]. apply all_gt_cons in H2. tauto.
  Qed.

  Lemma wf_app_set_mid p k v v' r : wf (p ++ (k, v) :: r) -> wf (p ++ (k, v') :: r).
  Proof.
    induction p as [|[k1 v1] p IH]; intros H; cbn [app] in *.
    - exact H.
    - destruct H as [Hgt Hwf]. split; [|auto].
      apply all_gt_app in Hgt. destruct Hgt as [H1 H2]. apply all_gt_app. split; [exact H1|].
      apply all_gt_cons in H2. apply all_gt_cons. exact H2.
  Qed.

  Lemma lt_neq_prefix p k : Forall (fun e : N * V => fst e < k) p -> Forall (fun e => fst e <> k) p.
  Proof. intros H. eapply Forall_impl; [|exact H]. cbn. intros; lia. Qed.

  Lemma wf_of_list (l : list (N * V)) : wf (of_list l).
  Proof.
    unfold of_list. assert (H : wf (@nil (N * V))) by exact I. revert H. generalize (@nil (N * V)).
    induction l as [|e l IH]; intros m Hm; cbn [fold_left]; [exact Hm|].
    apply IH. apply wf_ins. exact Hm.
  Qed.

  Lemma wf_ext_eq m1 m2 : wf m1 -> wf m2 -> (forall k, lookup k m1 = lookup k m2) -> m1 = m2.
  Proof.
    revert m2. induction m1 as [|[k1 v1] m1 IH]; intros m2 H1 H2 Hext.
    - destruct m2 as [|[k2 v2] m2]; [reflexivity|].
      specialize (Hext k2). cbn [lookup] in Hext. rewrite N.eqb_refl in Hext. discriminate.
    - destruct m2 as [|[k2 v2] m2].
      + specialize (Hext k1). cbn [lookup] in Hext. rewrite N.eqb_refl in Hext. discriminate.
      + destruct H1 as [Hg1 Hw1]. destruct H2 as [Hg2 Hw2].
        assert (Hk : k1 = k2).
        { destruct (N.lt_trichotomy k1 k2) as [Hlt|[Heq|Hgt]]; [|exact Heq|].
          - pose proof (Hext k1) as E. cbn [lookup] in E. rewrite N.eqb_refl in E.
            destruct (k2 =? k1) eqn:E2; [lia|].
            rewrite (lookup_all_gt k1 k2 m2 Hg2) in E; [discriminate|lia].
          - pose proof (Hext k2) as E. cbn [lookup] in E. rewrite N.eqb_refl in E.
            destruct (k1 =? k2) eqn:E2; [lia|].
            rewrite (lookup_all_gt k2 k1 m1 Hg1) in E; [discriminate|lia]. }
        subst k2.
        assert (Hv : v1 = v2).
        { pose proof (Hext k1) as E. cbn [lookup] in E. rewrite N.eqb_refl in E. congruence. }
        subst v2. f_equal. apply IH; [exact Hw1|exact Hw2|].
        intros k. pose proof (Hext k) as E. cbn [lookup] in E.
        destruct (k1 =? k) eqn:E2; [|exact E].
        assert (k = k1) by lia. subst k.
        rewrite (lookup_all_gt k1 k1 m1 Hg1), (lookup_all_gt k1 k1 m2 Hg2); [reflexivity|lia|lia].
  Qed.
End KeyMapProofs.

(** A mirror checks its size limit after every insertion, so what has to be known of the events of one call is the
    largest size on the way ([peak]); the shapes below bound it by the sizes at the two ends.  [HashMapProofs] and
    [HashSetProofs] define the same notions over their own event types, convertible with these. *)
Module Replay.
Section Replay.
  Context {V event : Type} {apply_event : kmap V -> event -> kmap V}.
  Implicit Types (m : kmap V) (evs : list event).

  Definition replay m evs : kmap V := fold_left apply_event evs m.
  Fixpoint peak m evs : N :=
    match evs with
    | [] => len m
    | e :: r => N.max (len m) (peak (apply_event m e) r)
    end.

  Lemma replay_app m a b : replay m (a ++ b) = replay (replay m a) b.
  Proof. apply fold_left_app. Qed.

  Lemma peak_ge m evs : len m <= peak m evs.
  Proof. destruct evs; cbn [peak]; lia. Qed.

  Lemma peak_app a : forall m b, peak m (a ++ b) = N.max (peak m a) (peak (replay m a) b).
  Proof.
    induction a as [|e a IH]; intros m b; cbn [app peak].
    - change (replay m []) with m. pose proof (peak_ge m b). lia.
    - rewrite IH. change (replay m (e :: a)) with (replay (apply_event m e) a). lia.
  Qed.

  (** events that carry contents (everything but [Done] / [InitialComplete]) *)
  Context {is_done_ev is_complete_ev : event -> bool}.
  Definition data_ev (e : event) : bool := negb (is_done_ev e || is_complete_ev e).
  Definition data evs : Prop := forallb data_ev evs = true.

  Lemma data_app a b : data (a ++ b) <-> data a /\ data b.
  Proof. unfold data. rewrite forallb_app, andb_true_iff. reflexivity. Qed.

  Lemma data_nil : data []. Proof. reflexivity. Qed.

  Lemma data_no_ctrl evs : data evs -> existsb is_done_ev evs = false /\ existsb is_complete_ev evs = false.
  Proof.
    unfold data. induction evs as [|e r IH]; intros H; [split; reflexivity|].
    cbn [forallb existsb] in *. apply andb_true_iff in H. destruct H as [H1 H2].
    destruct (IH H2) as [I1 I2]. rewrite I1, I2.
    unfold data_ev in H1. apply negb_true_iff, orb_false_iff in H1. destruct H1 as [-> ->]. split; reflexivity.
  Qed.

  Definition tr m evs m' : Prop := wf m' /\ replay m evs = m' /\ data evs.
  Definition flat m evs m' := tr m evs m' /\ len m' = len m /\ peak m evs <= len m.
  Definition up m evs m' := tr m evs m' /\ len m <= len m' /\ peak m evs <= len m'.
  Definition down m evs m' := tr m evs m' /\ len m' <= len m /\ peak m evs <= len m.
  Definition good m evs m' := tr m evs m' /\ peak m evs <= N.max (len m) (len m').

  Lemma tr_app m e1 m1 e2 m2 : tr m e1 m1 -> tr m1 e2 m2 -> tr m (e1 ++ e2) m2.
  Proof.
    intros (_ & R1 & D1) (W2 & R2 & D2). split; [exact W2|]. split.
    - rewrite replay_app, R1. exact R2.
    - apply data_app. auto.
  Qed.

  Lemma flat_nil m : wf m -> flat m [] m.
  Proof. intros W. repeat split; auto. cbn [peak]. lia. Qed.

  (* composition: the trace parts compose by [tr_app], the size parts by [peak_app] and arithmetic *)
  Ltac comp_tac :=
    match goal with
    | [ H1 : tr ?m ?e1 ?m1, H2 : tr ?m1 ?e2 ?m2 |- _ ] =>
        split; [exact (tr_app _ _ _ _ _ H1 H2)|];
        destruct H1 as (_ & R1 & _); rewrite ?peak_app, ?R1; lia
    end.

  Lemma flat_flat m e1 m1 e2 m2 : flat m e1 m1 -> flat m1 e2 m2 -> flat m (e1 ++ e2) m2.
  Proof. intros (T1 & L1 & P1) (T2 & L2 & P2). unfold flat. comp_tac. Qed.
  Lemma flat_down m e1 m1 e2 m2 : flat m e1 m1 -> down m1 e2 m2 -> down m (e1 ++ e2) m2.
  Proof. intros (T1 & L1 & P1) (T2 & L2 & P2). unfold down. comp_tac. Qed.
  Lemma flat_up m e1 m1 e2 m2 : flat m e1 m1 -> up m1 e2 m2 -> up m (e1 ++ e2) m2.
  Proof. intros (T1 & L1 & P1) (T2 & L2 & P2). unfold up. comp_tac. Qed.
  Lemma up_flat m e1 m1 e2 m2 : up m e1 m1 -> flat m1 e2 m2 -> up m (e1 ++ e2) m2.
  Proof. intros (T1 & L1 & P1) (T2 & L2 & P2). unfold up. comp_tac. Qed.
  Lemma up_up m e1 m1 e2 m2 : up m e1 m1 -> up m1 e2 m2 -> up m (e1 ++ e2) m2.
  Proof. intros (T1 & L1 & P1) (T2 & L2 & P2). unfold up. comp_tac. Qed.
  Lemma flat_good m e1 m1 e2 m2 : flat m e1 m1 -> good m1 e2 m2 -> good m (e1 ++ e2) m2.
  Proof. intros (T1 & L1 & P1) (T2 & P2). unfold good. comp_tac. Qed.

  Lemma flat_to_up m e m' : flat m e m' -> up m e m'.
  Proof. intros (T & L & P). unfold up. split; [exact T|]. lia. Qed.
  Lemma flat_to_down m e m' : flat m e m' -> down m e m'.
  Proof. intros (T & L & P). unfold down. split; [exact T|]. lia. Qed.
  Lemma up_good m e m' : up m e m' -> good m e m'.
  Proof. intros (T & L & P). unfold good. split; [exact T|]. lia. Qed.
  Lemma down_good m e m' : down m e m' -> good m e m'.
  Proof. intros (T & L & P). unfold good. split; [exact T|]. lia. Qed.
  Lemma flat_to_good m e m' : flat m e m' -> good m e m'.
  Proof. intros H. apply up_good, flat_to_up, H. Qed.
End Replay.
End Replay.
