(** Proofs about the broadcast model: invariant over all action lists, stream well-formedness,
    keep-up completeness, non-blocking/frame property of [Send], soundness of the big steps. *)
From Coq Require Import Sorted.
From Remoc Require Import Lib.Base Rch.Broadcast.

Lemma end_state_app l1 : forall e b l2,
  end_state e b (l1 ++ l2) = end_state (fst (end_state e b l1)) (snd (end_state e b l1)) l2.
Proof. induction l1 as [|[i|] l1 IH]; intros e b l2; cbn [app end_state fst snd]; auto. Qed.

Lemma wf_app l1 : forall e b l2,
  wf_stream e b (l1 ++ l2) <->
  wf_stream e b l1 /\ wf_stream (fst (end_state e b l1)) (snd (end_state e b l1)) l2.
Proof.
  induction l1 as [|x l1 IH]; intros e b l2; cbn [app end_state fst snd].
  - split; [intros H; split; [constructor|exact H] | intros [_ H]; exact H].
  - split.
    + intros H.
      inversion H as [|e' l' Hl|e' j' l' Hj Hl|e' b' l' Hl]; subst; cbn [end_state];
        apply IH in Hl; destruct Hl as [Ha Hb]; (split; [|exact Hb]).
      * now apply wf_next.
      * now apply wf_gap.
      * now apply wf_lag.
    + intros [H1 H2].
      inversion H1 as [|e' l' Hl|e' j' l' Hj Hl|e' b' l' Hl]; subst; cbn [end_state] in H2.
      * apply wf_next. apply IH. now split.
      * apply wf_gap; [assumption|]. apply IH. now split.
      * apply wf_lag. apply IH. now split.
Qed.

Lemma wf_snoc_value e0 b0 l n :
  wf_stream e0 b0 l ->
  (if snd (end_state e0 b0 l) then fst (end_state e0 b0 l) <= n else fst (end_state e0 b0 l) = n) ->
  wf_stream e0 b0 (l ++ [Value n]).
Proof.
  intros Hw Hc. apply wf_app. split; [exact Hw|].
  destruct (end_state e0 b0 l) as [e b]. cbn [fst snd] in *. destruct b.
  - apply wf_gap; [exact Hc|constructor].
  - subst. apply wf_next. constructor.
Qed.

Lemma wf_snoc_lag e0 b0 l : wf_stream e0 b0 l -> wf_stream e0 b0 (l ++ [Lagged]).
Proof. intros Hw. apply wf_app. split; [exact Hw|]. apply wf_lag. constructor. Qed.

Lemma end_state_snoc_value e0 b0 l n : end_state e0 b0 (l ++ [Value n]) = (n + 1, false).
Proof. rewrite end_state_app. reflexivity. Qed.

Lemma end_state_snoc_lag e0 b0 l :
  end_state e0 b0 (l ++ [Lagged]) = (fst (end_state e0 b0 l) + 1, true).
Proof. rewrite end_state_app. reflexivity. Qed.

Lemma wf_sorted e b l :
  wf_stream e b l -> Forall (fun i => e <= i) (values l) /\ StronglySorted N.lt (values l).
Proof.
  assert (Hw : forall e e' l, e <= e' -> Forall (fun i => e' + 1 <= i) l -> Forall (fun i => e <= i) l /\ Forall (N.lt e') l)
    by (intros e0 e' l0 He H; split; (eapply Forall_impl; [|exact H]); cbn beta; intros; lia).
  induction 1 as [e b|e l H [IH1 IH2]|e j l Hj H [IH1 IH2]|e b l H [IH1 IH2]].
  - split; constructor.
  - change (values (Value e :: l)) with (e :: values l). destruct (Hw e e _ (N.le_refl e) IH1). split; constructor; auto; lia.
  - change (values (Value j :: l)) with (j :: values l). destruct (Hw e j _ Hj IH1). split; constructor; auto.
  - change (values (Lagged :: l)) with (values l). split; [|exact IH2]. now apply (Hw e e _ (N.le_refl e)).
Qed.

Lemma wf_markers_then_value j post mid : forall e b,
  Forall (eq Lagged) mid -> wf_stream e b (mid ++ Value j :: post) ->
  match mid with [] => if b then e <= j else j = e | _ => e + len mid <= j end.
Proof.
  induction mid as [|x mid IH]; intros e b Hm Hw.
  - cbn [app] in Hw. inversion Hw; subst; auto.
  - inversion Hm as [|? ? Hx Hm']; subst. cbn [app] in Hw.
    inversion Hw as [| | |e' b' l' Hl]; subst.
    specialize (IH _ _ Hm' Hl). rewrite len_cons. destruct mid as [|y mid'].
    + rewrite len_nil. lia.
    + lia.
Qed.

Lemma wf_gap_iff e b pre i mid j post :
  wf_stream e b (pre ++ Value i :: mid ++ Value j :: post) -> Forall (eq Lagged) mid ->
  i < j /\ (mid = [] <-> j = i + 1).
Proof.
  intros Hw Hm. apply wf_app in Hw. destruct Hw as [_ Hw].
  assert (Hw' : wf_stream (i + 1) false (mid ++ Value j :: post)) by (inversion Hw; subst; assumption).
  pose proof (wf_markers_then_value _ _ _ _ _ Hm Hw') as H. destruct mid as [|x mid].
  - subst. split; [lia|]. split; auto.
  - rewrite len_cons in H. split; [lia|]. split; [discriminate|]. intros ->. lia.
Qed.

Lemma vals_from_snoc k : forall a, vals_from a (S k) = vals_from a k ++ [Value (a + N.of_nat k)].
Proof.
  induction k as [|k IH]; intros a.
  - cbn [vals_from app]. replace (a + N.of_nat 0) with a by lia. reflexivity.
  - change (vals_from a (S (S k))) with (Value a :: vals_from (a + 1) (S k)). rewrite IH.
    replace (a + 1 + N.of_nat k) with (a + N.of_nat (S k)) by lia. reflexivity.
Qed.

Lemma vals_from_next a n : a <= n ->
  vals_from a (N.to_nat (n + 1 - a)) = vals_from a (N.to_nat (n - a)) ++ [Value n].
Proof.
  intros H. replace (N.to_nat (n + 1 - a)) with (S (N.to_nat (n - a))) by lia.
  rewrite vals_from_snoc. replace (a + N.of_nat (N.to_nat (n - a))) with n by lia. reflexivity.
Qed.

Definition all_since (n : N) (s : sub) : list item := vals_from (start s) (N.to_nat (n - start s)).

Definition not_parked (s : sub) : Prop := match status_of s with Parked _ => False | _ => True end.

Definition sinv (n : N) (s : sub) : Prop :=
  wf_stream (start s) false (stream s) /\
  (alive s = true -> pending_ok n s) /\
  (parked_ever s = false ->
     start s <= n /\ not_parked s /\ prefix (stream s) (all_since n s) /\
     (alive s = true -> stream s = all_since n s)).

Lemma pending_ok_eq n s :
  pending_ok n s =
  let E := end_state (start s) false (stream s) in
  match status_of s with
  | Ready => if snd E then fst E <= n else fst E = n
  | Parked SendLagged => fst E < n
  | Parked Reserve => snd E = true /\ fst E <= n
  | Gone => False
  end.
Proof. unfold pending_ok. now destruct (end_state _ _ _). Qed.

(** [sinv] reads five things of a subscriber *)
Lemma sinv_ext n s s' :
  start s' = start s -> stream s' = stream s -> status_of s' = status_of s -> alive s' = alive s ->
  parked_ever s' = parked_ever s -> sinv n s -> sinv n s'.
Proof. unfold sinv, pending_ok, all_since, not_parked. intros -> -> -> -> ->. auto. Qed.

Ltac sub_fields := cbn [queue cap held status_of consumed alive start parked_ever push park set_status set_held] in *.

Lemma sinv_new c n : sinv n (new_sub c n).
Proof.
  unfold sinv, pending_ok, all_since, not_parked, stream, new_sub. cbn. repeat split; try lia; auto.
  - constructor.
  - replace (N.to_nat (n - n)) with O by lia. apply prefix_refl.
  - replace (N.to_nat (n - n)) with O by lia. reflexivity.
Qed.

Lemma stream_push x s : stream (push x s) = stream s ++ [x].
Proof. unfold stream. sub_fields. apply app_assoc. Qed.

(** a parked subscriber has parked: the keep-up clause says nothing about it *)
Lemma sinv_parked n s g : sinv n s -> status_of s = Parked g -> parked_ever s = true.
Proof.
  intros (_ & _ & Hk) Hg. destruct (parked_ever s); [reflexivity|].
  destruct (Hk eq_refl) as (_ & Hnp & _). unfold not_parked in Hnp. now rewrite Hg in Hnp.
Qed.

Lemma sinv_skip n s s' :
  sinv n s -> start s' = start s -> stream s' = stream s -> alive s' = alive s -> parked_ever s' = parked_ever s ->
  status_of s' = status_of s \/ status_of s' = Gone /\ alive s = false -> (alive s = true -> status_of s <> Ready) ->
  sinv (n + 1) s'.
Proof.
  intros (Hw & Hp & Hk) Es Et Ea Ep Hst Hnr. unfold sinv, all_since. rewrite pending_ok_eq, Es, Et, Ea, Ep.
  rewrite pending_ok_eq in Hp. split; [exact Hw|]. split.
  - intros Ha. specialize (Hp Ha). specialize (Hnr Ha). cbv zeta in *. destruct Hst as [-> | [_ Hd]]; [|congruence].
    destruct (status_of s) as [|[|]|]; try contradiction; [lia|]. destruct Hp. split; [assumption|lia].
  - intros Hpe. destruct (Hk Hpe) as (Hs & Hnp & Hpre & Heq). unfold all_since in *.
    rewrite vals_from_next by exact Hs. split; [lia|]. split; [|split; [now apply prefix_app_r|]].
    + unfold not_parked in *. now destruct Hst as [-> | [-> _]].
    + intros Ha. specialize (Hnr Ha). specialize (Hp Ha). cbv zeta in Hp. unfold not_parked in Hnp.
      destruct (status_of s) as [|[|]|]; contradiction.
Qed.

Lemma stream_set_status t s : stream (set_status t s) = stream s.
Proof. reflexivity. Qed.

Lemma sinv_send n s : sinv n s -> sinv (n + 1) (sub_send n s).
Proof.
  intros H. unfold sub_send. destruct (status_of s) eqn:Est; try (apply (sinv_skip n s); auto; congruence).
  destruct (alive s) eqn:Ea; cbn [negb]; [|apply (sinv_skip n s); auto; congruence].
  destruct H as (Hw & Hp & Hk). specialize (Hp Ea). rewrite pending_ok_eq, Est in Hp. cbv zeta in Hp.
  unfold sinv. rewrite pending_ok_eq. destruct (room s).
  - rewrite stream_push. sub_fields. rewrite Est, end_state_snoc_value. cbn [fst snd].
    split; [now apply wf_snoc_value|]. split; [reflexivity|].
    intros Hpe. destruct (Hk Hpe) as (Hs & _ & _ & Heq). unfold all_since, not_parked in *. sub_fields. rewrite Est.
    rewrite vals_from_next, (Heq Ea) by exact Hs. split; [lia|]. split; [exact I|]. split; [apply prefix_refl|reflexivity].
  - (* parked: the values from here on are skipped *)
    unfold stream in *. sub_fields. split; [exact Hw|]. split; [|discriminate]. intros _. cbv zeta. destruct (snd _); lia.
Qed.

Lemma sinv_readmit1 n s s' : sinv n s -> sub_readmit1 s = Some s' -> sinv n s'.
Proof.
  intros H Hf. unfold sub_readmit1 in Hf. destruct (status_of s) as [|[|]|] eqn:Est; try discriminate.
  pose proof (sinv_parked _ _ _ H Est) as Hpe. destruct H as (Hw & Hp & _). rewrite pending_ok_eq, Est in Hp.
  unfold sinv. rewrite pending_ok_eq. destruct (alive s) eqn:Ea; cbn [negb] in Hf.
  - destruct (room s); [|discriminate]. injection Hf as <-. rewrite stream_set_status, stream_push. sub_fields. rewrite Hpe, end_state_snoc_lag.
    specialize (Hp eq_refl). cbv zeta in *. cbn [fst snd]. split; [now apply wf_snoc_lag|]. split; [split; [reflexivity|lia]|discriminate].
  - injection Hf as <-. unfold stream in *. sub_fields. rewrite Ea, Hpe. split; [exact Hw|]. split; discriminate.
Qed.

Lemma sinv_readmit2 n s s' : sinv n s -> sub_readmit2 s = Some s' -> sinv n s'.
Proof.
  intros H Hf. unfold sub_readmit2 in Hf. destruct (status_of s) as [|[|]|] eqn:Est; try discriminate.
  pose proof (sinv_parked _ _ _ H Est) as Hpe. destruct H as (Hw & Hp & _). rewrite pending_ok_eq, Est in Hp.
  unfold sinv. rewrite pending_ok_eq. destruct (alive s) eqn:Ea; cbn [negb] in Hf.
  - destruct (room s); [|discriminate]. injection Hf as <-. unfold stream in *. sub_fields. rewrite Hpe.
    specialize (Hp eq_refl). cbv zeta in *. destruct Hp as [-> Hp]. split; [exact Hw|]. split; [auto|discriminate].
  - injection Hf as <-. unfold stream in *. sub_fields. rewrite Ea, Hpe. split; [exact Hw|]. split; discriminate.
Qed.

Lemma sinv_release n s s' : sinv n s -> sub_release s = Some s' -> sinv n s'.
Proof.
  intros H Hf. unfold sub_release in Hf. destruct (0 <? held s); [|discriminate]. injection Hf as <-.
  now apply (sinv_ext n s).
Qed.

Lemma sinv_consume n s s' : sinv n s -> sub_consume s = Some s' -> sinv n s'.
Proof.
  intros H Hf. unfold sub_consume in Hf. destruct (alive s) eqn:Ea; [|discriminate].
  destruct (queue s) as [|x q] eqn:Eq; [discriminate|]. injection Hf as <-.
  apply (sinv_ext n s); auto. unfold stream. sub_fields. now rewrite Eq, <- app_assoc.
Qed.

Lemma sinv_drop n s s' : sinv n s -> sub_drop s = Some s' -> sinv n s'.
Proof.
  intros (Hw & Hp & Hk) Hf. unfold sub_drop in Hf. destruct (alive s); [|discriminate]. injection Hf as <-.
  unfold sinv, all_since, not_parked, stream in *. sub_fields. rewrite app_nil_r.
  apply wf_app in Hw as [Hw _]. split; [exact Hw|]. split; [discriminate|].
  intros Hpe. destruct (Hk Hpe) as (Hs & Hnp & Hpre & _).
  split; [exact Hs|]. split; [exact Hnp|]. split; [|discriminate].
  eapply prefix_trans; [|exact Hpre]. now exists (queue s).
Qed.

Definition Inv (st : state) : Prop := Forall (sinv (next st)) (subs st).

Lemma upd_Forall (P : sub -> Prop) f : (forall s s', P s -> f s = Some s' -> P s') ->
  forall l i l', Forall P l -> upd l i f = Some l' -> Forall P l'.
Proof.
  intros Hf. induction l as [|x r IH]; intros i l' HP Hu; [destruct i; discriminate|].
  inversion HP as [|? ? Hx Hr]; subst. destruct i as [|j]; cbn [upd] in Hu.
  - destruct (f x) as [y|] eqn:Hy; [|discriminate]. injection Hu as <-. constructor; eauto.
  - destruct (upd r j f) as [r'|] eqn:Hr'; [|discriminate]. injection Hu as <-. constructor; eauto.
Qed.

Lemma upd_state_Inv st i f st' :
  (forall s s', sinv (next st) s -> f s = Some s' -> sinv (next st) s') ->
  Inv st -> upd_state st i f = Some st' -> Inv st'.
Proof.
  unfold Inv, upd_state. intros Hf H Hs. destruct (upd (subs st) (N.to_nat i) f) as [l|] eqn:Hu; [|discriminate].
  injection Hs as <-. eapply upd_Forall; eauto.
Qed.

Lemma Inv_init : Inv init.
Proof. constructor. Qed.

Lemma Inv_step st a st' : Inv st -> step st a = Some st' -> Inv st'.
Proof.
  intros H Hs. destruct a as [|c|i|i|i|i|i]; cbn [step] in Hs;
    try (eapply upd_state_Inv; [|exact H|exact Hs];
         first [apply sinv_consume|apply sinv_readmit1|apply sinv_readmit2|apply sinv_release|apply sinv_drop]).
  - injection Hs as <-. unfold Inv, send_state. cbn [subs next]. apply Forall_map.
    eapply Forall_impl; [|exact H]. intros s. apply sinv_send.
  - destruct (c =? 0); [discriminate|]. injection Hs as <-. unfold Inv. cbn [subs next].
    apply Forall_app. split; [exact H|]. constructor; [apply sinv_new|constructor].
Qed.

Lemma Inv_run acts st st' : Inv st -> run acts st = Some st' -> Inv st'.
Proof. exact (orun_inv step Inv Inv_step acts st st'). Qed.

Lemma reach_sinv acts st a s :
  run acts init = Some st -> nth_error (subs st) a = Some s -> sinv (next st) s.
Proof.
  intros Hr Hn. pose proof (Inv_run _ _ _ Inv_init Hr) as H. unfold Inv in H.
  rewrite Forall_forall in H. apply H. eapply nth_error_In; eauto.
Qed.

Lemma stream_ok acts st a s :
  run acts init = Some st -> nth_error (subs st) a = Some s ->
  wf_stream (start s) false (stream s) /\ (alive s = true -> pending_ok (next st) s).
Proof. intros Hr Hn. destruct (reach_sinv _ _ _ _ Hr Hn) as (H1 & H2 & _). now split. Qed.

Lemma stream_ordered acts st a s :
  run acts init = Some st -> nth_error (subs st) a = Some s ->
  StronglySorted N.lt (values (stream s)) /\ Forall (fun i => start s <= i) (values (stream s)).
Proof.
  intros Hr Hn. destruct (reach_sinv _ _ _ _ Hr Hn) as (H1 & _ & _).
  destruct (wf_sorted _ _ _ H1) as [Hlo Hs]. now split.
Qed.

Lemma stream_gap_iff acts st a s pre i mid j post :
  run acts init = Some st -> nth_error (subs st) a = Some s ->
  stream s = pre ++ Value i :: mid ++ Value j :: post -> Forall (eq Lagged) mid ->
  i < j /\ (mid = [] <-> j = i + 1).
Proof.
  intros Hr Hn He Hm. destruct (reach_sinv _ _ _ _ Hr Hn) as (H1 & _ & _).
  rewrite He in H1. eapply wf_gap_iff; eauto.
Qed.

Lemma keepup acts st a s :
  run acts init = Some st -> nth_error (subs st) a = Some s -> parked_ever s = false ->
  prefix (stream s) (all_since (next st) s) /\ (alive s = true -> stream s = all_since (next st) s).
Proof.
  intros Hr Hn Hp. destruct (reach_sinv _ _ _ _ Hr Hn) as (_ & _ & H3).
  destruct (H3 Hp) as (_ & _ & Ha & Hb). now split.
Qed.

(** [Send]: total, and its effect on subscriber [a] is a function of [a]'s own state and the
    value's index *)
Lemma send_total_frame st :
  exists st', step st Send = Some st' /\ next st' = next st + 1 /\
  forall a, nth_error (subs st') a = option_map (sub_send (next st)) (nth_error (subs st) a).
Proof.
  exists (send_state st). split; [reflexivity|]. split; [reflexivity|].
  intros a. unfold send_state. cbn [subs]. apply nth_error_map.
Qed.

Lemma send_frame st1 st2 st1' st2' a :
  next st1 = next st2 -> nth_error (subs st1) a = nth_error (subs st2) a ->
  step st1 Send = Some st1' -> step st2 Send = Some st2' ->
  nth_error (subs st1') a = nth_error (subs st2') a.
Proof.
  intros Hn Ha H1 H2. cbn [step] in H1, H2. injection H1 as <-. injection H2 as <-.
  unfold send_state. cbn [subs]. rewrite !nth_error_map, Hn, Ha. reflexivity.
Qed.

(** a parked subscriber is not touched by [Send]: no value can overtake the marker *)
Lemma send_parked n s g : status_of s = Parked g -> sub_send n s = s.
Proof. intros H. unfold sub_send. now rewrite H. Qed.

(** big steps are sequences of small steps *)
Definition Reach (st st' : state) : Prop := exists acts, run acts st = Some st'.

Lemma Reach_refl st : Reach st st.
Proof. exact (oreach_refl step st). Qed.
Lemma Reach_trans st1 st2 st3 : Reach st1 st2 -> Reach st2 st3 -> Reach st1 st3.
Proof. exact (oreach_trans step st1 st2 st3). Qed.
Lemma Reach_try_steps acts st : Reach st (try_steps acts st).
Proof. exact (oreach_trys step acts st). Qed.
Lemma Reach_try_step st a : Reach st (try_step st a).
Proof. exact (oreach_try step st a). Qed.
Lemma Reach_fold {A} (f : state -> A -> state) l : (forall st x, Reach st (f st x)) -> forall st, Reach st (fold_left f l st).
Proof. exact (oreach_fold step f l). Qed.

Lemma Reach_quiesce_sub st i : Reach st (quiesce_sub st i).
Proof.
  unfold quiesce_sub. eapply Reach_trans; [apply Reach_try_steps|].
  eapply Reach_trans; [apply Reach_try_steps|]. apply Reach_try_steps.
Qed.

Lemma big_sound st o : Reach st (big st o).
Proof.
  destruct o; cbn [big]; try apply Reach_try_step; try apply Reach_try_steps. apply Reach_fold, Reach_quiesce_sub.
Qed.

Lemma bigs_sound ops : forall st, Reach st (fold_left big ops st).
Proof. apply Reach_fold, big_sound. Qed.
