(** [rch::mpsc] with remote senders: per-sender conservation under every schedule. *)
From Remoc Require Import Lib.Base Rch.Mpsc.

Ltac mprj := cbn [srcs alive queue cap final_err outs] in *.

Lemma nth_set_nth_eq {A} (l : list A) : forall i x d, (i < length l)%nat -> nth i (set_nth i x l) d = x.
Proof. induction l as [|y l IH]; intros [|i] x d H; cbn [set_nth nth length] in *; try lia; auto; try (apply IH; lia). Qed.

Lemma nth_set_nth_neq {A} (l : list A) : forall i j x d, i <> j -> nth j (set_nth i x l) d = nth j l d.
Proof.
  induction l as [|y l IH]; intros [|i] [|j] x d H; cbn [set_nth nth]; auto; try congruence; try (apply IH; congruence).
Qed.

Lemma proj_q_app i a b : proj_q i (a ++ b) = proj_q i a ++ proj_q i b.
Proof. unfold proj_q. now rewrite filter_app, map_app. Qed.
Lemma proj_o_app i a b : proj_o i (a ++ b) = proj_o i a ++ proj_o i b.
Proof. unfold proj_o. now rewrite filter_app, map_app. Qed.

Lemma proj_q_cons j i e q :
  proj_q j ((i, e) :: q) = (if Nat.eqb i j && negb (is_final e) then [e] else []) ++ proj_q j q.
Proof. unfold proj_q. cbn [filter fst snd]. now destruct (Nat.eqb i j && negb (is_final e)). Qed.

Lemma proj_q_snoc j q i e :
  proj_q j (q ++ [(i, e)]) = proj_q j q ++ (if Nat.eqb i j && negb (is_final e) then [e] else []).
Proof. now rewrite proj_q_app, proj_q_cons, app_nil_r. Qed.

Lemma proj_o_snoc j o x e :
  proj_o j (o ++ [(x, e)]) =
  proj_o j o ++ (if match x with Some i => Nat.eqb i j | None => false end && negb (is_final e) then [e] else []).
Proof.
  rewrite proj_o_app. f_equal. unfold proj_o. cbn [filter fst snd].
  now destruct (match x with Some i => Nat.eqb i j | None => false end && negb (is_final e)).
Qed.

Lemma recv_loop_some q : forall fe q' fe' o,
  recv_loop q fe = Some (q', fe', o) ->
  exists i e, o = (Some i, e) /\ is_final e = false /\
              forall j, proj_q j q = (if Nat.eqb i j then [e] else []) ++ proj_q j q'.
Proof.
  induction q as [|[i e] q IH]; intros fe q' fe' o H; cbn [recv_loop] in H; [discriminate|].
  destruct (is_final e) eqn:Ef.
  - destruct e; try discriminate. destruct (IH _ _ _ _ H) as (i' & e' & -> & Hf & Hp). exists i', e'. repeat split; auto.
    intros j. now rewrite proj_q_cons, andb_false_r, <- Hp.
  - assert (H' : Some (q, fe, (Some i, e)) = Some (q', fe', o)) by (destruct e; [exact H..|discriminate]).
    injection H' as <- <- <-. exists i, e. repeat split; auto. intros j. now rewrite proj_q_cons, Ef, andb_true_r.
Qed.

Lemma recv_loop_none q : forall fe, recv_loop q fe = None -> forall j, proj_q j q = [].
Proof.
  induction q as [|[i e] q IH]; intros fe H j; [reflexivity|]. cbn [recv_loop] in H.
  destruct e; try discriminate. rewrite proj_q_cons, andb_false_r. apply (IH _ H j).
Qed.

(** the sources never contain final errors (those are raised by [MFail]) *)
Definition src_ok (ss : list (list mentry)) : Prop := Forall (Forall (fun e => is_final e = false)) ss.

Definition conserved (s0 s : mstate) : Prop :=
  length (srcs s) = length (srcs s0) /\ src_ok (srcs s) /\
  forall i, proj_o i (outs s) ++ proj_q i (queue s) ++ nth i (srcs s) [] = nth i (srcs s0) [].

Lemma src_ok_set ss i rest e : src_ok ss -> nth i ss [] = e :: rest -> src_ok (set_nth i rest ss).
Proof.
  unfold src_ok. revert i. induction ss as [|x ss IH]; intros [|i] H Hn; cbn [set_nth nth] in *; auto.
  - inversion H as [|? ? Hx Hs]; subst. constructor; auto. now inversion Hx.
  - inversion H; subst. constructor; auto.
Qed.

Lemma src_ok_nth ss i e rest : src_ok ss -> nth i ss [] = e :: rest -> is_final e = false.
Proof.
  unfold src_ok. revert i. induction ss as [|x ss IH]; intros [|i] H Hn; cbn [nth] in *; try discriminate.
  - inversion H as [|? ? Hx Hs]; subst. now inversion Hx.
  - inversion H; subst. eauto.
Qed.

Lemma nth_cons_length {A} (l : list (list A)) i x r : nth i l [] = x :: r -> (i < length l)%nat.
Proof.
  intros H. destruct (Nat.lt_ge_cases i (length l)) as [Hl|Hl]; auto. rewrite nth_overflow in H by lia. discriminate.
Qed.

Lemma set_nth_length {A} (l : list A) : forall i x, length (set_nth i x l) = length l.
Proof. induction l as [|y l IH]; intros [|i] x; cbn [set_nth length]; auto. Qed.

Lemma conserved_step s0 s a : conserved s0 s -> conserved s0 (mstep s a).
Proof.
  intros (Hlen & Hok & Hc). destruct a as [i|i|i|]; unfold mstep.
  - destruct (nth i (alive s) false); [|split; auto].
    destruct (nth i (srcs s) []) as [|e rest] eqn:En; [split; auto|].
    destruct (len (queue s) <? cap s); [|split; auto].
    pose proof (nth_cons_length _ _ _ _ En) as Hi.
    pose proof (src_ok_nth _ _ _ _ Hok En) as Hfe.
    split; [|split]; mprj.
    + now rewrite set_nth_length.
    + eapply src_ok_set; eauto.
    + (* the entry moves from the source of [i] to the queue *)
      intros j. rewrite proj_q_snoc, Hfe, andb_true_r, <- (Hc j). destruct (Nat.eqb_spec i j) as [<-|Hne].
      * rewrite nth_set_nth_eq by exact Hi. rewrite En, <- !app_assoc. reflexivity.
      * rewrite nth_set_nth_neq by exact Hne. now rewrite app_nil_r.
  - split; [|split]; mprj; auto.
  - destruct (nth i (alive s) false && (len (queue s) <? cap s)); [|split; auto].
    split; [|split]; mprj; auto. intros j. rewrite proj_q_snoc, andb_false_r, app_nil_r. apply Hc.
  - destruct (recv_loop (queue s) (final_err s)) as [[[q' fe] o]|] eqn:Er.
    + destruct (recv_loop_some _ _ _ _ _ Er) as (i & e & -> & Hfe & Hp).
      split; [|split]; mprj; auto. intros j. rewrite proj_o_snoc, Hfe, andb_true_r, <- (Hc j), (Hp j), <- !app_assoc. reflexivity.
    + pose proof (recv_loop_none _ _ Er) as Hn.
      assert (Hq : forall j, proj_o j (outs s) ++ proj_q j [] ++ nth j (srcs s) [] = nth j (srcs s0) []).
      { intros j. rewrite <- (Hc j), (Hn j). reflexivity. }
      assert (Hfin : forall x j, proj_o j (outs s ++ [(x, MFinal)]) = proj_o j (outs s)).
      { intros x j. now rewrite proj_o_snoc, andb_false_r, app_nil_r. }
      destruct (existsb (fun b => b) (alive s)); [split; [|split]; mprj; auto|].
      destruct (drain_finals (queue s) (final_err s)); (split; [|split]); mprj; auto; intros j; rewrite Hfin; apply Hq.
Qed.

Lemma vals_app a b : vals (a ++ b) = vals a ++ vals b.
Proof. unfold vals. apply flat_map_app. Qed.

(** Under every schedule, what the receiver has obtained from sender [i] -- values and non-final
    errors, in order -- followed by what is still queued and still to come is exactly what that
    sender's base receiver yields: nothing is dropped, duplicated or reordered, and a non-final error
    does not cost a neighbouring value. *)
Theorem mpsc_conservation ss c acts i :
  src_ok ss ->
  let s := mrun acts (minit ss c) in
  proj_o i (outs s) ++ proj_q i (queue s) ++ nth i (srcs s) [] = nth i ss [].
Proof.
  intros H. apply (fold_left_inv mstep (conserved (minit ss c)) (fun s a => conserved_step _ s a) acts).
  split; [reflexivity|]. split; [exact H|]. intros j. reflexivity.
Qed.

Theorem mpsc_prefix ss c acts i :
  src_ok ss ->
  prefix (vals (proj_o i (outs (mrun acts (minit ss c))))) (vals (nth i ss [])).
Proof.
  intros H. pose proof (mpsc_conservation ss c acts i H) as E. cbn zeta in E.
  rewrite <- E, vals_app. eexists. reflexivity.
Qed.

Definition all_ended (l : list (option nat * mentry)) : Prop := Forall (fun y => ended y = true) l.

Definition tail_ended (l : list (option nat * mentry)) : Prop :=
  forall o1 x o2, l = o1 ++ x :: o2 -> ended x = true -> all_ended o2.

Definition closed_inv (s : mstate) : Prop :=
  tail_ended (outs s) /\
  (existsb ended (outs s) = true -> queue s = [] /\ existsb (fun b => b) (alive s) = false).

Lemma tail_ended_snoc l y :
  tail_ended l -> (existsb ended l = true -> ended y = true) -> tail_ended (l ++ [y]).
Proof.
  intros Ht Hy o1 x o2 E Hx.
  destruct o2 as [|z o2] using rev_ind.
  - constructor.
  - clear IHo2. rewrite app_comm_cons, app_assoc in E. apply app_inj_tail in E. destruct E as [E ->].
    specialize (Ht _ _ _ E Hx). unfold all_ended. apply Forall_app. split; auto. constructor; auto.
    apply Hy. rewrite E, existsb_app. cbn [existsb]. rewrite Hx. now rewrite orb_true_r.
Qed.

Lemma existsb_set_false l i : existsb (fun b : bool => b) l = false -> existsb (fun b : bool => b) (set_nth i false l) = false.
Proof.
  revert i. induction l as [|x l IH]; intros [|i] H; cbn [set_nth existsb] in *; auto.
  - apply orb_false_iff in H. now destruct H as [_ ->].
  - apply orb_false_iff in H. destruct H as [-> H]. now rewrite IH.
Qed.

Lemma nth_false_of_none l i : existsb (fun b : bool => b) l = false -> nth i l false = false.
Proof.
  revert i. induction l as [|x l IH]; intros [|i] H; cbn [nth existsb] in *; auto.
  - apply orb_false_iff in H. now destruct H.
  - apply orb_false_iff in H. destruct H. auto.
Qed.

Lemma closed_step s a : closed_inv s -> closed_inv (mstep s a).
Proof.
  intros [Ht Hc]. destruct a as [i|i|i|]; unfold mstep.
  - destruct (nth i (alive s) false) eqn:Ea; [|split; auto].
    destruct (nth i (srcs s) []); [split; auto|]. destruct (len (queue s) <? cap s); [|split; auto].
    split; mprj; auto. intros He. destruct (Hc He) as [_ Hal]. rewrite (nth_false_of_none _ i Hal) in Ea. discriminate.
  - split; mprj; auto. intros He. destruct (Hc He) as [Hq Hal]. split; auto. now apply existsb_set_false.
  - destruct (nth i (alive s) false) eqn:Ea; cbn [andb]; [|split; auto].
    destruct (len (queue s) <? cap s); [|split; auto].
    split; mprj; auto. intros He. destruct (Hc He) as [_ Hal]. rewrite (nth_false_of_none _ i Hal) in Ea. discriminate.
  - destruct (recv_loop (queue s) (final_err s)) as [[[q' fe] o]|] eqn:Er.
    + destruct (recv_loop_some _ _ _ _ _ Er) as (i & e & -> & Hfe & Hp). split; mprj.
      * apply tail_ended_snoc; auto. intros He. destruct (Hc He) as [Hq _]. rewrite Hq in Er. discriminate.
      * rewrite existsb_app. cbn [existsb]. unfold ended at 2. cbn [snd]. rewrite Hfe, !orb_false_r. intros He.
        destruct (Hc He) as [Hq _]. rewrite Hq in Er. discriminate.
    + destruct (existsb (fun b => b) (alive s)) eqn:Eal.
      * split; mprj; auto. intros He. destruct (Hc He) as [_ Hal]. congruence.
      * destruct (drain_finals (queue s) (final_err s)); (split; mprj; [apply tail_ended_snoc; auto|intros _; auto]).
Qed.

(** Once [recv] has reported the end of the channel ([Ok(None)] or the held back final error) every
    later call reports the end again: no value arrives after it, and it is reported only when every
    forwarding task has ended and the queue is empty. *)
Theorem mpsc_end_is_final ss c acts :
  let s := mrun acts (minit ss c) in
  tail_ended (outs s) /\
  (existsb ended (outs s) = true -> queue s = [] /\ existsb (fun b => b) (alive s) = false).
Proof.
  apply (fold_left_inv mstep closed_inv closed_step). split; mprj.
  - intros o1 x o2 E. destruct o1; discriminate.
  - discriminate.
Qed.
