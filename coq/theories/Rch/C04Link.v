(** C04: the canonical framing used by the executable interface is one of the framings the theorems
    quantify over; the toy codec of the executable interface is an honest codec; the witness for the
    former finding F15 as a positive example; mpsc / oneshot composed with the base layer. *)
From Remoc Require Import Lib.Base Chmux.Parse Chmux.Recv Rch.Base Rch.BaseProofs Rch.Mpsc Rch.MpscProofs Run.RunBase.

Lemma chunks_fuel_concat : forall fuel ck (b : list N),
  1 <= ck -> (length b <= fuel)%nat -> concat (chunks_fuel fuel ck b) = b.
Proof.
  induction fuel as [|fuel IH]; intros ck b Hck Hl; cbn [chunks_fuel].
  - destruct b; [reflexivity|cbn [length] in Hl; lia].
  - destruct b as [|x b]; [reflexivity|]. cbn [concat]. set (l := x :: b) in *.
    rewrite IH; auto.
    + apply firstn_skipn.
    + rewrite skipn_length. subst l. cbn [length] in *. lia.
Qed.

Lemma chunks_concat ck (b : list N) : concat (chunks ck b) = b.
Proof. unfold chunks. apply chunks_fuel_concat; lia. Qed.

Lemma chunks_nonempty ck (b : list N) : b <> [] -> chunks ck b <> [].
Proof. unfold chunks. destruct b; [congruence|]. cbn [length chunks_fuel]. discriminate. Qed.

Definition att_ok (a : catt) : Prop := match a with APortsOk [] => False | _ => True end.

Lemma att_frames_framed ck a : att_ok a -> framed1 a (att_frames ck a).
Proof.
  intros Hok. destruct a as [st b|b|ps|ps]; cbn [framed1 att_frames].
  - destruct st.
    + destruct b as [|x b].
      * exists [[]]. repeat split; auto. discriminate.
      * exists (chunks ck (x :: b) ++ [[]]). split; [destruct (chunks ck (x :: b)); discriminate|].
        split; [rewrite concat_app, chunks_concat; cbn [concat]; now rewrite !app_nil_r|].
        rewrite !data_frames_chunk. apply chunk_frames_snoc. apply chunks_nonempty. discriminate.
    + destruct b as [|x b].
      * exists [[]]. repeat split; auto. discriminate.
      * exists (chunks ck (x :: b)). split; [apply chunks_nonempty; discriminate|]. split; [apply chunks_concat|reflexivity].
  - exists (chunks ck b). split; [apply chunks_concat|reflexivity].
  - unfold port_batches. exists (chunks (N.max 1 (ck / 4)) ps). split; [|split; [apply chunks_concat|reflexivity]].
    apply chunks_nonempty. destruct ps; [destruct Hok|discriminate].
  - unfold port_batches. exists (chunks (N.max 1 (ck / 4)) ps). split; [apply chunks_concat|reflexivity].
Qed.

Lemma att_frames_Framed ck atts : Forall att_ok atts -> Framed atts (flat_map (att_frames ck) atts).
Proof.
  induction 1 as [|a atts Ha Hs IH]; cbn [flat_map]; constructor; auto. now apply att_frames_framed.
Qed.

Lemma base_send_att_ok c bd bu it :
  let '(_, _, atts, _) := base_send c bd bu it in Forall att_ok atts.
Proof.
  pose proof (base_send_shape c bd bu it) as Hs. destruct (base_send c bd bu it) as [[[bd' bu'] atts] res].
  destruct Hs as [[-> _]|[(k & -> & _)|(st & bu2 & -> & _)]]; repeat constructor.
  pose proof (send_ports_shape bu2 (iports it)) as Hp. destruct (send_ports bu2 (iports it)) as [[bu3 ps] r]. cbn [fst snd].
  destruct Hp as [(_ & -> & _)|[(Hne & -> & _)|(_ & k & -> & _)]]; repeat constructor.
  cbn [att_ok]. destruct (iports it); auto.
Qed.

Lemma toy_bytes_len tag np poison l : 3 <= l -> len (toy_bytes tag np poison l) = l.
Proof. intros H. unfold toy_bytes, len. rewrite app_length, repeat_length. cbn [length]. lia. Qed.

Lemma toy_prefix_incomplete tag np poison l q r :
  3 <= l -> q ++ r = toy_bytes tag np poison l -> r <> [] -> toy_decode q = DIncomplete.
Proof.
  intros Hl Hq Hr. assert (Hlen : len q < l).
  { rewrite <- (toy_bytes_len tag np poison l Hl), <- Hq, len_app. destruct r; [congruence|]. rewrite len_cons. lia. }
  unfold toy_bytes in Hq. destruct q as [|a [|b [|c q]]]; try reflexivity.
  cbn [app] in Hq. injection Hq as -> -> -> _. unfold toy_decode.
  apply N.ltb_lt in Hlen. now rewrite Hlen.
Qed.

Lemma toy_honest dflt tag np poison l :
  3 <= l -> np <= 1 -> poison <= 1 -> 1 <= dflt ->
  honest toy_decode toy_ports dflt
    {| ibytes := toy_bytes tag np poison l; iports := if np =? 0 then [] else [tag]; ser_fail := None |}.
Proof.
  intros Hl Hnp Hpo Hd. split; [|split]; cbn [ibytes iports].
  - intros q r. now apply toy_prefix_incomplete.
  - unfold toy_bytes, toy_ports. cbn [app]. destruct (np =? 0) eqn:E.
    + apply N.eqb_eq in E. subst np. assert (H : (2 <=? 2 * 0 + poison) = false) by (apply N.leb_gt; lia). now rewrite H.
    + apply N.eqb_neq in E. assert (np = 1) by lia. subst np.
      assert (H : (2 <=? 2 * 1 + poison) = true) by (apply N.leb_le; lia). now rewrite H.
  - destruct (np =? 0); [change (len (@nil N)) with 0; lia|]. rewrite len_cons. change (len (@nil N)) with 0. lia.
Qed.

(** The former finding F15: a complete encoding in an unfinished message is not delivered.  A 12-byte value is streamed ([max_data_size] 8); its [Serialize] implementation fails after the
    last byte, so [send] reports [Serialize] and the message stays unfinished -- although the receiver's
    deserializer thread has read a complete value.  Before the repair of [rch/base/receiver.rs] the value
    was delivered as soon as the feed loop noticed that the thread had ended (a pending [recv] dropped and
    repeated).  Now the loop skips to the end of the message; the next value cancels the unfinished one. *)
Definition f15_item : item :=
  {| ibytes := toy_bytes 7 0 0 12; iports := []; ser_fail := Some 12 |}.
Definition f15_next : item :=
  {| ibytes := toy_bytes 8 0 0 5; iports := []; ser_fail := None |}.
Definition f15_cfg : scfg := {| s_md := 8; s_chunk := 4; s_max := 1000 |}.
Definition f15_sent := send_all f15_cfg 0%Z [(f15_item, None); (f15_next, None)].
(** the frames of the failed send, a repeated [recv], then the frames of the next send *)
Definition f15_acts : list ract :=
  map RFrame (flat_map (att_frames 4) (flat_map s_atts (firstn 1 f15_sent))) ++ [RReenter; RReenter] ++
  map RFrame (flat_map (att_frames 4) (flat_map s_atts (skipn 1 f15_sent))) ++ [RReenter].

Lemma f15_repaired :
  map s_res f15_sent = [SErrSer; SOk] /\
  (* the unfinished message carries the complete encoding *)
  map s_atts (firstn 1 f15_sent) = [[ADataCut (toy_bytes 7 0 0 12)]] /\ toy_decode (toy_bytes 7 0 0 12) = DOk /\
  (* nothing is delivered for it, the neighbour arrives *)
  snd (brun toy_decode toy_ports (binit 8 128 1000)
         (map RFrame (flat_map (att_frames 4) (flat_map s_atts (firstn 1 f15_sent))) ++ [RReenter; RReenter])) = [] /\
  snd (brun toy_decode toy_ports (binit 8 128 1000) f15_acts) = [ROk (toy_bytes 8 0 0 5)] /\
  sent_ok f15_sent = [toy_bytes 8 0 0 5].
Proof. vm_compute. repeat split; reflexivity. Qed.

(** the second witness: the credit runs out exactly before [finish] (12 credits for a 12-byte value) *)
Definition f15_sent2 := send_all f15_cfg 0%Z [({| ibytes := toy_bytes 7 0 0 12; iports := []; ser_fail := None |}, Some 12)].
Lemma f15_repaired2 :
  map s_res f15_sent2 = [SCancelled] /\
  map s_atts f15_sent2 = [[ADataCut (toy_bytes 7 0 0 12)]] /\
  snd (brun toy_decode toy_ports (binit 8 128 1000)
         (map RFrame (flat_map (att_frames 4) (flat_map s_atts f15_sent2)) ++ [RReenter; RReenter])) = [].
Proof. vm_compute. repeat split; reflexivity. Qed.

(** non-vacuity: three sends (buffered, streamed with a serialization failure after 10 bytes, streamed) *)
Definition ex_its : list (item * option N) :=
  [({| ibytes := toy_bytes 1 0 0 6; iports := []; ser_fail := None |}, None);
   ({| ibytes := toy_bytes 2 0 0 20; iports := []; ser_fail := Some 10 |}, None);
   ({| ibytes := toy_bytes 3 1 0 20; iports := [3]; ser_fail := None |}, None)].
Definition ex_cfg : scfg := {| s_md := 8; s_chunk := 4; s_max := 1000 |}.
Definition ex_sent := send_all ex_cfg 0%Z ex_its.
Definition ex_acts : list ract := map RFrame (flat_map (att_frames 4) (flat_map s_atts ex_sent)).

Lemma ex_run :
  map s_res ex_sent = [SOk; SErrSer; SOk] /\
  snd (brun toy_decode toy_ports (binit 8 128 1000) ex_acts) = [ROk (toy_bytes 1 0 0 6); ROk (toy_bytes 3 1 0 20)] /\
  sent_ok ex_sent = [toy_bytes 1 0 0 6; toy_bytes 3 1 0 20].
Proof. vm_compute. auto. Qed.

Section Compose.
  Variable decode : list N -> dres.
  Variable ports_of : list N -> list N.

  Lemma entries_src_ok ls : src_ok (map entries_of ls).
  Proof.
    unfold src_ok. rewrite Forall_map. apply Forall_forall. intros l _. unfold entries_of.
    induction l as [|r l IH]; cbn [flat_map]; [constructor|]. apply Forall_app. split; auto.
    destruct r; repeat constructor.
  Qed.

  Lemma vals_entries l : vals (entries_of l) = oks l.
  Proof.
    unfold entries_of, oks. induction l as [|r l IH]; cbn [flat_map]; auto. rewrite vals_app, IH.
    destruct r; reflexivity.
  Qed.

  (** one remote sender: its sends, the part of the schedule of its port that has happened ([a1]) and
      the part that has not ([a2], e.g. because the connection ended) *)
  Record rsender := mk_rsender {
    rs_cfg : scfg; rs_bd : Z; rs_its : list (item * option N); rs_a1 : list ract; rs_a2 : list ract
  }.

  Definition rs_sent (x : rsender) := send_all (rs_cfg x) (rs_bd x) (rs_its x).

  Definition rs_ok (dflt : N) (x : rsender) : Prop :=
    Forall (honest decode ports_of dflt) (map fst (rs_its x)) /\
    Framed (flat_map s_atts (rs_sent x)) (frames_of (rs_a1 x ++ rs_a2 x)).

  Definition rs_src md rmax dflt (x : rsender) : list mentry :=
    entries_of (snd (brun decode ports_of (binit md dflt rmax) (rs_a1 x))).

  (** Several remote senders, every framing and schedule of each port, every schedule of the
      forwarding tasks and of the receiving user: the values received from sender [i] are a prefix of
      the values sender [i] sent successfully (and the receiver can accept), in order. *)
  Theorem mpsc_end_to_end md rmax dflt (xs : list rsender) c macts i :
    Forall (rs_ok dflt) xs ->
    let s := mrun macts (minit (map (rs_src md rmax dflt) xs) c) in
    prefix (vals (proj_o i (outs s)))
           (match nth_error xs i with
            | Some x => filter (acceptable decode rmax) (sent_ok (rs_sent x))
            | None => []
            end).
  Proof.
    intros Hok. cbn zeta.
    pose proof (mpsc_prefix (map (rs_src md rmax dflt) xs) c macts i) as Hp.
    assert (Hs : src_ok (map (rs_src md rmax dflt) xs)).
    { unfold rs_src. rewrite <- map_map with (g := entries_of). apply entries_src_ok. }
    specialize (Hp Hs). eapply prefix_trans; [exact Hp|].
    destruct (nth_error xs i) as [x|] eqn:En.
    - erewrite nth_indep with (d' := rs_src md rmax dflt x); [|rewrite map_length; apply nth_error_Some; congruence].
      rewrite map_nth. rewrite (nth_error_nth _ _ _ En).
      unfold rs_src. rewrite vals_entries.
      rewrite Forall_forall in Hok. destruct (Hok x (nth_error_In _ _ En)) as (Hh & Hfr).
      unfold rs_sent in *.
      rewrite <- (base_success decode ports_of md rmax dflt (rs_cfg x) (rs_its x) (rs_bd x) Hh).
      rewrite <- (base_end_to_end decode ports_of md rmax dflt (rs_cfg x) (rs_its x) (rs_bd x) (rs_a1 x ++ rs_a2 x) Hh Hfr).
      apply oks_prefix. apply brun_prefix.
    - rewrite nth_overflow; [exists []; reflexivity|]. rewrite map_length. now apply nth_error_None.
  Qed.

  (** oneshot = an mpsc channel with a local buffer of one whose only sender is consumed by its only
      [send]: at most one value is ever received, and it is the successfully sent one *)
  Theorem oneshot_end_to_end md rmax dflt (x : rsender) macts :
    rs_ok dflt x -> (length (rs_its x) <= 1)%nat ->
    let s := mrun macts (minit [rs_src md rmax dflt x] 1) in
    prefix (vals (proj_o 0 (outs s))) (filter (acceptable decode rmax) (sent_ok (rs_sent x))) /\
    (length (sent_ok (rs_sent x)) <= 1)%nat.
  Proof.
    intros Hok Hl. split.
    - apply (mpsc_end_to_end md rmax dflt [x] 1 macts 0). constructor; auto.
    - unfold rs_sent. destruct (rs_its x) as [|[it bu] [|y r]]; cbn [length] in Hl; try lia; cbn [send_all].
      + cbn. lia.
      + destruct (base_send (rs_cfg x) (rs_bd x) bu it) as [[[bd' bu'] atts] res]. cbn [send_all sent_ok flat_map].
        destruct (s_res (it, atts, res)); cbn; lia.
  Qed.
End Compose.
