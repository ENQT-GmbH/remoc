(** The base receiver delivers exactly what the send attempts mean ([tspec]), for every framing of
    the attempts and every placement of dropped-and-repeated [recv] calls. *)
From Remoc Require Import Lib.Base Chmux.Parse Chmux.Recv Chmux.RecvProofs Rch.Base.

Ltac bprj := cbn [bm br b_max b_dflt_ports set_mode set_max_ports binit
                  rcving finished restarted max_data max_ports set_rcving set_finished set_restarted rinit] in *.

(** [data_frames] and [port_frames] are one function of the frame constructor *)
Fixpoint chunk_frames (mk : bool -> bool -> list N -> frame) (first fin : bool) (cs : list (list N)) : list frame :=
  match cs with
  | [] => []
  | [c] => [mk first fin c]
  | c :: r => mk first false c :: chunk_frames mk false fin r
  end.

Lemma data_frames_chunk first fin cs : data_frames first fin cs = chunk_frames FData first fin cs.
Proof.
  revert first. induction cs as [|c cs IH]; intros first; [reflexivity|]. destruct cs as [|c2 cs]; [reflexivity|].
  specialize (IH false). cbn [data_frames chunk_frames] in *. now f_equal.
Qed.

Lemma port_frames_chunk first fin cs : port_frames first fin cs = chunk_frames FPorts first fin cs.
Proof.
  revert first. induction cs as [|c cs IH]; intros first; [reflexivity|]. destruct cs as [|c2 cs]; [reflexivity|].
  specialize (IH false). cbn [port_frames chunk_frames] in *. now f_equal.
Qed.

Lemma chunk_frames_cons mk first fin c cs :
  chunk_frames mk first fin (c :: cs) =
  mk first (fin && match cs with [] => true | _ => false end) c :: chunk_frames mk false fin cs.
Proof. destruct cs; cbn [chunk_frames]; now rewrite ?andb_true_r, ?andb_false_r. Qed.

Lemma chunk_frames_snoc mk cks : forall first l c, cks <> [] ->
  chunk_frames mk first false cks ++ [mk false l c] = chunk_frames mk first l (cks ++ [c]).
Proof.
  induction cks as [|x [|y cks] IH]; intros first l c Hne; [congruence|reflexivity|].
  change ((x :: y :: cks) ++ [c]) with (x :: ((y :: cks) ++ [c])).
  rewrite (chunk_frames_cons mk first false), (chunk_frames_cons mk first l). cbn [andb app]. rewrite andb_false_r.
  f_equal. now apply IH.
Qed.

Lemma data_frames_cons first fin c cs :
  data_frames first fin (c :: cs) =
  FData first (fin && match cs with [] => true | _ => false end) c :: data_frames false fin cs.
Proof. rewrite !data_frames_chunk. apply chunk_frames_cons. Qed.

Lemma port_frames_cons first fin c cs :
  port_frames first fin (c :: cs) =
  FPorts first (fin && match cs with [] => true | _ => false end) c :: port_frames false fin cs.
Proof. rewrite !port_frames_chunk. apply chunk_frames_cons. Qed.

Section Proofs.
  Variable decode : list N -> dres.
  Variable ports_of : list N -> list N.
  Variables md rmax dflt : N.

  Notation bfeed := (bfeed decode ports_of).
  Notation reenter := (reenter decode).
  Notation bstep := (bstep decode ports_of).
  Notation brun := (brun decode ports_of).
  Notation stream_q := (stream_q decode ports_of).
  Notation decode_done := (decode_done decode ports_of).
  Notation have_item := (have_item ports_of).
  Notation on_data := (on_data decode ports_of).
  Notation on_any := (on_any decode ports_of).
  Notation deliver := (deliver decode).

  (** what never changes on a healthy port *)
  Definition common (s : bstate) : Prop :=
    finished (br s) = false /\ restarted (br s) = None /\ b_dflt_ports s = dflt /\
    dflt <= max_ports (br s) /\ b_max s = rmax /\ max_data (br s) = md.

  Definition nodata (x : receiving) : Prop := match x with RData _ _ => False | _ => True end.

  (** between two sends *)
  Definition Bnd (s : bstate) : Prop :=
    common s /\
    match bm s with
    | BStream _ _ | BDrain _ => rcving (br s) = RChunks [] false
    | _ => True
    end.
  Definition Skip (s : bstate) : Prop := common s /\ bm s = BIdle.
  Definition Expect (s : bstate) (b : list N) : Prop :=
    common s /\ bm s = BPorts b (ports_of b) /\ ports_of b <> [].

  Lemma Skip_Bnd s : Skip s -> Bnd s.
  Proof. intros [H E]. split; auto. now rewrite E. Qed.
  Lemma Expect_Bnd s b : Expect s b -> Bnd s.
  Proof. intros (H & E & _). split; auto. now rewrite E. Qed.

  Lemma common_set s m r :
    common s -> finished r = finished (br s) -> restarted r = restarted (br s) ->
    max_ports r = max_ports (br s) -> max_data r = max_data (br s) -> common (set_mode s m r).
  Proof. unfold common. intros (A & B & C & D & E & F) H1 H2 H3 H4. bprj. rewrite H1, H2, H3, H4. repeat split; auto. Qed.

  Lemma common_set_rcving s m x : common s -> common (set_mode s m (set_rcving (br s) x)).
  Proof. intros H. apply common_set; [exact H|reflexivity..]. Qed.

  (** the final state and output of a complete data message [b] *)
  Definition Fin (s : bstate) (b : list N) (o : list bres) : Prop :=
    (rmax < len b /\ o = [RErrSize] /\ Skip s) \/
    (len b <= rmax /\ decode b <> DOk /\ o = [RErrDeser] /\ Skip s) \/
    (len b <= rmax /\ decode b = DOk /\ ports_of b = [] /\ o = [ROk b] /\ Skip s) \/
    (len b <= rmax /\ decode b = DOk /\ ports_of b <> [] /\ o = [] /\ Expect s b).

  Lemma Fin_size s b : rmax < len b -> Skip s -> Fin s b [RErrSize].
  Proof. intros. left. auto. Qed.
  Lemma Fin_deser s b : len b <= rmax -> decode b <> DOk -> Skip s -> Fin s b [RErrDeser].
  Proof. intros. right. left. auto. Qed.
  Lemma Fin_ok s b : len b <= rmax -> decode b = DOk -> ports_of b = [] -> Skip s -> Fin s b [ROk b].
  Proof. intros. right. right. left. auto 6. Qed.
  Lemma Fin_expect s b : len b <= rmax -> decode b = DOk -> ports_of b <> [] -> Expect s b -> Fin s b [].
  Proof. intros. right. right. right. auto 6. Qed.

  Lemma Fin_set_rcving s b o x :
    Fin s b o -> Fin (set_mode s (bm s) (set_rcving (br s) x)) b o.
  Proof.
    assert (Hsk : forall s, Skip s -> Skip (set_mode s (bm s) (set_rcving (br s) x))).
    { intros s0 [Hc Hm]. split; [exact (common_set_rcving _ _ _ Hc)|exact Hm]. }
    intros [(H1 & H2 & H3)|[(H1 & H2 & H3 & H4)|[(H1 & H2 & H3 & H4 & H5)|(H1 & H2 & H3 & H4 & Hc & Hm & H5)]]].
    - subst o. apply Fin_size; [exact H1|exact (Hsk _ H3)].
    - subst o. apply Fin_deser; [exact H1|exact H2|exact (Hsk _ H4)].
    - subst o. apply Fin_ok; [exact H1|exact H2|exact H3|exact (Hsk _ H5)].
    - subst o. apply Fin_expect; [exact H1|exact H2|exact H3|]. split; [exact (common_set_rcving _ _ _ Hc)|split; [exact Hm|exact H5]].
  Qed.

  Lemma Fin_mode s b o : Fin s b o -> common s /\ (bm s = BIdle \/ bm s = BPorts b (ports_of b)).
  Proof.
    intros [(H1 & H2 & Hc & Hm)|[(H1 & H2 & H3 & Hc & Hm)|[(H1 & H2 & H3 & H4 & Hc & Hm)|(H1 & H2 & H3 & H4 & Hc & Hm & H5)]]]; auto.
  Qed.

  Lemma have_item_fin s r b :
    common (set_mode s BIdle r) -> len b <= rmax -> decode b = DOk ->
    let '(s', o) := have_item s r b in Fin s' b o /\ rcving (br s') = rcving r.
  Proof.
    intros Hc Hl Hd. unfold Base.have_item. destruct (ports_of b) as [|p ps] eqn:Ep.
    - split; [|reflexivity]. apply Fin_ok; auto. now split.
    - split; [|reflexivity]. apply Fin_expect; auto; [congruence|].
      destruct Hc as (A & B & C & D & E & F). bprj.
      split; [|split; [bprj; now rewrite Ep|congruence]].
      unfold common. bprj. repeat split; auto. rewrite C. lia.
  Qed.

  Lemma decode_done_fin s r b :
    common (set_mode s BIdle r) -> len b <= rmax ->
    let '(s', o) := decode_done s r b in Fin s' b o /\ rcving (br s') = rcving r.
  Proof.
    intros Hc Hl. unfold Base.decode_done. destruct (decode b) eqn:Ed.
    - now apply have_item_fin.
    - split; [|reflexivity]. apply Fin_deser; auto; [congruence|now split].
    - split; [|reflexivity]. apply Fin_deser; auto; [congruence|now split].
  Qed.

  Lemma stream_q_ok s r q : forall total acc completed,
    (b_max s <? total + len (concat q)) = false ->
    stream_q s r total acc q completed =
    if completed then decode_done s (set_rcving r RNothing) (acc ++ concat q)
    else (set_mode s (BStream (total + len (concat q)) (acc ++ concat q)) (set_rcving r (RChunks [] false)), []).
  Proof.
    induction q as [|c q IH]; intros total acc completed H; cbn [Base.stream_q concat].
    - rewrite app_nil_r. rewrite len_nil. replace (total + 0) with total by lia. reflexivity.
    - cbn [concat] in H. rewrite len_app in H. apply N.ltb_ge in H.
      destruct (b_max s <? total + len c) eqn:E; [apply N.ltb_lt in E; lia|].
      rewrite IH by (apply N.ltb_ge; lia).
      rewrite len_app, <- !app_assoc. replace (total + len c + len (concat q)) with (total + (len c + len (concat q))) by lia.
      reflexivity.
  Qed.

  Lemma stream_q_abort s r q : forall total acc completed,
    (b_max s <? total + len (concat q)) = true -> (b_max s <? total) = false ->
    exists q', stream_q s r total acc q completed = (set_mode s BIdle (set_rcving r (RChunks q' completed)), [RErrSize]).
  Proof.
    induction q as [|c q IH]; intros total acc completed H H0; cbn [Base.stream_q concat] in *.
    - rewrite len_nil in H. replace (total + 0) with total in H by lia. congruence.
    - rewrite len_app in H. destruct (b_max s <? total + len c) eqn:E.
      + eexists. reflexivity.
      + apply IH; auto. now replace (total + len c + len (concat q)) with (total + (len c + len (concat q))) by lia.
  Qed.

  Definition idle_like (m : bmode) : Prop := m = BIdle \/ exists b' ex, m = BPorts b' ex.

  (** a data frame arriving while the chmux receiver buffers the message ([acc] so far, in [bufs]) *)
  Definition buf_result (s : bstate) (m : bmode) (bufs : list (list N)) (acc : list N) (last : bool) (c : list N)
    : bstate * list bres :=
    if len acc + len c <=? md then
      if last then on_data s (set_rcving (br s) RNothing) (acc ++ c)
      else (set_mode s m (set_rcving (br s) (RData (bufs ++ [c]) (len acc + len c))), [])
    else stream_q s (set_rcving (br s) (RChunks (bufs ++ [c]) last)) 0 [] (bufs ++ [c]) last.

  Lemma buf_feed s bufs acc last c :
    common s -> idle_like (bm s) -> rcving (br s) = RData bufs (len acc) -> concat bufs = acc ->
    bfeed s (FData false last c) = buf_result s (bm s) bufs acc last c.
  Proof.
    intros Hc Hm Hr Hb. pose proof Hc as (Hfin & Hres & Hd & Hmp & Hbm & Hmd).
    unfold Base.bfeed, buf_result. rewrite Hfin.
    assert (Hany : handle_any (br s) (FData false last c) =
                   if len acc + len c <=? md
                   then if last then (set_rcving (br s) RNothing, Some (OData (concat (bufs ++ [c]))))
                        else (set_rcving (br s) (RData (bufs ++ [c]) (len acc + len c)), None)
                   else (set_rcving (br s) (RChunks (bufs ++ [c]) last), Some OChunks)).
    { unfold handle_any. rewrite Hr, Hmd. reflexivity. }
    rewrite concat_snoc, Hb in Hany.
    destruct Hm as [Hm|(b' & ex & Hm)]; rewrite Hm, Hany;
      destruct (len acc + len c <=? md); try destruct last; try reflexivity.
  Qed.

  Lemma handle_any_first r last c :
    max_data r = md ->
    handle_any r (FData true last c) =
    if 0 + len c <=? md
    then if last then (set_rcving r RNothing, Some (OData c))
         else (set_rcving r (RData [c] (0 + len c)), None)
    else (set_rcving r (RChunks [c] last), Some OChunks).
  Proof.
    intros Hr. unfold handle_any. cbn [app concat]. rewrite Hr, app_nil_r. reflexivity.
  Qed.

  Lemma on_cancel_first s last c :
    common s ->
    Base.on_cancel decode ports_of s (set_restarted (set_rcving (br s) RNothing) (Some (c, last))) =
    buf_result s BIdle [] [] last c.
  Proof.
    intros Hc. pose proof Hc as (Hfin & Hres & Hd & Hmp & Hbm & Hmd).
    unfold Base.on_cancel, buf_result. bprj. cbn [app]. change (len (@nil N)) with 0.
    assert (Heq : forall x, set_rcving (set_restarted (set_restarted (set_rcving (br s) RNothing) (Some (c, last))) None) x
                            = set_rcving (br s) x).
    { intros x. unfold set_rcving, set_restarted. bprj. now rewrite Hres. }
    rewrite handle_any_first by (bprj; exact Hmd).
    destruct (0 + len c <=? md); try destruct last; rewrite ?Heq; try reflexivity.
  Qed.

  Lemma first_feed s last c :
    Bnd s ->
    bfeed s (FData true last c) =
    buf_result s (match bm s with BPorts b' ex => BPorts b' ex | _ => BIdle end) [] [] last c.
  Proof.
    intros [Hc Hb]. pose proof Hc as (Hfin & Hres & Hd & Hmp & Hbm & Hmd).
    unfold Base.bfeed. rewrite Hfin.
    destruct (bm s) as [|total acc|acc|b' ex] eqn:Em.
    - unfold buf_result. cbn [app]. change (len (@nil N)) with 0. rewrite (handle_any_first _ last c Hmd).
      destruct (0 + len c <=? md); try destruct last; reflexivity.
    - unfold handle_chunk. rewrite Hb. now apply on_cancel_first.
    - unfold handle_chunk. rewrite Hb. now apply on_cancel_first.
    - unfold buf_result. cbn [app]. change (len (@nil N)) with 0. rewrite (handle_any_first _ last c Hmd).
      destruct (0 + len c <=? md); try destruct last; reflexivity.
  Qed.

  Lemma str_feed s total acc last c :
    common s -> bm s = BStream total acc -> rcving (br s) = RChunks [] false ->
    bfeed s (FData false last c) = stream_q s (set_rcving (br s) (RChunks [] last)) total acc [c] last.
  Proof.
    intros Hc Hm Hr. pose proof Hc as (Hfin & _). unfold Base.bfeed. rewrite Hfin, Hm.
    unfold handle_chunk. rewrite Hr. bprj. reflexivity.
  Qed.

  Lemma ign_feed s last c :
    common s -> idle_like (bm s) -> nodata (rcving (br s)) ->
    bfeed s (FData false last c) = (set_mode s (bm s) (set_rcving (br s) RNothing), []).
  Proof.
    intros Hc Hm Hn. pose proof Hc as (Hfin & _). unfold Base.bfeed. rewrite Hfin.
    assert (Hany : handle_any (br s) (FData false last c) = (set_rcving (br s) RNothing, None)).
    { unfold handle_any. destruct (rcving (br s)); try reflexivity. destruct Hn. }
    destruct Hm as [Hm|(b' & ex & Hm)]; rewrite Hm, Hany; reflexivity.
  Qed.

  Lemma drain_feed s acc (last : bool) c :
    common s -> bm s = BDrain acc -> rcving (br s) = RChunks [] false ->
    bfeed s (FData false last c) =
    if last then decode_done s (set_rcving (set_rcving (br s) (RChunks [] true)) RNothing) acc
    else (set_mode s (BDrain acc) (set_rcving (br s) (RChunks [] false)), []).
  Proof.
    intros Hc Hm Hr. pose proof Hc as (Hfin & _). unfold Base.bfeed. rewrite Hfin, Hm.
    unfold handle_chunk. rewrite Hr. bprj. destruct last; reflexivity.
  Qed.

  (** self-delimiting: no proper prefix of the encoding is accepted as a complete encoding *)
  Definition prefix_free (v : list N) : Prop := forall q r, q ++ r = v -> r <> [] -> decode q = DIncomplete.

  Lemma prefix_free_firstn k v : prefix_free v -> prefix_free (firstn k v).
  Proof.
    intros Hv q r Hq Hr. apply (Hv q (r ++ skipn k v)); [|now destruct r].
    rewrite app_assoc, Hq. apply firstn_skipn.
  Qed.

  Lemma reenter_idle s : idle_like (bm s) -> reenter s = (s, []).
  Proof. intros [Hm|(b' & ex & Hm)]; unfold Base.reenter; now rewrite Hm. Qed.

  Lemma reenter_bnd s : Bnd s -> exists s', reenter s = (s', []) /\ Bnd s'.
  Proof.
    intros [Hc Hb]. unfold Base.reenter. destruct (bm s) as [|total acc|acc|b' ex] eqn:Em;
      try (exists s; split; [reflexivity|split; [exact Hc|now rewrite Em]]).
    destruct (decode acc); try (exists s; split; [reflexivity|split; [exact Hc|now rewrite Em]]);
      (eexists; split; [reflexivity|split; [apply common_set; [exact Hc|reflexivity..]|exact Hb]]).
  Qed.

  Lemma brun_app s a1 a2 :
    brun s (a1 ++ a2) = let '(s1, o1) := brun s a1 in let '(s2, o2) := brun s1 a2 in (s2, o1 ++ o2).
  Proof.
    revert s; induction a1 as [|a a1 IH]; intros s; cbn [app Base.brun].
    - destruct (brun s a2); reflexivity.
    - destruct (bstep s a) as [s1 o1]. rewrite IH. destruct (brun s1 a1) as [s2 o2]. destruct (brun s2 a2) as [s3 o3].
      now rewrite app_assoc.
  Qed.

  Lemma frames_of_cons a acts :
    frames_of (a :: acts) = match a with RFrame f => f :: frames_of acts | RReenter => frames_of acts end.
  Proof. now destruct a. Qed.

  (** A schedule is its frames with repeated [recv] calls in between: an invariant indexed by the
      frames still to come, kept by a repeated call and advanced by a frame, holds at the end. *)
  Lemma brun_frames_ind (P : list frame -> bstate -> list bres -> Prop) :
    (forall fs s o, P fs s o -> let '(s', o') := reenter s in P fs s' (o ++ o')) ->
    (forall f fs s o, P (f :: fs) s o -> let '(s', o') := bfeed s f in P fs s' (o ++ o')) ->
    forall acts s o, P (frames_of acts) s o -> let '(s', o') := brun s acts in P [] s' (o ++ o').
  Proof.
    intros Hre Hfe. induction acts as [|a acts IH]; intros s o H; cbn [Base.brun].
    - now rewrite app_nil_r.
    - rewrite frames_of_cons in H. destruct a as [f|]; cbn [Base.bstep].
      + specialize (Hfe _ _ _ _ H). destruct (bfeed s f) as [s1 o1]. specialize (IH _ _ Hfe).
        destruct (brun s1 acts) as [s2 o2]. now rewrite app_assoc.
      + specialize (Hre _ _ _ H). destruct (reenter s) as [s1 o1]. specialize (IH _ _ Hre).
        destruct (brun s1 acts) as [s2 o2]. now rewrite app_assoc.
  Qed.

  Lemma brun_reenters (Q : bstate -> Prop) :
    (forall s, Q s -> exists s', reenter s = (s', []) /\ Q s') ->
    forall acts s, frames_of acts = [] -> Q s -> exists s', brun s acts = (s', []) /\ Q s'.
  Proof.
    intros HQ acts s Hf Hs.
    pose proof (brun_frames_ind (fun fs s o => fs = [] /\ o = [] /\ Q s)) as H.
    specialize (H ltac:(intros fs s0 o (-> & -> & H0); destruct (HQ _ H0) as (s1 & -> & H1); auto)
                  ltac:(intros f fs s0 o [H0 _]; discriminate) acts s [] (conj Hf (conj eq_refl Hs))).
    destruct (brun s acts) as [s' o']. cbn [app] in H. destruct H as (_ & -> & H). eauto.
  Qed.

  Lemma last_flag (fin : bool) (cs : list (list N)) :
    let last := fin && match cs with [] => true | _ => false end in
    (last = true -> fin = true /\ cs = []) /\ (last = false -> fin = true -> cs <> []).
  Proof. destruct fin, cs; cbn; split; auto; try discriminate; intros; discriminate. Qed.

  Section Message.
    Variable b : list N.   (** the whole message (complete or cut) *)
    Hypothesis Hpre : prefix_free b.

    Definition MBuf (s : bstate) (acc : list N) : Prop :=
      common s /\ idle_like (bm s) /\ (exists bufs, rcving (br s) = RData bufs (len acc) /\ concat bufs = acc) /\ len acc <= md.
    Definition MStr (s : bstate) (acc : list N) : Prop :=
      common s /\ bm s = BStream (len acc) acc /\ rcving (br s) = RChunks [] false /\ md < len acc /\ len acc <= rmax.
    Definition MAbort (s : bstate) (acc : list N) : Prop :=
      Skip s /\ nodata (rcving (br s)) /\ md < len acc /\ rmax < len acc.
    (** the deserializer has ended before the end of the message: the feed loop skips to the end *)
    Definition MDrain (s : bstate) (acc : list N) : Prop :=
      acc = b /\ common s /\ bm s = BDrain b /\ rcving (br s) = RChunks [] false /\ md < len b /\ len b <= rmax.

    (** state while the message is being received: [acc] arrived so far, [o] emitted so far *)
    Definition Mid (s : bstate) (acc : list N) (o : list bres) : Prop :=
      (MBuf s acc /\ o = []) \/ (MStr s acc /\ o = []) \/ (MAbort s acc /\ o = [RErrSize]) \/ (MDrain s acc /\ o = []).

    Definition Next (last : bool) (s : bstate) (acc : list N) (o : list bres) : Prop :=
      if last then Fin s acc o else Mid s acc o.

    Lemma stream_run s x acc q (last : bool) :
      common s -> len acc <= rmax -> (last = false -> md < len acc + len (concat q)) ->
      let '(s', o) := stream_q s (set_rcving (br s) x) (len acc) acc q last in
      Next last s' (acc ++ concat q) o.
    Proof.
      intros Hc Hl Hmd'. pose proof Hc as (Hfin & Hres & Hd & Hmp & Hbm & Hmd).
      destruct (b_max s <? len acc + len (concat q)) eqn:Eb.
      - destruct (stream_q_abort s (set_rcving (br s) x) q (len acc) acc last Eb) as (q' & ->).
        { rewrite Hbm. apply N.ltb_ge. clear - Hl. lia. }
        rewrite Hbm in Eb. apply N.ltb_lt in Eb.
        assert (Hsk : Skip (set_mode s BIdle (set_rcving (set_rcving (br s) x) (RChunks q' last)))).
        { split; [apply common_set; [exact Hc|reflexivity..]|reflexivity]. }
        destruct last; cbn [Next]; [apply Fin_size; [rewrite len_app; clear - Eb; lia|exact Hsk]|].
        right. right. left. split; [|reflexivity]. split; [exact Hsk|]. split; [bprj; exact I|]. rewrite len_app. clear - Eb Hmd'. specialize (Hmd' eq_refl). lia.
      - rewrite stream_q_ok by exact Eb. rewrite Hbm in Eb. apply N.ltb_ge in Eb. destruct last; cbn [Next].
        + pose proof (decode_done_fin s (set_rcving (set_rcving (br s) x) RNothing) (acc ++ concat q)) as H.
          destruct (decode_done s (set_rcving (set_rcving (br s) x) RNothing) (acc ++ concat q)) as [s' o].
          apply H; [apply common_set; [exact Hc|reflexivity..]|rewrite len_app; clear - Eb; lia].
        + right. left. split; [|reflexivity]. rewrite <- len_app.
          split; [apply common_set; [exact Hc|reflexivity..]|]. split; [reflexivity|]. split; [reflexivity|]. rewrite len_app. clear - Eb Hmd'. specialize (Hmd' eq_refl). lia.
    Qed.

    Lemma buf_result_run s m bufs acc (last : bool) c :
      common s -> idle_like m -> concat bufs = acc -> len acc <= md ->
      let '(s', o) := buf_result s m bufs acc last c in Next last s' (acc ++ c) o.
    Proof.
      intros Hc Hm Hb Hl. pose proof Hc as (Hfin & Hres & Hd & Hmp & Hbm & Hmd).
      unfold buf_result. destruct (len acc + len c <=? md) eqn:Efit.
      - apply N.leb_le in Efit. destruct last; cbn [Next].
        + unfold Base.on_data. rewrite Hbm. destruct (rmax <? len (acc ++ c)) eqn:Eb.
          * apply N.ltb_lt in Eb. apply Fin_size; auto. split; [exact (common_set_rcving _ _ _ Hc)|reflexivity].
          * apply N.ltb_ge in Eb.
            pose proof (decode_done_fin s (set_rcving (br s) RNothing) (acc ++ c)) as H.
            destruct (decode_done s (set_rcving (br s) RNothing) (acc ++ c)) as [s' o].
            apply H; [exact (common_set_rcving _ _ _ Hc)|exact Eb].
        + left. split; [|reflexivity].
          split; [exact (common_set_rcving _ _ _ Hc)|]. split; [exact Hm|]. split; [|rewrite len_app; clear - Efit; lia].
          exists (bufs ++ [c]). bprj. rewrite len_app, concat_snoc, Hb. auto.
      - apply N.leb_gt in Efit.
        pose proof (stream_run s (RChunks (bufs ++ [c]) last) [] (bufs ++ [c]) last Hc) as H.
        rewrite concat_snoc, Hb, len_nil in H. cbn [app] in H. apply H; [apply N.le_0_l|]. rewrite len_app. clear - Efit. lia.
    Qed.

    Lemma reenter_mid s acc o rest :
      Mid s acc o -> acc ++ rest = b ->
      let '(s', o') := reenter s in Mid s' acc (o ++ o').
    Proof.
      intros H Hb. unfold Base.reenter.
      destruct H as [[(Hc & Hm & Hr & Hl) ->]|[[(Hc & Hm & Hr & Hl1 & Hl2) ->]|[[([Hc Hm] & Hn & Hl1 & Hl2) ->]|[(-> & Hc & Hm & Hr & Hl1 & Hl2) ->]]]].
      - assert (Hm' := Hm). destruct Hm as [Hm|(b' & ex & Hm)]; rewrite Hm; left; (split; [|reflexivity]);
          exact (conj Hc (conj Hm' (conj Hr Hl))).
      - rewrite Hm.
        assert (Hdone : decode acc <> DIncomplete ->
                        Mid (set_mode s (BDrain acc) (br s)) acc ([] ++ [])).
        { intros Hd. assert (rest = []) as ->.
          { destruct rest as [|n rest]; auto. exfalso. apply Hd. apply (Hpre acc (n :: rest)); auto. discriminate. }
          rewrite app_nil_r in Hb. subst acc. right. right. right. split; [|reflexivity].
          split; [reflexivity|]. split; [apply common_set; [exact Hc|reflexivity..]|]. repeat split; auto. }
        destruct (decode acc) eqn:Ed; try (apply Hdone; congruence).
        right. left. split; [|reflexivity]. exact (conj Hc (conj Hm (conj Hr (conj Hl1 Hl2)))).
      - rewrite Hm. right. right. left. split; [|reflexivity]. exact (conj (conj Hc Hm) (conj Hn (conj Hl1 Hl2))).
      - rewrite Hm. right. right. right. split; [|reflexivity].
        exact (conj eq_refl (conj Hc (conj Hm (conj Hr (conj Hl1 Hl2))))).
    Qed.

    Lemma frame_step s acc o c (last : bool) rest :
      Mid s acc o -> acc ++ c ++ rest = b -> (last = true -> rest = []) ->
      let '(s', o') := bfeed s (FData false last c) in Next last s' (acc ++ c) (o ++ o').
    Proof.
      intros H Hb Hlast.
      destruct H as [[(Hc & Hm & (bufs & Hr & Hbufs) & Hl) ->]|[[(Hc & Hm & Hr & Hl1 & Hl2) ->]|[[([Hc Hm] & Hn & Hl1 & Hl2) ->]|[(-> & Hc & Hm & Hr & Hl1 & Hl2) ->]]]].
      - rewrite (buf_feed s bufs acc last c Hc Hm Hr Hbufs). cbn [app]. now apply buf_result_run.
      - rewrite (str_feed s (len acc) acc last c Hc Hm Hr). cbn [app].
        pose proof (stream_run s (RChunks [] last) acc [c] last Hc Hl2) as H.
        cbn [concat] in H. rewrite app_nil_r in H. apply H. clear - Hl1. lia.
      - assert (Hil : idle_like (bm s)) by (rewrite Hm; unfold idle_like; auto).
        rewrite (ign_feed s last c Hc Hil Hn), Hm. cbn [app].
        assert (Hsk : Skip (set_mode s BIdle (set_rcving (br s) RNothing))).
        { split; [exact (common_set_rcving _ _ _ Hc)|reflexivity]. }
        destruct last; cbn [Next]; [apply Fin_size; [rewrite len_app; clear - Hl2; lia|exact Hsk]|].
        right. right. left. split; [|reflexivity]. split; [exact Hsk|]. split; [bprj; exact I|]. rewrite len_app. clear - Hl1 Hl2. lia.
      - (* the deserializer has ended: the chunks are dropped, its verdict counts at the end *)
        assert (Hce : c ++ rest = []) by (apply (app_inv_head b); now rewrite app_nil_r).
        apply app_eq_nil in Hce. destruct Hce as [-> _]. rewrite !app_nil_r.
        rewrite (drain_feed s b last [] Hc Hm Hr). destruct last; cbn [Next app].
        + pose proof (decode_done_fin s (set_rcving (set_rcving (br s) (RChunks [] true)) RNothing) b) as H.
          destruct (decode_done s (set_rcving (set_rcving (br s) (RChunks [] true)) RNothing) b) as [s' o'].
          apply H; [apply common_set; [exact Hc|reflexivity..]|exact Hl2].
        + right. right. right. split; [|reflexivity].
          split; [reflexivity|]. split; [exact (common_set_rcving _ _ _ Hc)|]. repeat split; auto.
    Qed.

    Lemma Fin_idle s o : Fin s b o -> idle_like (bm s).
    Proof. intros H. destruct (Fin_mode _ _ _ H) as [_ [Hm|Hm]]; rewrite Hm; unfold idle_like; eauto. Qed.

    Lemma mid_cut_end s o :
      Mid s b o ->
      Bnd s /\ o = if (md <? len b) && (rmax <? len b) then [RErrSize] else [].
    Proof.
      intros [[(Hc & Hm & Hr & Hl) ->]|[[(Hc & Hm & Hr & Hl1 & Hl2) ->]|[[(Hs & Hn & Hl1 & Hl2) ->]|[(_ & Hc & Hm & Hr & Hl1 & Hl2) ->]]]].
      - split.
        + split; auto. destruct Hm as [Hm|(b' & ex & Hm)]; now rewrite Hm.
        + apply N.ltb_ge in Hl. now rewrite Hl.
      - split.
        + split; auto. rewrite Hm. auto.
        + apply N.ltb_ge in Hl2. now rewrite Hl2, andb_false_r.
      - split; [now apply Skip_Bnd|]. apply N.ltb_lt in Hl1, Hl2. now rewrite Hl1, Hl2.
      - split.
        + split; auto. rewrite Hm. auto.
        + apply N.ltb_ge in Hl2. now rewrite Hl2, andb_false_r.
    Qed.

    Lemma msg_run s acts cs (fin : bool) :
      Bnd s -> (fin = true -> cs <> []) -> concat cs = b -> frames_of acts = data_frames true fin cs ->
      let '(s', o) := brun s acts in
      if fin then Fin s' b o
      else Bnd s' /\ o = if (md <? len b) && (rmax <? len b) then [RErrSize] else [].
    Proof.
      intros Hbnd Hne Hb Hf.
      (* nothing taken yet / in the middle, [acc] received / completed *)
      set (P := fun (fs : list frame) (s : bstate) (o : list bres) =>
        (o = [] /\ Bnd s /\ exists cs, fs = data_frames true fin cs /\ concat cs = b /\ (fin = true -> cs <> [])) \/
        (exists acc cs, Mid s acc o /\ acc ++ concat cs = b /\ fs = data_frames false fin cs /\ (fin = true -> cs <> [])) \/
        (fin = true /\ fs = [] /\ Fin s b o)).
      assert (Hre : forall fs s o, P fs s o -> let '(s', o') := reenter s in P fs s' (o ++ o')).
      { intros fs s0 o [(-> & H0 & Hcs)|[(acc & cs0 & Hm & Hb0 & Hfs)|(Hfin & -> & HF)]].
        - destruct (reenter_bnd _ H0) as (s1 & -> & H1). left. auto.
        - pose proof (reenter_mid s0 acc o (concat cs0) Hm Hb0) as H1. destruct (reenter s0) as [s1 o1].
          right. left. eauto.
        - rewrite (reenter_idle _ (Fin_idle _ _ HF)), app_nil_r. right. right. auto. }
      assert (Hnext : forall cs0 s1 acc1 o1, Next (fin && match cs0 with [] => true | _ => false end) s1 acc1 o1 ->
                acc1 ++ concat cs0 = b -> P (data_frames false fin cs0) s1 o1).
      { intros cs0 s1 acc1 o1 HN Hb1. destruct (last_flag fin cs0) as [Hl1 Hl0]. destruct (fin && _); cbn [Next] in HN.
        - destruct (Hl1 eq_refl) as [Hfin ->]. cbn [concat] in Hb1. rewrite app_nil_r in Hb1. subst acc1. right. right. auto.
        - right. left. exists acc1, cs0. auto. }
      assert (Hfe : forall f fs s o, P (f :: fs) s o -> let '(s', o') := bfeed s f in P fs s' (o ++ o')).
      { intros f fs s0 o [(-> & H0 & [|c cs0] & Hfs & Hb0 & Hne0)|[(acc & [|c cs0] & Hm & Hb0 & Hfs & Hne0)|(_ & Hfs & _)]];
          try discriminate; rewrite data_frames_cons in Hfs; injection Hfs as -> ->; cbn [concat] in Hb0.
        - rewrite (first_feed s0 _ c H0). destruct H0 as [Hc _].
          pose proof (buf_result_run s0 (match bm s0 with BPorts b' ex => BPorts b' ex | _ => BIdle end) [] []
                        (fin && match cs0 with [] => true | _ => false end) c Hc) as H1.
          rewrite len_nil in H1. specialize (H1 ltac:(destruct (bm s0); [left; reflexivity..|right; eexists _, _; reflexivity]) eq_refl (N.le_0_l md)).
          destruct (buf_result s0 _ [] [] _ c) as [s1 o1]. exact (Hnext cs0 s1 c o1 H1 Hb0).
        - pose proof (frame_step s0 acc o c (fin && match cs0 with [] => true | _ => false end) (concat cs0) Hm Hb0) as H1.
          destruct (last_flag fin cs0) as [Hl1 _]. specialize (H1 ltac:(intros E; now destruct (Hl1 E) as [_ ->])).
          destruct (bfeed s0 (FData false _ c)) as [s1 o1]. apply (Hnext cs0 s1 (acc ++ c) _ H1). now rewrite <- app_assoc. }
      pose proof (brun_frames_ind P Hre Hfe acts s []) as H. rewrite Hf in H.
      specialize (H (or_introl (conj eq_refl (conj Hbnd (ex_intro _ cs (conj eq_refl (conj Hb Hne))))))).
      destruct (brun s acts) as [s' o']. cbn [app] in H.
      destruct H as [(-> & H0 & [|c cs0] & Hfs & Hb0 & Hne0)|[(acc & [|c cs0] & Hm & Hb0 & Hfs & Hne0)|(-> & _ & HF)]];
        try (rewrite data_frames_cons in Hfs; discriminate); [| |exact HF].
      - destruct fin; [now destruct Hne0|]. split; [exact H0|]. rewrite <- Hb0. cbn [concat]. rewrite len_nil.
        now replace (md <? 0) with false by (symmetry; apply N.ltb_ge; lia).
      - destruct fin; [now destruct Hne0|]. cbn [concat] in Hb0. rewrite app_nil_r in Hb0. subst acc. now apply mid_cut_end.
    Qed.
  End Message.

  (** what a ports frame with chunk [c] does when [acc] are the ports of this message received so far *)
  Definition pres (s : bstate) (acc : list N) (last : bool) (c : list N) : bstate * list bres :=
    let r' := set_rcving (br s) RNothing in
    if last then
      match bm s with
      | BPorts b ex =>
          match remove_ports ex (acc ++ c) with
          | [] => (set_mode s BIdle r', [ROk b])
          | ex' => (set_mode s (BPorts b ex') (set_max_ports r' (len ex' + b_dflt_ports s)), [RErrMissing])
          end
      | _ => (set_mode s BIdle r', [])
      end
    else (set_mode s (bm s) (set_rcving (br s) (RReq (acc ++ c))), []).

  Lemma pfeed s (first : bool) acc (last : bool) c :
    common s -> idle_like (bm s) -> (if first then RReq [] else rcving (br s)) = RReq acc ->
    len (acc ++ c) <= dflt ->
    bfeed s (FPorts first last c) = pres s acc last c.
  Proof.
    intros Hc Hm Hrc Hl. pose proof Hc as (Hfin & Hres & Hd & Hmp & Hbm & Hmd).
    unfold Base.bfeed, pres. rewrite Hfin.
    assert (Hany : handle_any (br s) (FPorts first last c) =
                   if last then (set_rcving (br s) RNothing, Some (OReq (acc ++ c)))
                   else (set_rcving (br s) (RReq (acc ++ c)), None)).
    { unfold handle_any.
      rewrite Hrc. assert (Hlt : (max_ports (br s) <? len (acc ++ c)) = false) by (apply N.ltb_ge; clear - Hmp Hl; lia).
      rewrite Hlt. reflexivity. }
    destruct Hm as [Hm|(b' & ex & Hm)]; rewrite Hm, Hany; destruct last; try reflexivity.
  Qed.

  Lemma remove_ports_self ex : remove_ports ex ex = [].
  Proof.
    unfold remove_ports. assert (H : forall l : list N, (forall e, In e l -> In e ex) ->
      filter (fun e => negb (existsb (N.eqb e) ex)) l = []).
    { induction l as [|x l IH]; intros Hin; cbn [filter]; auto.
      assert (Hx : existsb (N.eqb x) ex = true).
      { apply existsb_exists. exists x. split; [apply Hin; now left|apply N.eqb_refl]. }
      rewrite Hx. cbn [negb]. apply IH. intros e He. apply Hin. now right. }
    apply H. auto.
  Qed.

  (** A ports message in chunks [cs], complete ([fin]) or cut.  Where the complete message leaves expected ports
      over nothing is claimed: the one user, [fin_ports], feeds exactly the ports the data announced. *)
  Lemma pmsg s acts cs (fin : bool) :
    common s -> idle_like (bm s) -> len (concat cs) <= dflt -> (fin = true -> cs <> []) ->
    frames_of acts = port_frames true fin cs ->
    let '(s', o) := brun s acts in
    if fin then
      match bm s with
      | BPorts b ex =>
          match remove_ports ex (concat cs) with
          | [] => Skip s' /\ o = [ROk b]
          | _ => True
          end
      | _ => Skip s' /\ o = []
      end
    else common s' /\ idle_like (bm s') /\ o = [].
  Proof.
    intros Hc Hm Hl Hne Hf.
    set (done := fun (s' : bstate) (o : list bres) =>
      match bm s with
      | BPorts b ex => match remove_ports ex (concat cs) with [] => Skip s' /\ o = [ROk b] | _ => True end
      | _ => Skip s' /\ o = []
      end).
    (* in the batch, [acc] received ([first]: nothing yet) / completed *)
    set (P := fun (fs : list frame) (s' : bstate) (o : list bres) =>
      (o = [] /\ common s' /\ bm s' = bm s /\ exists (first : bool) acc cs',
         (if first then RReq [] else rcving (br s')) = RReq acc /\ fs = port_frames first fin cs' /\
         acc ++ concat cs' = concat cs /\ (fin = true -> cs' <> [])) \/
      (fs = [] /\ fin = true /\ done s' o)).
    assert (Hre : forall fs s' o, P fs s' o -> let '(s2, o2) := reenter s' in P fs s2 (o ++ o2)).
    { intros fs s' o [(-> & Hc' & Hm' & Hrest)|(-> & Hfin & Hd)].
      - rewrite reenter_idle by (rewrite Hm'; exact Hm). left. auto.
      - destruct (reenter s') as [s2 o2] eqn:Er. right. split; [reflexivity|]. split; [exact Hfin|].
        unfold done in *. destruct (bm s) as [| | |b' ex]; [| | |destruct (remove_ports ex (concat cs)); [|exact I]];
          destruct Hd as [[Hc' Hm'] ->]; (rewrite reenter_idle in Er by (left; exact Hm'));
          injection Er as <- <-; rewrite app_nil_r; split; auto; split; auto. }
    assert (Hfe : forall f fs s' o, P (f :: fs) s' o -> let '(s2, o2) := bfeed s' f in P fs s2 (o ++ o2)).
    { intros f fs s' o [(-> & Hc' & Hm' & first & acc & [|c cs'] & Hr & Hfs & Ht & Hne')|(Hfs & _)]; try discriminate.
      rewrite port_frames_cons in Hfs. injection Hfs as -> ->. cbn [concat] in Ht. rewrite app_assoc in Ht.
      assert (Hl1 : len (acc ++ c) <= dflt) by (rewrite <- Ht, len_app in Hl; clear - Hl; lia).
      rewrite (pfeed s' first acc _ c Hc' ltac:(rewrite Hm'; exact Hm) Hr Hl1). unfold pres. cbn [app].
      destruct (last_flag fin cs') as [Hl1' Hl0]. destruct (fin && _) eqn:El.
      - destruct (Hl1' eq_refl) as [Hfin ->]. cbn [concat] in Ht. rewrite app_nil_r in Ht. rewrite Hm', Ht.
        assert (Hsk : Skip (set_mode s' BIdle (set_rcving (br s') RNothing))).
        { split; [exact (common_set_rcving _ _ _ Hc')|reflexivity]. }
        unfold P, done. destruct (bm s) as [| | |b' ex]; [right; auto..|].
        destruct (remove_ports ex (concat cs)); right; auto.
      - left. split; [reflexivity|]. split; [exact (common_set_rcving _ _ _ Hc')|]. split; [exact Hm'|].
        exists false, (acc ++ c), cs'. auto. }
    pose proof (brun_frames_ind P Hre Hfe acts s []) as H. rewrite Hf in H.
    specialize (H (or_introl (conj eq_refl (conj Hc (conj eq_refl
      (ex_intro _ true (ex_intro _ [] (ex_intro _ cs (conj eq_refl (conj eq_refl (conj eq_refl Hne))))))))))).
    destruct (brun s acts) as [s' o]. cbn [app] in H.
    destruct H as [(-> & Hc' & Hm' & first & acc & [|c cs'] & _ & Hfs & _ & Hne')|(_ & -> & Hd)];
      [|rewrite port_frames_cons in Hfs; discriminate|exact Hd].
    destruct fin; [now destruct Hne'|]. rewrite Hm'. auto.
  Qed.

  Definition twf (t : itrace) : Prop :=
    match t with
    | TNothing => True
    | TCut p => prefix_free p
    | TDone b => prefix_free b /\ len (ports_of b) <= dflt
    | TPortsCut b ps => prefix_free b /\ ports_of b <> [] /\ len ps <= dflt
    end.

  Lemma frames_of_split : forall acts f1 f2,
    frames_of acts = f1 ++ f2 -> exists a1 a2, acts = a1 ++ a2 /\ frames_of a1 = f1 /\ frames_of a2 = f2.
  Proof.
    induction acts as [|a acts IH]; intros f1 f2 H.
    - destruct f1; [|discriminate]. exists [], []. auto.
    - rewrite frames_of_cons in H. destruct a as [f|]; [destruct f1 as [|g f1]|].
      + exists [], (RFrame f :: acts). now rewrite frames_of_cons.
      + injection H as <- H. destruct (IH _ _ H) as (a1 & a2 & -> & <- & <-).
        exists (RFrame f :: a1), a2. now rewrite frames_of_cons.
      + destruct (IH _ _ H) as (a1 & a2 & -> & <- & <-). exists (RReenter :: a1), a2. now rewrite frames_of_cons.
  Qed.

  Lemma Framed_app_inv l1 : forall l2 fs,
    Framed (l1 ++ l2) fs -> exists f1 f2, fs = f1 ++ f2 /\ Framed l1 f1 /\ Framed l2 f2.
  Proof.
    induction l1 as [|a l1 IH]; intros l2 fs H; cbn [app] in H.
    - exists [], fs. repeat split; auto. constructor.
    - inversion H as [|a' r fa fr Ha Hr]; subst. destruct (IH _ _ Hr) as (f1 & f2 & -> & H1 & H2).
      exists (fa ++ f1), f2. rewrite app_assoc. repeat split; auto. now constructor.
  Qed.

  Lemma Fin_out s b o :
    Fin s b o -> ports_of b = [] -> Bnd s /\ o = tspec decode md rmax (TDone b).
  Proof.
    unfold tspec, Base.deliver.
    intros [(H1 & -> & Hs)|[(H1 & H2 & -> & Hs)|[(H1 & H2 & H3 & -> & Hs)|(H1 & H2 & H3 & -> & Hs)]]] Hp.
    - apply N.ltb_lt in H1. rewrite H1. split; [now apply Skip_Bnd|reflexivity].
    - apply N.ltb_ge in H1. rewrite H1. split; [now apply Skip_Bnd|]. destruct (decode b); congruence.
    - apply N.ltb_ge in H1. rewrite H1, H2. split; [now apply Skip_Bnd|reflexivity].
    - congruence.
  Qed.

  Lemma fin_ports s1 b o1 a2 cp (fin : bool) :
    Fin s1 b o1 -> ports_of b <> [] -> len (concat cp) <= dflt ->
    (fin = true -> cp <> [] /\ concat cp = ports_of b) -> frames_of a2 = port_frames true fin cp ->
    let '(s2, o2) := brun s1 a2 in
    Bnd s2 /\ o1 ++ o2 = tspec decode md rmax (if fin then TDone b else TPortsCut b (concat cp)).
  Proof.
    intros HF Hp Hl Hfin Hf.
    destruct (Fin_mode _ _ _ HF) as [Hc1 Hm1].
    assert (Hidle : idle_like (bm s1)) by (destruct Hm1 as [-> | ->]; unfold idle_like; eauto).
    pose proof (pmsg s1 a2 cp fin Hc1 Hidle Hl (fun E => proj1 (Hfin E)) Hf) as H.
    destruct (brun s1 a2) as [s2 o2].
    assert (Hcut : fin = false -> Bnd s2 /\ o2 = []).
    { intros ->. destruct H as (Hc2 & Hm2 & ->). split; [|reflexivity]. split; [exact Hc2|].
      destruct Hm2 as [Hm2|(b' & ex & Hm2)]; now rewrite Hm2. }
    replace (tspec decode md rmax (if fin then TDone b else TPortsCut b (concat cp)))
      with (if rmax <? len b then [RErrSize]
            else match decode b with DOk => if fin then [ROk b] else [] | _ => [RErrDeser] end)
      by (destruct fin; unfold tspec, Base.deliver; destruct (rmax <? len b), (decode b); reflexivity).
    destruct HF as [(H1 & -> & [_ Hm])|[(H1 & H2 & -> & [_ Hm])|[(H1 & H2 & H3 & _)|(H1 & H2 & H3 & -> & _ & Hm & _)]]];
      [apply N.ltb_lt in H1|apply N.ltb_ge in H1|congruence|apply N.ltb_ge in H1]; rewrite H1, ?H2; rewrite Hm in H.
    1,2: assert (Hr : Bnd s2 /\ o2 = []) by (destruct fin; [destruct H; split; [now apply Skip_Bnd|assumption]|auto]);
         destruct Hr as [Hb2 ->]; split; [exact Hb2|]; cbn [app]; destruct fin, (decode b); congruence.
    destruct fin; [|destruct (Hcut eq_refl) as [Hb2 ->]; auto].
    rewrite (proj2 (Hfin eq_refl)), remove_ports_self in H. destruct H as [Hs2 ->]. split; [now apply Skip_Bnd|reflexivity].
  Qed.

  Lemma trace_run t s acts :
    twf t -> Bnd s -> Framed (trace_atts ports_of t) (frames_of acts) ->
    let '(s', o) := brun s acts in Bnd s' /\ o = tspec decode md rmax t.
  Proof.
    intros Hwf Hbnd Hfr. destruct t as [|p|b|b ps]; cbn [trace_atts] in Hfr.
    - inversion Hfr as [Hnil|]. destruct (brun_reenters Bnd reenter_bnd acts s (eq_sym H) Hbnd) as (sp & -> & Hbndp). auto.
    - inversion Hfr as [|a r fa fr Ha Hr Heq]; subst. cbn [framed1] in Ha. destruct Ha as (cs & Hcs & ->).
      inversion Hr; subst. rewrite app_nil_r in *.
      exact (msg_run (concat cs) Hwf s acts cs false Hbnd ltac:(discriminate) eq_refl (eq_sym H0)).
    - destruct Hwf as [Hpre Hlp]. destruct (ports_of b) as [|p0 ps0] eqn:Ep.
      + inversion Hfr as [|a r fa fr Ha Hr Heq]; subst. cbn [framed1] in Ha. destruct Ha as (cs & Hne & Hcs & ->).
        inversion Hr; subst. rewrite app_nil_r in *.
        pose proof (msg_run (concat cs) Hpre s acts cs true Hbnd (fun _ => Hne) eq_refl (eq_sym H0)) as H.
        destruct (brun s acts) as [s' o]. now apply Fin_out.
      + inversion Hfr as [|a r fa fr Ha Hr Heq]; subst. cbn [framed1] in Ha. destruct Ha as (cs & Hne & Hcs & ->).
        inversion Hr as [|a' r' fp fr' Ha' Hr' Heq']; subst. cbn [framed1] in Ha'. destruct Ha' as (cp & Hnep & Hcp & ->).
        inversion Hr'; subst. rewrite app_nil_r in *.
        destruct (frames_of_split _ _ _ (eq_sym H0)) as (a1 & a2 & -> & Hf1 & Hf2). rewrite brun_app.
        pose proof (msg_run (concat cs) Hpre s a1 cs true Hbnd (fun _ => Hne) eq_refl Hf1) as H.
        destruct (brun s a1) as [s1 o1].
        assert (H2 := fin_ports s1 (concat cs) o1 a2 cp true H). rewrite Ep, Hcp in H2.
        specialize (H2 ltac:(discriminate) Hlp (fun _ => conj Hnep eq_refl) Hf2). now destruct (brun s1 a2).
    - destruct Hwf as (Hpre & Hpn & Hlp).
      inversion Hfr as [|a r fa fr Ha Hr Heq]; subst. cbn [framed1] in Ha. destruct Ha as (cs & Hne & Hcs & ->).
      inversion Hr as [|a' r' fp fr' Ha' Hr' Heq']; subst. cbn [framed1] in Ha'. destruct Ha' as (cp & Hcp & ->).
      inversion Hr'; subst. rewrite app_nil_r in *.
      destruct (frames_of_split _ _ _ (eq_sym H0)) as (a1 & a2 & -> & Hf1 & Hf2). rewrite brun_app.
      pose proof (msg_run (concat cs) Hpre s a1 cs true Hbnd (fun _ => Hne) eq_refl Hf1) as H.
      destruct (brun s a1) as [s1 o1].
      assert (H2 := fin_ports s1 (concat cs) o1 a2 cp false H Hpn Hlp ltac:(discriminate) Hf2). now destruct (brun s1 a2).
  Qed.

  Lemma binit_Bnd : Bnd (binit md dflt rmax).
  Proof. split; [|exact I]. unfold common, binit. bprj. repeat split; auto. lia. Qed.

  (** The receiver's results are, send by send, what each send means -- for every framing and every
      placement of repeated [recv] calls. *)
  Theorem base_recv_spec : forall traces s acts,
    Forall twf traces -> Bnd s ->
    Framed (flat_map (trace_atts ports_of) traces) (frames_of acts) ->
    let '(s', o) := brun s acts in Bnd s' /\ o = flat_map (tspec decode md rmax) traces.
  Proof.
    induction traces as [|t traces IH]; intros s acts Hwf Hbnd Hfr; cbn [flat_map] in *.
    - inversion Hfr as [Hnil|]. destruct (brun_reenters Bnd reenter_bnd acts s (eq_sym H) Hbnd) as (sp & -> & Hbndp). auto.
    - inversion Hwf as [|t' l' Ht Hts]; subst.
      destruct (Framed_app_inv _ _ _ Hfr) as (f1 & f2 & Hfs & H1 & H2).
      destruct (frames_of_split _ _ _ Hfs) as (a1 & a2 & -> & Hf1 & Hf2).
      rewrite brun_app. rewrite <- Hf1 in H1. rewrite <- Hf2 in H2.
      pose proof (trace_run t s a1 Ht Hbnd H1) as Ha.
      destruct (brun s a1) as [s1 o1]. destruct Ha as [Hb1 ->].
      specialize (IH s1 a2 Hts Hb1 H2). destruct (brun s1 a2) as [s2 o2]. destruct IH as [Hb2 ->]. auto.
  Qed.

  (** an honest sender with a self-delimiting codec: no proper prefix of an encoding is an encoding;
      the ports collected while serializing are those the deserializer will expect *)
  Definition honest (it : item) : Prop :=
    (forall q r, q ++ r = ibytes it -> r <> [] -> decode q = DIncomplete) /\
    iports it = ports_of (ibytes it) /\ len (iports it) <= dflt.

  Lemma send_ports_shape bu ps :
    let '(_, atts, r) := send_ports bu ps in
    (ps = [] /\ atts = [] /\ r = SOk) \/
    (ps <> [] /\ atts = [APortsOk ps] /\ r = SOk) \/
    (ps <> [] /\ exists k, atts = [APortsCut (firstn k ps)] /\ r = SCancelled).
  Proof.
    unfold send_ports. destruct ps as [|p ps]; [auto|].
    destruct (has bu (4 * len (p :: ps))).
    - right. left. repeat split; auto. discriminate.
    - right. right. split; [discriminate|]. eexists. split; reflexivity.
  Qed.

  Lemma base_send_shape c bd bu it :
    let '(_, _, atts, res) := base_send c bd bu it in
    (atts = [] /\ res <> SOk) \/
    (exists k, atts = [ADataCut (firstn k (ibytes it))] /\ res <> SOk) \/
    (exists st bu', atts = ADataOk st (ibytes it) :: snd (fst (send_ports bu' (iports it))) /\
                    res = snd (send_ports bu' (iports it))).
  Proof.
    unfold base_send.
    destruct ((bd <=? 0)%Z); [destruct (serialize_buffered (s_md c) it)|].
    2,4: (* streamed: after an overflow, or because of the heuristic *)
      destruct (negb (has bu _)); [right; left; eexists; split; [reflexivity|discriminate]|];
      destruct (s_max c <? ser_written it); [right; left; eexists; split; [reflexivity|discriminate]|];
      destruct (ser_fails it); [right; left; eexists; split; [reflexivity|discriminate]|];
      destruct (negb (has _ 1)); [right; left; eexists; split; [reflexivity|discriminate]|];
      destruct (send_ports _ (iports it)) as [[bu2 ps] r] eqn:E;
      right; right; eexists true, _; rewrite E; auto.
    - destruct (s_max c <? len (ibytes it)); [left; split; [reflexivity|discriminate]|].
      destruct (has bu (N.max 1 (len (ibytes it)))).
      + destruct (send_ports (spend bu (N.max 1 (len (ibytes it)))) (iports it)) as [[bu2 ps] r] eqn:E.
        right. right. exists false, (spend bu (N.max 1 (len (ibytes it)))). rewrite E. auto.
      + right. left. eexists. split; [reflexivity|discriminate].
    - left. split; [reflexivity|discriminate].
  Qed.

  Lemma Framed_flag st b r fs : Framed (ADataOk st b :: r) fs -> Framed (ADataOk false b :: r) fs.
  Proof. intros H. inversion H; subst. constructor; auto. Qed.

  Lemma base_send_trace c bd bu it :
    honest it ->
    let '(_, _, atts, res) := base_send c bd bu it in
    twf (atts_trace atts) /\
    (forall fs, Framed atts fs -> Framed (trace_atts ports_of (atts_trace atts)) fs) /\
    (res = SOk -> atts_trace atts = TDone (ibytes it)) /\
    (res <> SOk -> match atts_trace atts with TDone _ => False | _ => True end).
  Proof.
    intros (Hpre & Hports & Hlp). pose proof (base_send_shape c bd bu it) as Hs.
    destruct (base_send c bd bu it) as [[[bd' bu'] atts] res].
    destruct Hs as [[-> Hr]|[(k & -> & Hr)|(st & bu2 & -> & ->)]].
    - cbn [atts_trace twf trace_atts]. repeat split; auto; congruence.
    - cbn [atts_trace twf trace_atts]. split; [now apply prefix_free_firstn|repeat split; auto; congruence].
    - pose proof (send_ports_shape bu2 (iports it)) as Hp.
      destruct (send_ports bu2 (iports it)) as [[bu3 ps] r]. cbn [fst snd] in *.
      destruct Hp as [(Hnil & -> & ->)|[(Hne & -> & ->)|(Hne & k & -> & ->)]].
      + cbn [atts_trace twf trace_atts]. rewrite <- Hports, Hnil.
        rewrite Hnil in Hlp.
        repeat split; auto; try congruence; try (intros fs; apply Framed_flag).
      + cbn [atts_trace twf trace_atts]. rewrite <- Hports.
        destruct (iports it) as [|p0 ps0] eqn:Ei; [congruence|].
        repeat split; auto; try congruence; try (intros fs; apply Framed_flag).
      + assert (H : len (firstn k (iports it)) <= len (iports it)).
        { unfold len. rewrite firstn_length. lia. }
        cbn [atts_trace twf trace_atts].
        rewrite Hports in Hne.
        repeat split; auto; try congruence; try (intros fs; apply Framed_flag); try lia.
  Qed.

  Definition s_atts (x : item * list catt * sres) : list catt := snd (fst x).
  Definition s_item (x : item * list catt * sres) : item := fst (fst x).
  Definition s_res (x : item * list catt * sres) : sres := snd x.

  Definition sent_spec (x : item * list catt * sres) : list bres :=
    tspec decode md rmax (atts_trace (s_atts x)).

  Definition sent_ok (l : list (item * list catt * sres)) : list (list N) :=
    flat_map (fun x => match s_res x with SOk => [ibytes (s_item x)] | _ => [] end) l.

  Lemma Framed_app l1 : forall f1 l2 f2, Framed l1 f1 -> Framed l2 f2 -> Framed (l1 ++ l2) (f1 ++ f2).
  Proof.
    induction l1 as [|a l1 IH]; intros f1 l2 f2 H1 H2.
    - inversion H1; subst. exact H2.
    - inversion H1; subst. cbn [app]. rewrite <- app_assoc. constructor; auto.
  Qed.

  Lemma Framed_flat_map {A} (f g : A -> list catt) (l : list A) :
    Forall (fun x => forall fs, Framed (f x) fs -> Framed (g x) fs) l ->
    forall fs, Framed (flat_map f l) fs -> Framed (flat_map g l) fs.
  Proof.
    induction 1 as [|x l Hx Hl IH]; intros fs H; cbn [flat_map] in *; auto.
    destruct (Framed_app_inv _ _ _ H) as (f1 & f2 & -> & H1 & H2). apply Framed_app; auto.
  Qed.

  Lemma flat_map_map {A B C} (f : B -> list C) (g : A -> B) (l : list A) :
    flat_map f (map g l) = flat_map (fun x => f (g x)) l.
  Proof. induction l as [|x l IH]; cbn [map flat_map]; congruence. Qed.

  Lemma send_all_forall (P : item * list catt * sres -> Prop) c :
    (forall bd bu it, honest it ->
       let '(_, _, atts, res) := base_send c bd bu it in P (it, atts, res)) ->
    forall its bd, Forall honest (map fst its) -> Forall P (send_all c bd its).
  Proof.
    intros HP. induction its as [|[it bu] its IH]; intros bd Hh; cbn [send_all]; [constructor|].
    inversion Hh as [|? ? Hit Hits]; subst. specialize (HP bd bu it Hit).
    destruct (base_send c bd bu it) as [[[bd' bu'] atts] res]. constructor; auto.
  Qed.

  Theorem base_end_to_end c its bd acts :
    Forall honest (map fst its) ->
    Framed (flat_map s_atts (send_all c bd its)) (frames_of acts) ->
    snd (brun (binit md dflt rmax) acts) = flat_map sent_spec (send_all c bd its).
  Proof.
    intros Hh Hfr.
    assert (Hall : Forall (fun x => twf (atts_trace (s_atts x)) /\
                   (forall fs, Framed (s_atts x) fs -> Framed (trace_atts ports_of (atts_trace (s_atts x))) fs))
                   (send_all c bd its)).
    { apply send_all_forall; auto. intros bd0 bu it Hit. pose proof (base_send_trace c bd0 bu it Hit) as Ht.
      destruct (base_send c bd0 bu it) as [[[? ?] atts] res]. destruct Ht as (A & B & _). auto. }
    pose proof (base_recv_spec (map (fun x => atts_trace (s_atts x)) (send_all c bd its)) (binit md dflt rmax) acts) as Hspec.
    rewrite !flat_map_map in Hspec.
    assert (H1 : Forall twf (map (fun x => atts_trace (s_atts x)) (send_all c bd its))).
    { rewrite Forall_map. eapply Forall_impl; [|exact Hall]. intros x [A _]. exact A. }
    assert (H2 : Framed (flat_map (fun x => trace_atts ports_of (atts_trace (s_atts x))) (send_all c bd its)) (frames_of acts)).
    { apply (Framed_flat_map s_atts); auto. eapply Forall_impl; [|exact Hall]. intros x [_ B]. exact B. }
    specialize (Hspec H1 binit_Bnd H2). destruct (brun (binit md dflt rmax) acts) as [s' o]. cbn [snd]. apply Hspec.
  Qed.

  Lemma sent_spec_cases c bd bu it :
    honest it ->
    let '(_, _, atts, res) := base_send c bd bu it in
    let o := sent_spec (it, atts, res) in
    (res = SOk -> o = if rmax <? len (ibytes it) then [RErrSize] else deliver (ibytes it)) /\
    (res <> SOk -> o = [] \/ o = [RErrSize] \/ o = [RErrDeser]).
  Proof.
    intros Hit. pose proof (base_send_trace c bd bu it Hit) as Ht.
    destruct (base_send c bd bu it) as [[[bd' bu'] atts] res].
    destruct Ht as (_ & _ & Hok & Hfail). unfold sent_spec, s_atts. cbn [fst snd]. split.
    - intros Hr. rewrite (Hok Hr). reflexivity.
    - intros Hr. specialize (Hfail Hr). destruct (atts_trace atts) as [|p|b|b ps]; cbn [tspec]; auto.
      + destruct ((md <? len p) && (rmax <? len p)); auto.
      + destruct Hfail.
      + destruct (rmax <? len b); auto. destruct (decode b); auto.
  Qed.

  Lemma oks_app a b : oks (a ++ b) = oks a ++ oks b.
  Proof. unfold oks. apply flat_map_app. Qed.

  (** every result is attributable to one send: a send contributes at most one result -- its value if it
      returned [Ok] and the receiver can accept it, otherwise nothing or one non-final error *)
  Definition attributed (x : item * list catt * sres) : Prop :=
    let b := ibytes (s_item x) in
    let o := sent_spec x in
    (s_res x = SOk /\ acceptable decode rmax b = true /\ o = [ROk b]) \/
    o = [] \/
    ((o = [RErrSize] \/ o = [RErrDeser]) /\ (s_res x <> SOk \/ acceptable decode rmax b = false)).

  Lemma accept_cases v :
    let o := if rmax <? len v then [RErrSize] else deliver v in
    (acceptable decode rmax v = true /\ o = [ROk v]) \/
    (acceptable decode rmax v = false /\ (o = [RErrSize] \/ o = [RErrDeser])).
  Proof.
    unfold acceptable, Base.deliver. destruct (rmax <? len v) eqn:E.
    - apply N.ltb_lt in E. replace (len v <=? rmax) with false by (symmetry; apply N.leb_gt; lia). auto.
    - apply N.ltb_ge in E. replace (len v <=? rmax) with true by (symmetry; apply N.leb_le; lia).
      destruct (decode v); auto.
  Qed.

  Lemma send_attributed c bd bu it :
    honest it ->
    let '(_, _, atts, res) := base_send c bd bu it in
    attributed (it, atts, res) /\
    oks (sent_spec (it, atts, res)) =
    filter (acceptable decode rmax) (match res with SOk => [ibytes it] | _ => [] end).
  Proof.
    intros Hit. pose proof (sent_spec_cases c bd bu it Hit) as Ht.
    destruct (base_send c bd bu it) as [[[? ?] atts] res]. destruct Ht as [A B].
    unfold attributed, s_res, s_item. cbn [fst snd].
    destruct res; [rewrite (A eq_refl); cbn [filter]; destruct (accept_cases (ibytes it)) as [[-> ->]|[-> [-> | ->]]]; auto 6|..];
      (destruct (B ltac:(discriminate)) as [->|[->| ->]]; (split; [|reflexivity]);
       [right; left; reflexivity|right; right; split; [auto|left; discriminate]..]).
  Qed.

  (** the successful results are exactly the successfully sent values the receiver can accept *)
  Theorem base_success c its bd :
    Forall honest (map fst its) ->
    oks (flat_map sent_spec (send_all c bd its)) =
    filter (acceptable decode rmax) (sent_ok (send_all c bd its)).
  Proof.
    intros Hh.
    assert (H : Forall (fun x => oks (sent_spec x) = filter (acceptable decode rmax)
                                   (match s_res x with SOk => [ibytes (s_item x)] | _ => [] end)) (send_all c bd its)).
    { apply send_all_forall; auto. intros bd0 bu it Hit. pose proof (send_attributed c bd0 bu it Hit) as Ht.
      destruct (base_send c bd0 bu it) as [[[? ?] atts] res]. apply Ht. }
    induction H as [|x l Hx Hl IH]; [reflexivity|].
    cbn [flat_map sent_ok]. rewrite oks_app, filter_app. f_equal; [exact Hx|exact IH].
  Qed.

  Theorem base_attribution c its bd :
    Forall honest (map fst its) ->
    Forall attributed (send_all c bd its).
  Proof.
    intros Hh. apply send_all_forall; auto. intros bd0 bu it Hit. pose proof (send_attributed c bd0 bu it Hit) as Ht.
    destruct (base_send c bd0 bu it) as [[[? ?] atts] res]. apply Ht.
  Qed.

  (** whatever part of the schedule has happened, its results are a prefix of the final ones: values are
      lost only as a suffix when the channel or connection ends *)
  Lemma brun_prefix s a1 a2 : prefix (snd (brun s a1)) (snd (brun s (a1 ++ a2))).
  Proof.
    rewrite brun_app. destruct (brun s a1) as [s1 o1]. destruct (brun s1 a2) as [s2 o2]. cbn [snd]. now exists o2.
  Qed.

  Lemma oks_prefix a b : prefix a b -> prefix (oks a) (oks b).
  Proof. intros [r ->]. rewrite oks_app. eexists. reflexivity. Qed.
End Proofs.
