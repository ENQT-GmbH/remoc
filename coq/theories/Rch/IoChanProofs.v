(** Proofs about the I/O channel model [IoChan]: the loop fuel of [poll_read] is never exhausted;
    an invariant relating accepted, transmitted, in-flight and read bytes holds along every action
    list; the theorems of [Props/C18.v] follow. *)
From Remoc Require Import Lib.Base Rch.IoChan.
From RecordUpdate Require Import RecordUpdate.
Import RecordSetNotations.

Lemma concat_cut_at sizes data : concat (cut_at sizes data) = data.
Proof.
  revert data. induction sizes as [|k r IH]; intros data; cbn [cut_at concat].
  - now rewrite app_nil_r.
  - rewrite IH. apply firstn_skipn.
Qed.

Lemma len_firstn_le {A} (k : N) (l : list A) : k <= len l -> len (firstn (N.to_nat k) l) = k.
Proof. unfold len. intros H. rewrite firstn_length. lia. Qed.

Lemma len_0_nil {A} (l : list A) : len l = 0 -> l = [].
Proof. destruct l; [auto|]. rewrite len_cons. lia. Qed.

Lemma prefix_len {A} (a b : list A) : prefix a b -> len a <= len b.
Proof. intros [r ->]. rewrite len_app. lia. Qed.

Lemma prefix_len_eq {A} (a b : list A) : prefix a b -> len b <= len a -> a = b.
Proof.
  intros [r ->] H. rewrite len_app in H. assert (len r = 0) as Hr by lia.
  apply len_0_nil in Hr. subst r. now rewrite app_nil_r.
Qed.

Lemma prefix_app_l {A} (a b c : list A) : prefix (a ++ b) c -> prefix a c.
Proof. intros [r ->]. exists (b ++ r). now rewrite app_assoc. Qed.

Definition evbytes (q : list event) : list N :=
  flat_map (fun ev => match ev with EChunk segs => concat segs | _ => [] end) q.

Lemma evbytes_app q1 q2 : evbytes (q1 ++ q2) = evbytes q1 ++ evbytes q2.
Proof. unfold evbytes. apply flat_map_app. Qed.

Definition cur_bytes (r : receiver) : list N :=
  match r_cur r with Some segs => concat segs | None => [] end.

Lemma advance_chunk k segs :
  k <= len (chunk segs) ->
  exists segs', advance k segs = Some segs' /\ concat segs = firstn (N.to_nat k) (chunk segs) ++ concat segs'.
Proof.
  intros Hk. destruct segs as [|b r]; cbn [chunk] in Hk.
  - rewrite len_nil in Hk. assert (k = 0) as -> by lia. exists []. cbn. auto.
  - cbn [advance chunk]. destruct (k =? 0) eqn:E0.
    + apply N.eqb_eq in E0. subst k. exists (b :: r). cbn. auto.
    + destruct (k <? len b) eqn:E1.
      * eexists. split; [reflexivity|]. cbn [concat]. rewrite app_assoc. now rewrite firstn_skipn.
      * apply N.ltb_ge in E1. assert (k = len b) as -> by lia.
        replace (len b - len b) with 0 by lia. destruct r as [|b' r']; cbn [advance].
        -- exists []. split; [reflexivity|]. unfold len. rewrite Nat2N.id, firstn_all. reflexivity.
        -- replace (0 =? 0) with true by reflexivity. eexists. split; [reflexivity|].
           unfold len. rewrite Nat2N.id, firstn_all. reflexivity.
Qed.

(** The total the receiver compares with: fixed at creation, or the announced size once it is visible. *)
Definition expected (m : size_mode) (sz : cell) : option N :=
  match m with
  | Known n => Some n
  | Unknown => match sz with CSent e => Some e | _ => None end
  end.

Definition rinv (m : size_mode) (sz : cell) (r : receiver) : Prop :=
  match m with
  | Known n => r_size r = Some (Determined n) /\ r_state r <> RVerifying
  | Unknown => (forall e, r_size r = Some (Determined e) -> sz = CSent e) /\
               (r_size r = None -> r_state r = RVerifying \/ r_state r = RVerDone)
  end /\
  (r_state r = RReceiving -> r_cur r = None) /\
  (r_eof r = true -> expected m sz = Some (r_read r)).

Definition post (m : size_mode) (sz : cell) (rd0 : N) (b0 : list N) (eof0 : bool) (i : iter_res) : Prop :=
  match i with
  | IRet r' q' res =>
      rinv m sz r' /\ b0 = result_bytes res ++ cur_bytes r' ++ evbytes q' /\
      r_read r' = rd0 + len (result_bytes res) /\ (res = Eof -> r_eof r' = true) /\
      (eof0 = true -> r_eof r' = true) /\ res <> OutOfFuel
  | ICont r' q' =>
      rinv m sz r' /\ b0 = cur_bytes r' ++ evbytes q' /\ r_read r' = rd0 /\ (eof0 = true -> r_eof r' = true)
  end.

Definition bound (m : size_mode) (sz : cell) (r : receiver) : Prop :=
  forall e, expected m sz = Some e -> r_read r <= e.

#[local] Arguments len : simpl never.
#[local] Arguments evbytes : simpl never.
#[local] Arguments expected : simpl never.
#[local] Arguments firstn : simpl never.
#[local] Arguments skipn : simpl never.
(** [rprj] reduces the projections of updated receivers, [cbn_all] is [cbn] everywhere; [rfin] unfolds [post] and [rinv], [fin]
    splits any conjunction, and both close the conjuncts one by one by [auto], [congruence] and [tauto] or [lia] *)
Ltac rprj := unfold set in *; cbn [r_bin r_size r_read r_cur r_state r_eof result_bytes app] in *.
Ltac rfin := unfold post, rinv, cur_bytes, expected; unfold set;
  cbn [r_bin r_size r_read r_cur r_state r_eof result_bytes app]; rewrite ?len_nil, ?N.add_0_r, ?app_nil_r;
  repeat split; auto; try congruence; try tauto.
Ltac cbn_all := try unfold set in *; cbn in *.
Ltac fin := repeat (first [assumption | split]); cbn_all; rewrite ?len_nil, ?app_nil_r, ?N.add_0_r; auto; try congruence; try lia.

(** The pieces of [read_body]: the bytes a sized stream still allows, and the copy out of the current buffer. *)
Definition allowed (r : receiver) : option N :=
  match r_size r with Some (Determined expected) => Some (expected - r_read r) | _ => None end.

Definition read_copy (want : N) (r : receiver) (q : list event) : iter_res :=
  match r_cur r with
  | Some segs =>
      if 0 <? remaining segs then
        let to_copy := N.min (len (chunk segs)) want in
        let to_copy := match allowed r with Some rem => N.min to_copy rem | None => to_copy end in
        match advance to_copy segs with
        | Some segs' =>
            IRet (r <| r_read := r_read r + to_copy |> <| r_cur := Some segs' |>) q
                 (Done to_copy (firstn (N.to_nat to_copy) (chunk segs)))
        | None => IRet r q Panic
        end
      else take_or_verify (r <| r_cur := None |>) q
  | None => take_or_verify r q
  end.

Lemma read_body_eq want r q :
  read_body want r q =
  if r_eof r then IRet r q Eof else
  match allowed r with Some 0 => IRet (r <| r_eof := true |>) q Eof | _ => read_copy want r q end.
Proof. reflexivity. Qed.

Lemma take_or_verify_post m sz r q :
  rinv m sz r -> r_state r = RIdle -> r_cur r = None ->
  post m sz (r_read r) (evbytes q) (r_eof r) (take_or_verify r q).
Proof.
  intros (Hm & Hrc & Heof) Hst Hcur. unfold take_or_verify.
  assert (Hcb : forall r', r_cur r' = r_cur r -> evbytes q = cur_bytes r' ++ evbytes q)
    by (intros r' E; unfold cur_bytes; now rewrite E, Hcur).
  (* the size is fixed, announced or awaited; with a size, EOF means that it has been read *)
  assert (Hsz : match r_size r with
                | Some (Determined e) => expected m sz = Some e
                | Some Undetermined => m = Unknown
                | None => False
                end).
  { unfold expected. destruct m as [n|], Hm as [Hm1 Hm2]; [now rewrite Hm1|].
    destruct (r_size r) as [[e|]|]; auto; [now rewrite (Hm1 e eq_refl)|destruct (Hm2 eq_refl); congruence]. }
  destruct (r_bin r).
  - unfold post, rinv. rprj. repeat split; auto; try congruence.
    destruct m, Hm as [Hm1 Hm2]; split; auto; [congruence|]. intros E. rewrite E in Hsz. destruct Hsz.
  - destruct (r_size r) as [[e|]|] eqn:Esz; [|subst m|destruct Hsz].
    + destruct (r_read r =? e) eqn:E; [apply N.eqb_eq in E|]; unfold post, rinv; rprj; rewrite ?len_nil, ?N.add_0_r;
        repeat split; auto; try congruence; rewrite ?Esz; auto.
    + unfold post, rinv. rprj. repeat split; auto; try congruence.
Qed.

Lemma read_copy_post m sz want r q :
  rinv m sz r -> r_state r = RIdle -> r_eof r = false ->
  post m sz (r_read r) (cur_bytes r ++ evbytes q) false (read_copy want r q).
Proof.
  intros Hinv Hst Eeof. unfold read_copy. destruct (r_cur r) as [segs|] eqn:Ecur.
  - destruct (0 <? remaining segs) eqn:Erem.
    + cbv zeta.
      set (k := match allowed r with Some rem => N.min (N.min (len (chunk segs)) want) rem
                                 | None => N.min (len (chunk segs)) want end).
      assert (Hk : k <= len (chunk segs)) by (subst k; clear; destruct (allowed r); lia).
      destruct (advance_chunk k segs Hk) as (segs' & -> & Hcat).
      unfold rinv, expected in Hinv. rfin; rewrite ?Ecur, ?Hcat, <- ?app_assoc, ?len_firstn_le; auto; try congruence; try tauto.
    + apply N.ltb_ge in Erem. unfold remaining in Erem.
      assert (concat segs = []) as Hnil by (apply len_0_nil; lia).
      pose proof (take_or_verify_post m sz (r <| r_cur := None |>) q) as H.
      unfold cur_bytes at 1. rewrite Ecur, Hnil, <- Eeof. rprj. apply H; auto. unfold rinv, expected in Hinv. rfin.
  - pose proof (take_or_verify_post m sz r q Hinv Hst Ecur) as H.
    unfold cur_bytes at 1. now rewrite Ecur, <- Eeof.
Qed.

Lemma read_body_post m sz want r q :
  rinv m sz r -> bound m sz r -> r_state r = RIdle ->
  post m sz (r_read r) (cur_bytes r ++ evbytes q) (r_eof r) (read_body want r q).
Proof.
  intros Hinv Hb Hst. rewrite read_body_eq. destruct (r_eof r) eqn:Eeof; [unfold rinv, expected in Hinv; rfin|].
  pose proof (read_copy_post m sz want r q Hinv Hst Eeof) as Hgo.
  unfold allowed. destruct (r_size r) as [[e|]|] eqn:Esz; auto. destruct (e - r_read r) eqn:Ez; auto.
  (* the fixed size is reached *)
  assert (expected m sz = Some e) as Hexp.
  { destruct Hinv as (Hm & _). destruct m as [n|]; unfold expected; destruct Hm as [Hm _]; [congruence|].
    now rewrite (Hm e Esz). }
  assert (r_read r = e) as Hre by (specialize (Hb e Hexp); lia).
  clear Hgo. unfold expected in Hexp. unfold rinv, expected in Hinv. rfin; rewrite ?Esz; auto; try tauto.
Qed.

Lemma post_eof_mono m sz rd b i e0 : post m sz rd b true i -> post m sz rd b e0 i.
Proof. destruct i; unfold post; intuition. Qed.

Lemma evbytes_cons ev q :
  evbytes (ev :: q) = match ev with EChunk segs => concat segs | _ => [] end ++ evbytes q.
Proof. reflexivity. Qed.

Lemma complete_verify_post m sz want r q :
  rinv m sz r -> bound m sz r -> r_state r <> RReceiving -> r_state r <> RRecvDone ->
  post m sz (r_read r) (cur_bytes r ++ evbytes q) (r_eof r) (complete_verify want sz r q).
Proof.
  intros Hinv Hb Hs1 Hs2. unfold complete_verify.
  destruct (r_state r) eqn:Est; try congruence; [now apply read_body_post| |unfold rinv, expected in Hinv; rfin].
  (* RVerifying: the channel is unsized *)
  destruct Hinv as (Hm & Hrc & Heof). destruct m as [n|]; [destruct Hm; congruence|]. destruct Hm as [Hm1 Hm2].
  unfold expected in Heof. destruct sz as [|e|]; [rfin| |rfin].
  destruct (r_read r =? e) eqn:E; [|rfin].
  apply N.eqb_eq in E. rewrite read_body_eq. rfin.
Qed.

Lemma read_iter_post m sz want r q :
  rinv m sz r -> bound m sz r ->
  post m sz (r_read r) (cur_bytes r ++ evbytes q) (r_eof r) (read_iter want sz r q).
Proof.
  intros Hinv Hb. unfold read_iter.
  destruct (r_state r) eqn:Est; try (apply complete_verify_post; auto; congruence); [|unfold rinv, expected in Hinv; rfin].
  (* RReceiving: no buffer, and the size (future) is in place *)
  assert (r_cur r = None) as Hcur by (apply Hinv; auto).
  assert (Hcb : cur_bytes r = []) by (unfold cur_bytes; now rewrite Hcur).
  assert (r_size r <> None) as Hsz.
  { destruct Hinv as (Hm & _). destruct m; [intuition congruence|].
    intros Hn. destruct Hm as [_ Hm]. destruct (Hm Hn); congruence. }
  unfold rinv, expected in Hinv.
  assert (Hgo : forall r1 q', r_state r1 = RIdle -> r_size r1 = r_size r -> r_read r1 = r_read r -> r_eof r1 = r_eof r ->
            post m sz (r_read r) (cur_bytes r1 ++ evbytes q') (r_eof r) (complete_verify want sz r1 q')).
  { intros r1 q' H1 H2 H3 H4. rewrite <- H3, <- H4. apply complete_verify_post; try congruence.
    - rfin; rewrite ?H1, ?H2, ?H3, ?H4; try congruence; try tauto.
      destruct Hinv as (Hm & _). destruct m; intuition congruence.
    - intros e He. rewrite H3. now apply Hb. }
  destruct q as [|[segs| |k] q']; rewrite ?evbytes_cons, ?Hcb; cbn [app].
  + rfin.
  + exact (Hgo (r <| r_bin := true |> <| r_cur := Some segs |> <| r_state := RIdle |>) q' eq_refl eq_refl eq_refl eq_refl).
  + exact (Hgo (r <| r_cur := None |> <| r_state := RIdle |>) q' eq_refl eq_refl eq_refl eq_refl).
  + clear Hgo. rfin; rewrite ?Hcur; auto. destruct Hinv as (Hm & _). destruct m; intuition congruence.
Qed.

Lemma poll_read_fuel_post m sz want fuel : forall r q r' q' res,
  rinv m sz r -> bound m sz r -> poll_read_fuel fuel want sz r q = (r', q', res) ->
  rinv m sz r' /\ cur_bytes r ++ evbytes q = result_bytes res ++ cur_bytes r' ++ evbytes q' /\
  r_read r' = r_read r + len (result_bytes res) /\ (res = Eof -> r_eof r' = true) /\
  (r_eof r = true -> r_eof r' = true).
Proof.
  induction fuel as [|f IH]; intros r q r' q' res Hinv Hb; cbn [poll_read_fuel].
  - intros [= <- <- <-]. fin.
  - pose proof (read_iter_post m sz want r q Hinv Hb) as Hp.
    destruct (read_iter want sz r q) as [r1 q1 res1|r1 q1]; unfold post in Hp.
    + intros [= <- <- <-]. intuition.
    + destruct Hp as (Hinv1 & Hb1 & Hrd & Heof). intros Hrun.
      apply IH in Hrun; auto.
      * rewrite Hb1, <- Hrd. intuition.
      * unfold bound in *. now rewrite Hrd.
Qed.

Definition weight (r : receiver) : nat :=
  if r_eof r then 0%nat else
  match r_state r with
  | RReceiving => 2%nat
  | RVerifying => 1%nat
  | RIdle => if r_bin r then 3%nat else 2%nat
  | _ => 0%nat
  end.

Definition cont_ok (r : receiver) (q : list event) (i : iter_res) : Prop :=
  match i with
  | ICont r' q' => q' = q /\ r_eof r = false /\ (weight r' < (if r_bin r then 3 else 2))%nat
  | IRet _ _ res => res <> OutOfFuel
  end.

Lemma take_or_verify_measure r q : r_eof r = false -> cont_ok r q (take_or_verify r q).
Proof.
  destruct r as [bin size rd cur st eof]. unfold take_or_verify, cont_ok, weight. cbn_all. intros ->.
  destruct bin; cbn_all; [auto|].
  destruct size as [[e|]|]; cbn_all; auto. destruct (rd =? e); cbn_all; auto. congruence.
Qed.

Lemma read_body_measure want r q : cont_ok r q (read_body want r q).
Proof.
  rewrite read_body_eq. destruct (r_eof r) eqn:Eeof; [cbn; congruence|].
  assert (Hgo : cont_ok r q (read_copy want r q)).
  { unfold read_copy. destruct (r_cur r) as [segs|] eqn:Ecur; [|now apply take_or_verify_measure].
    destruct (0 <? remaining segs).
    - cbv zeta. destruct (advance _ segs); cbn; congruence.
    - pose proof (take_or_verify_measure (r <| r_cur := None |>) q) as H.
      destruct r as [bin size rd cur st eof]. cbn_all. apply H. auto. }
  destruct (allowed r) as [[|p]|]; auto. cbn. congruence.
Qed.

(** the size verification continues the loop only through [read_body], from a state without a size future *)
Lemma complete_verify_measure want sz r q :
  match complete_verify want sz r q with
  | ICont r' q' => cont_ok r q (ICont r' q') /\ r_state r <> RVerifying /\ r_state r <> RVerDone
  | IRet _ _ res => res <> OutOfFuel
  end.
Proof.
  pose proof (read_body_measure want r q) as Hb. unfold complete_verify.
  destruct (r_state r) eqn:Est; try (destruct (read_body want r q); [exact Hb|repeat split; [apply Hb..|congruence|congruence]]).
  - destruct sz as [|e|]; try congruence. destruct (r_read r =? e); [|congruence]. rewrite read_body_eq. cbn_all. congruence.
  - congruence.
Qed.

Lemma read_iter_measure want sz r q :
  match read_iter want sz r q with
  | ICont r' q' => (4 * length q' + weight r' < 4 * length q + weight r)%nat
  | IRet _ _ res => res <> OutOfFuel
  end.
Proof.
  assert (Hgo : r_state r <> RReceiving -> r_state r <> RRecvDone ->
                match complete_verify want sz r q with
                | ICont r' q' => (4 * length q' + weight r' < 4 * length q + weight r)%nat
                | IRet _ _ res => res <> OutOfFuel
                end).
  { intros H1 H2. pose proof (complete_verify_measure want sz r q) as H.
    destruct (complete_verify want sz r q) as [|r' q']; [exact H|].
    destruct H as ((-> & He & Hw) & H3 & H4). unfold weight at 2. rewrite He. destruct (r_state r); try congruence. clear - Hw. lia. }
  unfold read_iter. destruct (r_state r) eqn:Est; try (apply Hgo; congruence); [|congruence].
  (* receiving: an event is consumed, which pays for the three iterations that may follow *)
  assert (Hev : forall r1 q1, match complete_verify want sz r1 q1 with
                              | ICont r' q' => (4 * length q' + weight r' < 4 * S (length q1) + weight r)%nat
                              | IRet _ _ res => res <> OutOfFuel
                              end).
  { intros r1 q1. pose proof (complete_verify_measure want sz r1 q1) as H.
    destruct (complete_verify want sz r1 q1) as [|r' q']; [exact H|].
    destruct H as ((-> & _ & Hw) & _). clear - Hw. destruct (r_bin r1); lia. }
  destruct q as [|[segs| |k] q1]; try congruence; apply Hev.
Qed.

Lemma poll_read_fuel_enough want sz fuel : forall r q,
  (4 * length q + weight r < fuel)%nat ->
  snd (poll_read_fuel fuel want sz r q) <> OutOfFuel.
Proof.
  induction fuel as [|f IH]; intros r q Hf; [lia|]. cbn [poll_read_fuel].
  pose proof (read_iter_measure want sz r q) as Hm.
  destruct (read_iter want sz r q) as [r1 q1 res|r1 q1]; [exact Hm|].
  apply IH. lia.
Qed.

Lemma weight_le r : (weight r <= 3)%nat.
Proof. unfold weight. destruct (r_eof r), (r_state r), (r_bin r); lia. Qed.

Lemma poll_read_total want sz r q : snd (poll_read want sz r q) <> OutOfFuel.
Proof. unfold poll_read. apply poll_read_fuel_enough. pose proof (weight_le r). lia. Qed.

(** What holds of a live sender, relative to the history: [acc] accepted bytes, [sent] bytes whose
    send completed, [m0] the mode at creation, [size] the size oneshot. *)
Definition txinv (m0 : size_mode) (acc sent : list N) (size : cell) (s : sender) : Prop :=
  s_written s = len acc /\
  (liveb s = true -> s_mode s = m0) /\
  (s_mode s = Unknown -> m0 = Unknown /\ size = CEmpty) /\
  match s_sending s with
  | FRun d => acc = sent ++ d
  | FNone => acc = sent
  | FDone => prefix sent acc
  end /\
  (forall n, m0 = Known n -> len acc <= n) /\
  match size with CSent e => e = len acc /\ m0 = Unknown /\ liveb s = false | _ => True end.

Definition new_size (size : cell) (o : tx_out) : cell :=
  match o_size o with Some n => CSent n | None => size end.

Definition plain (r : result) : Prop := result_bytes r = [] /\ r <> Eof.

Lemma pres_plain p : plain (pres_result p).
Proof. destruct p; repeat split; cbn; congruence. Qed.

Definition tx_post (m0 : size_mode) (acc sent : list N) (size : cell) (down : bool) (o : tx_out) : Prop :=
  txinv m0 (acc ++ o_acc o) (sent ++ o_sent o) (new_size size o) (o_tx o) /\
  evbytes (o_evs o) = o_sent o /\
  (down = true -> o_sent o = []) /\
  (o_size o <> None -> size = CEmpty /\ m0 = Unknown /\ o_res o = Done 0 []) /\
  plain (o_res o).

Lemma evbytes_chunk sizes d : evbytes [EChunk (cut_at sizes d)] = d.
Proof. unfold evbytes. cbn [flat_map]. now rewrite concat_cut_at, app_nil_r. Qed.

Lemma poll_complete_tx_post m0 acc sent size down e s :
  txinv m0 acc sent size s ->
  match poll_complete_tx down e s with
  | (p, s1, evs, snt) =>
      evbytes evs = snt /\ (down = true -> snt = []) /\
      txinv m0 acc (sent ++ snt) size s1 /\ (p = POk -> s_sending s1 = FNone)
  end.
Proof.
  destruct s as [w md ch bin sd]. unfold txinv, liveb, poll_complete_tx. cbn_all.
  intros (Hw & Hl & Hu & Hs & Hc & Hz).
  destruct sd as [|d|]; cbn_all.
  - rewrite app_nil_r. fin.
  - destruct down; cbn_all.
    + rewrite app_nil_r. fin.
      * rewrite orb_true_r in Hl. auto.
      * subst acc. now exists d.
      * destruct size; auto. rewrite orb_true_r in Hz. intuition congruence.
    + destruct (e_ready e); cbn_all.
      * rewrite evbytes_chunk. fin.
        -- rewrite orb_true_r in Hl. auto.
        -- destruct size; auto. rewrite orb_true_r in Hz. intuition congruence.
      * rewrite app_nil_r. fin.
  - rewrite app_nil_r. fin.
Qed.

Lemma tx_post_base m0 acc sent size down r s' evs snt :
  txinv m0 acc (sent ++ snt) size s' -> evbytes evs = snt -> (down = true -> snt = []) -> plain r ->
  tx_post m0 acc sent size down (mkO r s' evs [] snt None).
Proof. intros H He Hd Hp. unfold tx_post, new_size. cbn_all. rewrite app_nil_r. fin. Qed.

Lemma txinv_chunk m0 acc sent size s c :
  txinv m0 acc sent size s -> txinv m0 acc sent size (s <| s_chunk := c |>).
Proof. destruct s. unfold txinv, liveb. cbn_all. auto. Qed.

(** [poll_write] once the pending send is complete and the chunk size known *)
Definition write_core (chunk_size : N) (s2 : sender) (buf : list N) (evs : list event) (sent : list N) : tx_out :=
  if negb (s_bin s2) then mkO (Fail KBrokenPipe) s2 evs [] sent None
  else match buf with
  | [] => mkO (Done 0 []) s2 evs [] sent None
  | _ :: _ =>
      match (match s_mode s2 with
             | Known expected =>
                 if expected <=? s_written s2 then None
                 else Some (N.min (len buf) (expected - s_written s2))
             | Unknown => Some (len buf)
             end) with
      | None => mkO (Fail KWriteZero) s2 evs [] sent None
      | Some max_write =>
          let write_len := N.min max_write chunk_size in
          let data := firstn (N.to_nat write_len) buf in
          mkO (Done write_len [])
              (s2 <| s_written := s_written s2 + write_len |> <| s_bin := false |> <| s_sending := FRun data |>)
              evs data sent None
      end
  end.

Lemma poll_write_eq cs down e s buf :
  poll_write cs down e s buf =
  let '(p, s1, evs, sent) := poll_complete_tx down e s in
  match p with
  | POk =>
      match s_chunk s1 with
      | Some c => write_core c s1 buf evs sent
      | None => if s_bin s1 then write_core cs (s1 <| s_chunk := Some cs |>) buf evs sent
                else mkO (Fail KBrokenPipe) s1 evs [] sent None
      end
  | _ => mkO (pres_result p) s1 evs [] sent None
  end.
Proof.
  unfold poll_write. destruct (poll_complete_tx down e s) as [[[p s1] evs] sent].
  destruct p; auto. destruct (s_chunk s1); auto. now destruct (s_bin s1).
Qed.

Definition write_ok (buf : list N) (o : tx_out) : Prop :=
  o_size o = None /\ o_acc o = match o_res o with Done n _ => firstn (N.to_nat n) buf | _ => [] end.

Lemma write_core_post m0 acc sent size down c s2 buf evs snt :
  txinv m0 acc (sent ++ snt) size s2 -> s_sending s2 = FNone -> evbytes evs = snt -> (down = true -> snt = []) ->
  tx_post m0 acc sent size down (write_core c s2 buf evs snt) /\ write_ok buf (write_core c s2 buf evs snt).
Proof.
  intros H2 Hs2 Hev Hd'. unfold write_core, write_ok.
  assert (Hbase : forall r, plain r -> tx_post m0 acc sent size down (mkO r s2 evs [] snt None))
    by (intros; now apply tx_post_base).
  destruct (s_bin s2) eqn:Ebin; cbn [negb]; [|split; [apply Hbase, (pres_plain (PErr KBrokenPipe))|split; reflexivity]].
  destruct buf as [|b0 buf']; [split; [apply Hbase, (pres_plain POk)|split; reflexivity]|].
  set (buf := b0 :: buf') in *. clear Hbase.
  destruct s2 as [w md ch bin sd]. cbn_all. subst bin sd.
  unfold txinv, liveb in H2. cbn_all. destruct H2 as (Hw & Hl & Hu & Hs & Hcap & Hz).
  specialize (Hl eq_refl). subst md.
  destruct m0 as [n|].
  - destruct (n <=? w) eqn:Ele; cbn_all.
    { split; [|split; reflexivity]. apply tx_post_base; auto; [|apply (pres_plain (PErr KWriteZero))]. unfold txinv, liveb. cbn_all. fin. }
    apply N.leb_gt in Ele.
    set (wl := N.min (N.min (len buf) (n - w)) c).
    assert (Hwl : wl <= len buf) by (clear; lia).
    split; [|split; reflexivity]. unfold tx_post, new_size, txinv, liveb, plain. cbn_all.
    rewrite len_app, len_firstn_le by auto. fin.
    + intros n0 [= <-]. lia.
    + destruct size; auto. destruct Hz as (_ & ? & _). congruence.
  - cbn_all. set (wl := N.min (len buf) c).
    assert (Hwl : wl <= len buf) by (clear; lia).
    split; [|split; reflexivity]. unfold tx_post, new_size, txinv, liveb, plain. cbn_all.
    rewrite len_app, len_firstn_le by auto. fin.
    destruct size; auto. destruct Hz as (_ & _ & ?). congruence.
Qed.

Lemma poll_write_post m0 acc sent size cs down e s buf :
  txinv m0 acc sent size s ->
  tx_post m0 acc sent size down (poll_write cs down e s buf) /\ write_ok buf (poll_write cs down e s buf).
Proof.
  intros Hinv. pose proof (poll_complete_tx_post m0 acc sent size down e s Hinv) as Hc. clear Hinv.
  rewrite poll_write_eq. destruct (poll_complete_tx down e s) as [[[p s1] evs] snt].
  destruct Hc as (Hev & Hd' & Hinv1 & Hok).
  assert (Hbase : forall r, plain r -> (forall n bs, r = Done n bs -> n = 0) ->
            tx_post m0 acc sent size down (mkO r s1 evs [] snt None) /\ write_ok buf (mkO r s1 evs [] snt None)).
  { intros r Hr Hn. split; [now apply tx_post_base|]. split; [reflexivity|]. cbn.
    destruct r; try reflexivity. now rewrite (Hn _ _ eq_refl). }
  destruct p; try (apply Hbase; [apply pres_plain|cbn; congruence]). specialize (Hok eq_refl).
  destruct (s_chunk s1) as [c|] eqn:Ech; [now apply write_core_post|].
  destruct (s_bin s1) eqn:Eb1; [|apply Hbase; [apply (pres_plain (PErr KBrokenPipe))|congruence]].
  apply write_core_post; auto using txinv_chunk.
Qed.

Lemma poll_flush_post m0 acc sent size down e s :
  txinv m0 acc sent size s ->
  tx_post m0 acc sent size down (poll_flush down e s) /\ o_size (poll_flush down e s) = None /\
  o_acc (poll_flush down e s) = [].
Proof.
  intros Hinv. pose proof (poll_complete_tx_post m0 acc sent size down e s Hinv) as Hc. clear Hinv.
  unfold poll_flush. destruct (poll_complete_tx down e s) as [[[p s1] evs] snt].
  destruct Hc as (Hev & Hd' & Hinv1 & Hok).
  split; [|split; reflexivity]. apply tx_post_base; auto using pres_plain.
Qed.

Lemma evbytes_end evs : evbytes (evs ++ [EEnd]) = evbytes evs.
Proof. rewrite evbytes_app. cbn. now rewrite app_nil_r. Qed.

Lemma poll_shutdown_post m0 acc sent size down e s :
  txinv m0 acc sent size s ->
  tx_post m0 acc sent size down (poll_shutdown down e s) /\ o_acc (poll_shutdown down e s) = [].
Proof.
  intros Hinv. pose proof (poll_complete_tx_post m0 acc sent size down e s Hinv) as Hc. clear Hinv.
  unfold poll_shutdown. destruct (poll_complete_tx down e s) as [[[p s1] evs] snt].
  destruct Hc as (Hev & Hd' & Hinv1 & Hok).
  destruct p; try (split; [apply tx_post_base; auto using pres_plain|reflexivity]).
  specialize (Hok eq_refl).
  assert (Hevs : evbytes (if s_bin s1 then evs ++ [EEnd] else evs) = snt).
  { destruct (s_bin s1); [rewrite evbytes_end|]; auto. }
  destruct s1 as [w md ch bin sd]. cbn_all. subst sd.
  unfold txinv, liveb in Hinv1. cbn_all. destruct Hinv1 as (Hw & Hl & Hu & Hs & Hcap & Hz).
  destruct md as [n|]; cbn zeta; (split; [|reflexivity]); unfold tx_post, new_size, txinv, liveb, plain; cbn_all;
    rewrite app_nil_r.
  - fin; [destruct size; auto; intuition|destruct (w =? n); cbn; congruence..].
  - destruct (Hu eq_refl) as [-> ->]. fin.
Qed.

Definition flowinv (y : sys) : Prop :=
  if y_down y
  then prefix (g_read y ++ cur_bytes (y_rx y) ++ evbytes (y_rxq y)) (g_sent y)
  else g_sent y = g_read y ++ cur_bytes (y_rx y) ++ evbytes (y_rxq y) ++ evbytes (y_net y).

(** After the sender has been dropped. *)
Definition deadinv (m0 : size_mode) (acc sent : list N) (size : cell) : Prop :=
  prefix sent acc /\ (forall n, m0 = Known n -> len acc <= n) /\
  match size with CSent e => e = len acc /\ m0 = Unknown | _ => True end.

Record Inv (y : sys) : Prop := mkInv {
  inv_tx : match y_tx y with
           | Some s => txinv (y_mode0 y) (g_acc y) (g_sent y) (y_size y) s
           | None => deadinv (y_mode0 y) (g_acc y) (g_sent y) (y_size y)
           end;
  inv_arr : y_size y = CEmpty -> y_arrived y = false;
  inv_flow : flowinv y;
  inv_read : r_read (y_rx y) = len (g_read y);
  inv_rx : rinv (y_mode0 y) (view y) (y_rx y)
}.

Lemma txinv_dead m0 acc sent size s : txinv m0 acc sent size s -> deadinv m0 acc sent size.
Proof.
  unfold txinv, deadinv. intros (Hw & Hl & Hu & Hs & Hc & Hz). split; [|split]; auto.
  - destruct (s_sending s); subst; auto using prefix_refl. now exists a.
  - destruct size; intuition.
Qed.

Lemma inv_dead y : Inv y -> deadinv (y_mode0 y) (g_acc y) (g_sent y) (y_size y).
Proof. intros [H _ _ _ _]. destruct (y_tx y); eauto using txinv_dead. Qed.

Lemma inv_read_acc y : Inv y -> prefix (g_read y) (g_acc y).
Proof.
  intros H. apply prefix_trans with (g_sent y); [|now apply inv_dead].
  destruct H as [_ _ F _ _]. unfold flowinv in F. destruct (y_down y); [eapply prefix_app_l; eauto|rewrite F; eexists; eauto].
Qed.

Lemma view_sent y e : view y = CSent e -> y_size y = CSent e.
Proof. unfold view. destruct (y_arrived y); auto. destruct (y_down y); congruence. Qed.

Lemma inv_expected y e : Inv y -> expected (y_mode0 y) (view y) = Some e -> len (g_acc y) <= e.
Proof.
  intros H He. pose proof (inv_dead y H) as (_ & Hc & Hz). unfold expected in He.
  destruct (y_mode0 y) as [n|] eqn:Em.
  - injection He as <-. auto.
  - destruct (view y) as [|e'|] eqn:Ev; try congruence. injection He as <-.
    apply view_sent in Ev. rewrite Ev in Hz. lia.
Qed.

Lemma inv_bound y : Inv y -> bound (y_mode0 y) (view y) (y_rx y).
Proof.
  intros H e He. rewrite (inv_read y H).
  pose proof (prefix_len _ _ (inv_read_acc y H)). pose proof (inv_expected y e H He). lia.
Qed.

Lemma rinv_view_change m sz r : rinv m CEmpty r -> rinv m sz r.
Proof.
  unfold rinv. intros (Hm & Hc & He). split; [|split]; auto.
  - destruct m; auto. destruct Hm as [H1 H2]. split; auto. intros e H. specialize (H1 e H). congruence.
  - intros H. specialize (He H). destruct m; unfold expected in *; congruence.
Qed.

Lemma init_inv cs m : Inv (init cs m).
Proof.
  split; cbn; auto.
  - unfold txinv, liveb, init_sender. cbn. fin.
  - unfold rinv, expected, init_receiver. cbn. destruct m; fin.
Qed.

Ltac yprj := cbn [y_cs y_mode0 y_tx y_net y_rxq y_size y_arrived y_down y_rx g_acc g_sent g_read
                                       fst snd] in *.

Lemma apply_tx_inv y s o :
  Inv y -> y_tx y = Some s ->
  tx_post (y_mode0 y) (g_acc y) (g_sent y) (y_size y) (y_down y) o ->
  Inv (fst (apply_tx y o)).
Proof.
  intros [Htx Harr Hflow Hread Hrx] Hs (Hinv' & Hev & Hdown & Hsz & _).
  assert (Hview : view (fst (apply_tx y o)) = view y).
  { unfold apply_tx, view. destruct y. yprj. destruct y_arrived; auto.
    destruct (o_size o) eqn:E; auto. destruct Hsz as [Hsz _]; [congruence|].
    specialize (Harr Hsz). congruence. }
  split.
  - unfold apply_tx. destruct y. yprj. exact Hinv'.
  - unfold apply_tx. destruct y. yprj. destruct (o_size o); [congruence|auto].
  - unfold flowinv, apply_tx in *. destruct y. yprj. destruct y_down.
    + rewrite (Hdown eq_refl), app_nil_r. auto.
    + rewrite Hflow, evbytes_app, Hev. now rewrite <- !app_assoc.
  - unfold apply_tx. destruct y. yprj. auto.
  - rewrite Hview. unfold apply_tx. destruct y. yprj. auto.
Qed.

Definition is_poll (a : action) : bool :=
  match a with AWrite _ _ | AFlush _ | AShutdown _ => true | _ => false end.

Lemma step_poll y a :
  Inv y -> is_poll a = true ->
  match y_tx y with
  | None => step y a = (y, Gone)
  | Some s => exists o, step y a = apply_tx y o /\
      tx_post (y_mode0 y) (g_acc y) (g_sent y) (y_size y) (y_down y) o /\
      o_acc o = accepted_by a (o_res o) /\ (o_size o <> None -> exists e, a = AShutdown e)
  end.
Proof.
  intros H Ha. pose proof (inv_tx y H) as Ht.
  destruct a as [buf e|e|e| | | | |]; try discriminate; cbn [step]; destruct (y_tx y) as [s|]; auto;
    eexists; (split; [reflexivity|]).
  - destruct (poll_write_post _ _ _ _ (y_cs y) (y_down y) e s buf Ht) as (Hp & Hsz & Hacc). rewrite Hacc, Hsz. split; [exact Hp|split; [reflexivity|congruence]].
  - destruct (poll_flush_post _ _ _ _ (y_down y) e s Ht) as (Hp & Hsz & Hacc). rewrite Hacc, Hsz. split; [exact Hp|split; [reflexivity|congruence]].
  - destruct (poll_shutdown_post _ _ _ _ (y_down y) e s Ht) as (Hp & Hacc). rewrite Hacc. split; [exact Hp|]. split; [reflexivity|eauto].
Qed.

(** One step: the ghost history is the observable history; EOF is sticky; the size is announced
    only by a successful shutdown. *)
Definition observed (y : sys) (a : action) (y' : sys) (o : result) : Prop :=
  g_read y' = g_read y ++ result_bytes o /\
  g_acc y' = g_acc y ++ accepted_by a o /\
  (o = Eof -> r_eof (y_rx y') = true) /\
  (r_eof (y_rx y) = true -> r_eof (y_rx y') = true) /\
  (forall k, y_size y' = CSent k -> y_size y = CSent k \/ exists e, a = AShutdown e /\ o = Done 0 []) /\
  y_mode0 y' = y_mode0 y.

Lemma step_ok y a : Inv y -> let (y', o) := step y a in Inv y' /\ observed y a y' o.
Proof.
  intros H.
  (* a successor that keeps the histories, the receiver and the creation mode, with a result that carries nothing *)
  assert (Hsame : forall y1 o1, g_read y1 = g_read y -> g_acc y1 = g_acc y -> y_rx y1 = y_rx y ->
            y_mode0 y1 = y_mode0 y -> result_bytes o1 = [] -> accepted_by a o1 = [] -> o1 <> Eof ->
            (forall k, y_size y1 = CSent k -> y_size y = CSent k \/ exists e, a = AShutdown e /\ o1 = Done 0 []) ->
            observed y a y1 o1).
  { intros y1 o1 H1 H2 H3 H4 H5 H6 H7 H9. unfold observed.
    rewrite H1, H2, H3, H5, H6, !app_nil_r. repeat split; auto. }
  assert (Hnop : forall o1, result_bytes o1 = [] -> accepted_by a o1 = [] -> o1 <> Eof -> Inv y /\ observed y a y o1).
  { intros o1 H1 H2 H3. split; [exact H|]. apply Hsame; auto. }
  assert (Hd : Done 0 [] <> Eof) by congruence.
  destruct (is_poll a) eqn:Epoll.
  { pose proof (step_poll y a H Epoll) as Hs. destruct (y_tx y) as [s|] eqn:Es.
    2:{ rewrite Hs. apply Hnop; try reflexivity; [now destruct a|congruence]. }
    destruct Hs as (o0 & -> & Hp & Hacc & Hsh). split; [exact (apply_tx_inv y s o0 H Es Hp)|].
    destruct Hp as (_ & _ & _ & Hsz & Hb & Hne). unfold observed. yprj. rewrite Hb, Hacc, app_nil_r. repeat split; auto.
    intros k Hk. destruct (o_size o0) eqn:Eo; auto. right.
    destruct Hsh as [e ->]; [congruence|]. exists e. split; [reflexivity|]. apply Hsz. congruence. }
  destruct a as [buf e|e|e| |want| | |]; try discriminate Epoll; cbn [step].
  - destruct (y_tx y) as [s|] eqn:Es; [|apply Hnop; [reflexivity..|congruence]].
    split; [|apply Hsame; auto; yprj; intros k Hk; destruct (s_mode s); auto; congruence].
    destruct H as [Htx Harr Hflow Hread Hrx]. rewrite Es in Htx.
    pose proof (txinv_dead _ _ _ _ _ Htx) as (Hp & Hc & Hz).
    destruct Htx as (_ & _ & Hu & _).
    split; yprj.
    + unfold deadinv. split; [|split]; auto. destruct (s_mode s); auto.
    + destruct (s_mode s); [auto|congruence].
    + unfold flowinv in *. yprj. destruct (y_down y); auto.
      destruct (liveb s); auto. now rewrite evbytes_end.
    + auto.
    + (* an unsized live sender has announced nothing, so nothing about the size had arrived *)
      unfold view in *. yprj. destruct (y_arrived y) eqn:Ea; auto. destruct (s_mode s); auto.
      destruct (Hu eq_refl) as [_ Hs]. discriminate (Harr Hs).
  - destruct (poll_read want (view y) (y_rx y) (y_rxq y)) as [[r q] res] eqn:Ep.
    pose proof (poll_read_fuel_post _ _ _ _ _ _ _ _ _ (inv_rx y H) (inv_bound y H) Ep) as (Hr & Hcons & Hrd & He1 & He2).
    split; [|unfold observed; yprj; cbn [accepted_by]; rewrite app_nil_r; repeat split; auto].
    destruct H as [Htx Harr Hflow Hread Hrx].
    split; yprj; [exact Htx|exact Harr| | |exact Hr].
    + unfold flowinv in *. yprj. destruct (y_down y).
      * now rewrite <- app_assoc, <- Hcons.
      * now rewrite Hflow, (app_assoc (cur_bytes _)), Hcons, <- !app_assoc.
    + rewrite Hrd, Hread, len_app. reflexivity.
  - destruct (y_down y) eqn:Ed; [now apply Hnop|]. destruct (y_net y) as [|ev n] eqn:En; [now apply Hnop|].
    split; [|apply Hsame; auto]. destruct H as [Htx Harr Hflow Hread Hrx].
    split; yprj; [exact Htx|exact Harr| |exact Hread|].
    + unfold flowinv in *. yprj. rewrite Ed, En in *. rewrite Hflow, evbytes_app.
      rewrite (evbytes_cons ev n), (evbytes_cons ev []). unfold evbytes at 4. cbn [flat_map].
      rewrite app_nil_r. now rewrite <- !app_assoc.
    + unfold view in *. yprj. rewrite Ed in *. auto.
  - destruct (y_down y) eqn:Ed; [now apply Hnop|].
    assert (Hgo : y_size y <> CEmpty ->
      Inv (mkY (y_cs y) (y_mode0 y) (y_tx y) (y_net y) (y_rxq y) (y_size y) true false (y_rx y)
               (g_acc y) (g_sent y) (g_read y))).
    { intros Hne. destruct H as [Htx Harr Hflow Hread Hrx].
      split; yprj; [exact Htx|congruence| |exact Hread|].
      { unfold flowinv in *. yprj. now rewrite Ed in Hflow. }
      unfold view in *. yprj. rewrite Ed in *. destruct (y_arrived y); auto.
      now apply rinv_view_change. }
    destruct (y_size y) eqn:Esz; [now apply Hnop| |];
      (split; [apply Hgo; congruence|apply Hsame; auto; yprj; intros k Hk; left; congruence]).
  - destruct (y_down y) eqn:Ed; [now apply Hnop|]. split; [|apply Hsame; auto].
    destruct H as [Htx Harr Hflow Hread Hrx].
    split; yprj; [exact Htx|exact Harr| |exact Hread|].
    + unfold flowinv in *. yprj. rewrite Ed in *. rewrite Hflow, evbytes_app. cbn [evbytes flat_map].
      rewrite !app_nil_r. exists (evbytes (y_net y)). now rewrite <- !app_assoc.
    + unfold view in *. yprj. rewrite Ed in *. destruct (y_arrived y); auto.
      now apply rinv_view_change.
Qed.

Lemma run_obs acts : forall y y' outs,
  Inv y -> run_acts acts y = (y', outs) ->
  Inv y' /\
  g_read y' = g_read y ++ bytes_read_of outs /\
  g_acc y' = g_acc y ++ bytes_accepted_of acts outs /\
  (r_eof (y_rx y) = true \/ In Eof outs -> r_eof (y_rx y') = true) /\
  (forall k, y_size y' = CSent k -> y_size y = CSent k \/ shutdown_ok acts outs) /\
  y_mode0 y' = y_mode0 y.
Proof.
  induction acts as [|a acts IH]; intros y y' outs H; cbn [run_acts].
  - intros [= <- <-]. cbn. rewrite !app_nil_r. fin. intros [?|[]]; auto.
  - destruct (step y a) as [y1 o] eqn:Es. destruct (run_acts acts y1) as [y2 os] eqn:Er.
    intros [= <- <-].
    pose proof (step_ok y a H) as Hok. rewrite Es in Hok. destruct Hok as (H1 & Hr & Ha & He1 & He2 & Hs & Hm).
    destruct (IH y1 y2 os H1 Er) as (H2 & Hr2 & Ha2 & He & Hs2 & Hm2).
    split; [exact H2|]. cbn [bytes_read_of bytes_accepted_of]. rewrite Hr2, Ha2, Hr, Ha, <- !app_assoc.
    split; [reflexivity|]. split; [reflexivity|]. split; [|split; [|congruence]].
    + intros [Hy|[Ho|Hi]]; apply He; auto.
    + intros k Hk. destruct (Hs2 k Hk) as [Hk1|(e & Hin)].
      * destruct (Hs k Hk1) as [?|(e & -> & ->)]; auto. right. exists e. cbn. auto.
      * right. exists e. cbn. auto.
Qed.

Lemma eof_complete y :
  Inv y -> r_eof (y_rx y) = true ->
  g_read y = g_acc y /\ expected (y_mode0 y) (view y) = Some (len (g_read y)).
Proof.
  intros H He. pose proof (inv_rx y H) as (_ & _ & Hx). specialize (Hx He).
  rewrite (inv_read y H) in Hx. split; auto.
  apply prefix_len_eq; [apply inv_read_acc; auto|]. apply inv_expected; auto.
Qed.

Theorem bytes_prefix cs m acts y outs :
  run_acts acts (init cs m) = (y, outs) ->
  prefix (bytes_read_of outs) (bytes_accepted_of acts outs) /\
  (In Eof outs -> bytes_read_of outs = bytes_accepted_of acts outs).
Proof.
  intros Hrun. destruct (run_obs acts _ _ _ (init_inv cs m) Hrun) as (H & Hr & Ha & He & _).
  cbn in Hr, Ha. rewrite <- Hr, <- Ha. split; [apply inv_read_acc; auto|].
  intros Hin. apply eof_complete; auto.
Qed.

Theorem eof_only_complete cs m acts y outs :
  run_acts acts (init cs m) = (y, outs) -> In Eof outs ->
  match m with
  | Known n => len (bytes_read_of outs) = n
  | Unknown => announced y = Some (len (bytes_read_of outs)) /\ shutdown_ok acts outs
  end /\ len (bytes_accepted_of acts outs) = len (bytes_read_of outs).
Proof.
  intros Hrun Hin. destruct (run_obs acts _ _ _ (init_inv cs m) Hrun) as (H & Hr & Ha & He & Hs & Hm).
  cbn in Hr, Ha, Hm. rewrite <- Hr, <- Ha.
  destruct (eof_complete y H (He (or_intror Hin))) as (Heq & Hx).
  split; [|now rewrite Heq].
  rewrite Hm in Hx. unfold expected in Hx. destruct m as [n|].
  - now injection Hx.
  - destruct (view y) as [|e|] eqn:Ev; try congruence. injection Hx as ->.
    apply view_sent in Ev. unfold announced. rewrite Ev. split; auto.
    destruct (Hs _ Ev) as [Hc|?]; auto. discriminate Hc.
Qed.

Theorem short_never_eof cs m acts y outs :
  run_acts acts (init cs m) = (y, outs) -> In Eof outs ->
  match m with
  | Known n => len (bytes_accepted_of acts outs) = n
  | Unknown => shutdown_ok acts outs
  end.
Proof.
  intros Hrun Hin. destruct (eof_only_complete cs m acts y outs Hrun Hin) as [H1 H2].
  destruct m; [congruence|apply H1].
Qed.

Theorem refuse_global cs n acts y outs :
  run_acts acts (init cs (Known n)) = (y, outs) ->
  len (bytes_accepted_of acts outs) <= n /\
  prefix (bytes_transmitted y) (bytes_accepted_of acts outs) /\
  len (bytes_transmitted y) <= n.
Proof.
  intros Hrun. destruct (run_obs acts _ _ _ (init_inv cs (Known n)) Hrun) as (H & _ & Ha & _ & _ & Hm).
  cbn in Ha. rewrite <- Ha. pose proof (inv_dead y H) as (Hp & Hc & _).
  rewrite Hm in Hc. specialize (Hc n eq_refl).
  unfold bytes_transmitted. pose proof (prefix_len _ _ Hp). repeat split; auto. lia.
Qed.

Theorem refuse_step y s n b buf e :
  y_tx y = Some s -> s_mode s = Known n -> n <= s_written s -> s_bin s = true -> s_sending s = FNone ->
  let '(y', res) := step y (AWrite (b :: buf) e) in
  res = Fail KWriteZero /\ g_acc y' = g_acc y /\ g_sent y' = g_sent y /\ y_net y' = y_net y.
Proof.
  intros Hs Hm Hle Hb Hsd. cbn [step]. rewrite Hs, poll_write_eq. unfold poll_complete_tx. rewrite Hsd.
  assert (Hw : forall c s2, s_bin s2 = true -> s_mode s2 = Known n -> n <= s_written s2 ->
            let '(y', res) := apply_tx y (write_core c s2 (b :: buf) [] []) in
            res = Fail KWriteZero /\ g_acc y' = g_acc y /\ g_sent y' = g_sent y /\ y_net y' = y_net y).
  { intros c s2 H1 H2 H3. unfold write_core. rewrite H1, H2. cbn [negb].
    replace (n <=? s_written s2) with true by (symmetry; now apply N.leb_le). unfold apply_tx.
    cbn [o_res o_acc o_sent o_evs g_acc g_sent y_net]. rewrite !app_nil_r. destruct (y_down y); repeat split; reflexivity. }
  destruct (s_chunk s); [now apply Hw|]. rewrite Hb. now apply Hw.
Qed.

Theorem short_shutdown y s n e :
  y_tx y = Some s -> s_mode s = Known n -> s_written s <> n ->
  (s_sending s = FNone \/ (exists d, s_sending s = FRun d) /\ y_down y = false /\ e_ready e = true) ->
  snd (step y (AShutdown e)) = Fail KUnexpectedEof.
Proof.
  intros Hs Hm Hne Hsd. cbn [step]. rewrite Hs. unfold apply_tx, poll_shutdown, poll_complete_tx. cbn [snd].
  assert (s_written s =? n = false) as E by now apply N.eqb_neq.
  destruct Hsd as [->|((d & ->) & -> & ->)]; unfold set; cbn [s_mode s_written o_res]; now rewrite Hm, E.
Qed.

(** The receiver has consumed all data and the next thing it sees is the end of the stream. *)
Definition at_end (r : receiver) : Prop :=
  r_cur r = None /\ r_eof r = false /\
  ((r_state r = RReceiving /\ r_bin r = false) \/ (r_state r = RIdle /\ r_bin r = true)).

(** the fuel of [poll_read] allows four iterations at least; the outcomes below need at most three *)
Lemma poll_read_unfold want sz r q :
  poll_read want sz r q = poll_read_fuel (S (S (S (S (4 * length q))))) want sz r q.
Proof. unfold poll_read. f_equal. lia. Qed.

Lemma poll_read_ret want sz r q r' q' res :
  read_iter want sz r q = IRet r' q' res -> poll_read want sz r q = (r', q', res).
Proof. intros H. rewrite poll_read_unfold. cbn [poll_read_fuel]. now rewrite H. Qed.

Theorem short_end_sized n want sz r q :
  at_end r -> r_size r = Some (Determined n) -> r_read r < n ->
  snd (poll_read want sz r (EEnd :: q)) = Fail KUnexpectedEof.
Proof.
  intros (Hc & He & Hst) Hsz Hlt. destruct r as [bin size rd cur st eof]. cbn [r_cur r_eof r_state r_bin r_size r_read] in *. subst.
  assert (rd =? n = false) as E by (apply N.eqb_neq; lia).
  assert (exists p, n - rd = N.pos p) as [p Hp] by (destruct (n - rd) eqn:E1; [lia|eauto]).
  rewrite poll_read_unfold. destruct Hst as [[-> ->]|[-> ->]]; repeat (progress (cbn; rewrite ?Hp, ?E)); reflexivity.
Qed.

Theorem short_end_unsized want sz r q :
  at_end r -> r_size r = Some Undetermined ->
  snd (poll_read want sz r (EEnd :: q)) =
  match sz with
  | CEmpty => Pending
  | CDropped => Fail KUnexpectedEof
  | CSent e => if r_read r =? e then Eof else Fail KUnexpectedEof
  end.
Proof.
  intros (Hc & He & Hst) Hsz. destruct r as [bin size rd cur st eof]. cbn [r_cur r_eof r_state r_bin r_size r_read] in *. subst.
  rewrite poll_read_unfold.
  destruct Hst as [[-> ->]|[-> ->]]; destruct sz as [|e|]; try destruct (rd =? e) eqn:E;
    repeat (progress (cbn; rewrite ?E)); reflexivity.
Qed.

Theorem short_err k want sz r q :
  at_end r -> (r_size r = Some Undetermined \/ exists n, r_size r = Some (Determined n) /\ r_read r < n) ->
  snd (poll_read want sz r (EErr k :: q)) = Fail k.
Proof.
  intros (Hc & He & Hst) Hsz. destruct r as [bin size rd cur st eof]. cbn [r_cur r_eof r_state r_bin r_size r_read] in *. subst.
  rewrite poll_read_unfold. destruct Hst as [[-> ->]|[-> ->]]; [reflexivity|].
  destruct Hsz as [->|(n & -> & Hlt)]; [reflexivity|].
  assert (exists p, n - rd = N.pos p) as [p Hp] by (destruct (n - rd) eqn:E1; [lia|eauto]).
  repeat (progress (cbn; rewrite ?Hp)). reflexivity.
Qed.

Theorem poisoned_panics want sz r q :
  r_state r = RRecvDone \/ r_state r = RVerDone -> snd (poll_read want sz r q) = Panic.
Proof.
  intros Hst. rewrite (poll_read_ret want sz r q r q Panic); [reflexivity|].
  unfold read_iter, complete_verify. destruct Hst as [->| ->]; reflexivity.
Qed.

Theorem drop_unsized_view y s :
  y_tx y = Some s -> s_mode s = Unknown -> y_down y = false ->
  view (fst (step (fst (step y ADropTx)) ADeliverSize)) = CDropped.
Proof.
  intros Hs Hm Hd. cbn [step]. rewrite Hs, Hm. cbn [fst y_down y_size]. rewrite Hd. reflexivity.
Qed.

Theorem cut_view y :
  y_down y = false -> y_arrived y = false -> view (fst (step y ACut)) = CDropped.
Proof. intros Hd Ha. cbn [step]. rewrite Hd. unfold view. cbn. now rewrite Ha. Qed.
