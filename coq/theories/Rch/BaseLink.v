(** Link to the chmux port model: under EVERY schedule of [Chmux/PortFlow.v] what the chmux sender has
    handed over is a framing ([Rch/Base.v], [Framed]) of the attempts its user made -- complete
    messages for the operations that returned Ok, unfinished ones for those that were cancelled or are
    still in progress -- and what the receiving side has taken from the port queue is a prefix of it.
    This is what the schedules of [Props/C04.v] (a framing, cut anywhere) quantify over.

    The user of the port is an [rch::base::Sender]: it uses [send], [send_chunks] + [ChunkSender] and
    [connect], never [try_send], and the port stays open ([UDropTx] is the end of the channel). *)
From Remoc Require Import Lib.Base Chmux.Parse Chmux.PortFlow Chmux.PortFlowProofs Rch.Base Rch.BaseProofs.

Definition completes (atts : list catt) : list msg :=
  flat_map (fun a => match a with ADataOk _ b => [MData b] | APortsOk ps => [MPorts ps] | _ => [] end) atts.

Lemma completes_app a b : completes (a ++ b) = completes a ++ completes b.
Proof. unfold completes. apply flat_map_app. Qed.

(** the frames of the operation in progress: an unfinished framing of what it has handed over *)
Definition part (mk : bool -> bool -> list N -> frame) (first : bool) (cu : list N) (fs : list frame) : Prop :=
  if first then fs = [] /\ cu = []
  else exists cks, concat cks = cu /\ cks <> [] /\ fs = chunk_frames mk true false cks.

Definition partial (o : sop) (cu : list N) (fs : list frame) : Prop :=
  match o with
  | SIdle => fs = []
  | SData cs _ _ first _ fin => part FData first cu fs /\ (cs = false -> fin = true)
  | SChunkIdle first _ => part FData first cu fs
  | SPorts _ first _ => part FPorts first cu fs
  end.

Definition fr_inv (s : st) : Prop :=
  exists atts done cur_fs,
    emitted s = done ++ cur_fs /\ Framed atts done /\ completes atts = completed s /\
    partial (op s) (cur s) cur_fs.

Lemma att_done atts done a fa :
  Framed atts done -> framed1 a fa ->
  Framed (atts ++ [a]) (done ++ fa) /\ completes (atts ++ [a]) = completes atts ++ completes [a].
Proof.
  intros H Ha. split; [|apply completes_app].
  apply Framed_app; auto. rewrite <- (app_nil_r fa). constructor; auto. constructor.
Qed.

Lemma part_emit mk first cu fs em done l c :
  em = done ++ fs -> part mk first cu fs ->
  exists cks, concat cks = cu ++ c /\ cks <> [] /\ em ++ [mk first l c] = done ++ chunk_frames mk true l cks.
Proof.
  intros ->. rewrite <- app_assoc. unfold part. destruct first.
  - intros [-> ->]. exists [c]. cbn [concat app]. rewrite app_nil_r. repeat split; auto. discriminate.
  - intros (cks & Hc & Hne & ->). exists (cks ++ [c]). rewrite concat_app, Hc. cbn [concat]. rewrite app_nil_r.
    repeat split; auto. + destruct cks; discriminate. + f_equal. now apply chunk_frames_snoc.
Qed.

(** the operations an [rch::base::Sender] performs on its port *)
Definition base_act (a : act) : Prop :=
  match a with UTrySend _ _ | UDropTx => False | _ => True end.

Lemma fr_inv_init c md mp : fr_inv (init c md mp).
Proof. exists [], [], []. unfold init; sel. repeat split; auto. constructor. Qed.

Lemma framed1_chunks cks :
  framed1 (ADataCut (concat cks)) (chunk_frames FData true false cks) /\
  framed1 (APortsCut (concat cks)) (chunk_frames FPorts true false cks) /\
  (cks <> [] -> framed1 (ADataOk false (concat cks)) (chunk_frames FData true true cks) /\
                framed1 (APortsOk (concat cks)) (chunk_frames FPorts true true cks)).
Proof.
  cbn [framed1]. rewrite <- !data_frames_chunk, <- !port_frames_chunk. repeat split; exists cks; auto.
Qed.

Lemma cut_inv o cu atts done cur_fs comp :
  Framed atts done -> completes atts = comp -> partial o cu cur_fs ->
  exists atts', Framed atts' (done ++ cur_fs) /\ completes atts' = comp.
Proof.
  intros Hfr Hco Hpa.
  assert (Hp : forall mk a first, part mk first cu cur_fs -> completes [a] = [] ->
            (forall cks, concat cks = cu -> framed1 a (chunk_frames mk true false cks)) ->
            exists atts', Framed atts' (done ++ cur_fs) /\ completes atts' = comp).
  { intros mk a [|] Hp Ha Hfa; unfold part in Hp.
    - destruct Hp as [-> _]. exists atts. now rewrite app_nil_r.
    - destruct Hp as (cks & Hc & Hne & ->). exists (atts ++ [a]).
      destruct (att_done atts done a _ Hfr (Hfa cks Hc)) as [F1 F2]. split; [exact F1|].
      now rewrite F2, Ha, Hco, app_nil_r. }
  destruct o as [|cs rest empty first a fin|first a|rest first a]; cbn [partial] in Hpa.
  - subst cur_fs. exists atts. now rewrite app_nil_r.
  - destruct Hpa as [Hpa _]. apply (Hp FData (ADataCut cu) first Hpa eq_refl). intros cks <-. exact (proj1 (framed1_chunks cks)).
  - apply (Hp FData (ADataCut cu) first Hpa eq_refl). intros cks <-. exact (proj1 (framed1_chunks cks)).
  - apply (Hp FPorts (APortsCut cu) first Hpa eq_refl). intros cks <-. exact (proj1 (proj2 (framed1_chunks cks))).
Qed.

(** [fr_inv] of the new state with the same three witnesses *)
Ltac keep atts done cur_fs :=
  exists atts, done, cur_fs; sel; rw; repeat split; auto.

(** [fr_inv] after [finish_op s ret None]: the frames of the attempt that ended join [done] *)
Ltac ended Hfr Hco Hpa Hem done cur_fs :=
  let atts' := fresh "atts'" in let H1 := fresh in let H2 := fresh in
  destruct (cut_inv _ _ _ _ _ _ Hfr Hco Hpa) as (atts' & H1 & H2);
  exists atts', (done ++ cur_fs), []; sel; rw; rewrite app_nil_r; repeat split; [exact Hem|exact H1|exact H2].

(** what travels beyond the sending endpoint does not touch the fields [fr_inv] reads *)
Lemma fr_inv_moves s s' : moves s s' -> fr_inv s -> fr_inv s'.
Proof.
  intros [Hs _ _] (atts & done & cur_fs & H). apply sender_side_eq in Hs as (_ & _ & Eo & _ & Ec & Ee & Em & _).
  exists atts, done, cur_fs. now rewrite Eo, Ec, Ee, Em.
Qed.

Lemma fr_inv_step s a s' : base_act a -> inv_num s -> fr_inv s -> step_opt s a = Some s' -> fr_inv s'.
Proof.
  intros Hb Hn Hf H. destruct (sender_act a) eqn:Ea; [|exact (fr_inv_moves _ _ (other_moves _ _ _ Ea Hn H) Hf)].
  destruct Hf as (atts & done & cur_fs & Hem & Hfr & Hco & Hpa).
  destruct a; try discriminate Ea; unfold step_opt in H; try (destruct Hb; fail).
  - cases. cbn [partial] in Hpa. subst cur_fs.
    exists atts, done, []. sel. repeat split; auto.
  - cases. cbn [partial] in Hpa. subst cur_fs.
    exists atts, done, []. sel. repeat split; auto.
  - cases. cbn [partial] in Hpa.
    exists atts, done, cur_fs. sel. repeat split; auto. discriminate.
  - cases.
    + exists atts, done, cur_fs. sel. rw. repeat split; auto.
    + cbn [partial] in Hpa. subst cur_fs. exists atts, done, []. sel. repeat split; auto.
  - (* UCancel: what was handed over stays as an unfinished message *)
    cases; ended Hfr Hco Hpa Hem done cur_fs.
  - cases; first [solve [cbn [partial] in Hpa; keep atts done cur_fs; apply Hpa] | ended Hfr Hco Hpa Hem done cur_fs].
  - destruct (slot_free s); [|discriminate].
    destruct (op s) as [|cs rest empty first a fin|first a|rest first a] eqn:Eop; try discriminate; cbn [partial] in Hpa.
    + destruct Hpa as [Hpa Hcs].
      destruct (a =? 0); [discriminate|].
      pose proof (fun l c => part_emit FData first (cur s) cur_fs _ done l c Hem Hpa) as Hemit.
      assert (Hfinish : forall l c s1, l = true -> emitted s1 = emitted s ++ [FData first l c] ->
                completed s1 = completed s ++ [MData (cur s ++ c)] -> op s1 = SIdle -> fr_inv s1).
      { intros l c s1 -> He Hcm Ho. destruct (Hemit true c) as (cks & Hc & Hne & Hfs).
        destruct (att_done atts done (ADataOk false (cur s ++ c)) (chunk_frames FData true true cks) Hfr) as [F1 F2].
        { rewrite <- Hc. now apply framed1_chunks. }
        exists (atts ++ [ADataOk false (cur s ++ c)]), (done ++ chunk_frames FData true true cks), [].
        rewrite app_nil_r, He, Hfs, Hcm, Ho, F2, Hco. repeat split; auto. }
      assert (Hgoon : forall c s1 o1, emitted s1 = emitted s ++ [FData first false c] ->
                completed s1 = completed s -> cur s1 = cur s ++ c -> op s1 = o1 ->
                (forall fs, part FData false (cur s ++ c) fs -> partial o1 (cur s ++ c) fs) -> fr_inv s1).
      { intros c s1 o1 He Hcm Hcu Ho Hp. destruct (Hemit false c) as (cks & Hc & Hne & Hfs).
        exists atts, done, (chunk_frames FData true false cks). rewrite He, Hfs, Hcm, Hcu, Ho. repeat split; auto.
        apply Hp. exists cks. auto. }
      destruct empty.
      * destruct cs; [destruct fin|]; injection H as <-.
        -- apply (Hfinish true []); sel; rewrite ?app_nil_r; auto.
        -- apply (Hgoon [] _ (SChunkIdle false (a - 1))); sel; rewrite ?app_nil_r; auto.
        -- rewrite (Hcs eq_refl). apply (Hfinish true []); sel; rewrite ?app_nil_r; auto.
      * set (m := N.to_nat (N.min (N.min (len rest) (chunk (cfg s))) a)) in *.
        destruct (skipn m rest) as [|y r'] eqn:Esk.
        -- destruct cs; [destruct fin|]; cbn [andb] in H; injection H as <-.
           ++ apply (Hfinish true (firstn m rest)); sel; auto.
           ++ apply (Hgoon (firstn m rest) _ (SChunkIdle false (a - len (firstn m rest)))); sel; auto.
           ++ rewrite (Hcs eq_refl). cbn [andb]. apply (Hfinish true (firstn m rest)); sel; auto.
        -- cbn [andb] in H. injection H as <-.
           apply (Hgoon (firstn m rest) _ (SData cs (y :: r') false false (a - len (firstn m rest)) fin)); sel; auto.
           intros fs Hfs. cbn [partial]. auto.
    + destruct (a <? 4); [discriminate|].
      set (k := N.to_nat (N.min (len rest) (N.min (chunk (cfg s)) a / 4))) in *.
      pose proof (fun l c => part_emit FPorts first (cur s) cur_fs _ done l c Hem Hpa) as Hemit.
      destruct (skipn k rest) as [|y r'] eqn:Esk; injection H as <-.
      * destruct (Hemit true (firstn k rest)) as (cks & Hc & Hne & Hfs).
        destruct (att_done atts done (APortsOk (cur s ++ firstn k rest)) (chunk_frames FPorts true true cks) Hfr) as [F1 F2].
        { rewrite <- Hc. now apply framed1_chunks. }
        exists (atts ++ [APortsOk (cur s ++ firstn k rest)]), (done ++ chunk_frames FPorts true true cks), []. sel.
        rewrite app_nil_r, Hfs, F2, Hco. repeat split; auto.
      * destruct (Hemit false (firstn k rest)) as (cks & Hc & Hne & Hfs).
        exists atts, done, (chunk_frames FPorts true false cks). sel. rewrite Hfs. repeat split; auto.
        exists cks. auto.
  - cases; keep atts done cur_fs.
Qed.

Lemma fr_inv_run c md mp acts : cfg_ok c -> Forall base_act acts -> fr_inv (run acts (init c md mp)).
Proof.
  intros Hc. induction acts as [|a acts IH] using rev_ind; intros Hb; [apply fr_inv_init|].
  apply Forall_app in Hb as [Hb Ha]. inversion Ha as [|? ? Ha' _]; subst.
  unfold run in *. rewrite fold_left_app. cbn [fold_left]. unfold step at 1.
  destruct (step_opt _ a) as [s'|] eqn:E; [|auto].
  exact (fr_inv_step _ _ _ Ha' (proj1 (proj1 (Inv_run c md mp acts Hc))) (IH Hb) E).
Qed.

(** Under every schedule of the port (user calls of a base sender incl. cancellation at every await,
    credit grants, queue slots, deliveries, credit returns, closure): the frames handed over are a
    framing of an attempt list whose complete members are exactly the operations that returned Ok, and
    the receiving side has consumed a prefix of them. *)
Theorem emitted_framed c md mp acts :
  cfg_ok c -> Forall base_act acts ->
  let s := run acts (init c md mp) in
  exists atts, Framed atts (emitted s) /\ completes atts = completed s /\
               exists rest, emitted s = consumed s ++ rest.
Proof.
  intros Hc Hb s. destruct (fr_inv_run c md mp acts Hc Hb) as (atts & done & cur_fs & Hem & Hfr & Hco & Hpa).
  fold s in Hem, Hco, Hpa.
  destruct (cut_inv _ _ _ _ _ _ Hfr Hco Hpa) as (atts' & H1 & H2).
  exists atts'. rewrite Hem. repeat split; auto.
  destruct (Inv_run c md mp acts Hc) as [_ (Hfifo & _)]. fold s in Hfifo.
  exists (rxq s ++ link s ++ evq s). now rewrite <- Hem, <- Hfifo.
Qed.
