(** Proofs about the watch model [Rch/Watch.v]:
    - [Safe]: an invariant of every action list, faults included: every value in a cell, in flight or
      shown to a receiver was sent; along every link indices only grow; what a receiver has been
      shown is non-decreasing and not ahead of its cell.
    - [Live]: an invariant of fault-free action lists from which "quiescent => every cell that still
      has a receiver holds the latest value" follows by induction over the distance from the root.
    Both are stated over the components of a state they read, and proved through [step_inv], which
    presents a step as one of nine shapes; what a forwarding step does to its own cell and link
    ([link_step]) is settled on cells alone. *)
From Coq Require Import Sorted.
From Remoc Require Import Lib.Base Rch.Watch.
From RecordUpdate Require Import RecordUpdate.
Import RecordSetNotations.

Ltac prj :=
  cbn [cval cerr cver cclosed cpar lseen lchan lsend lrecv lfin ltaken clevel
       rcell rseen rlive robs rsidx ncell cells nrcv rcvs sender root sent
       set RecordSet.set store store_err recv_end set_cell set_rcv add_rcv add_cell do_send fst snd].

Lemma upd_same {A} (f : nat -> A) i x : upd f i x i = x.
Proof. unfold upd. now rewrite Nat.eqb_refl. Qed.
Lemma upd_other {A} (f : nat -> A) i x j : j <> i -> upd f i x j = f j.
Proof. unfold upd. intros H. destruct (Nat.eqb_spec j i); congruence. Qed.

(** [upd_at j i]: is position [j] the updated position [i]? *)
Ltac upd_at j i :=
  let E := fresh "E" in
  destruct (Nat.eq_dec j i) as [E|E]; [rewrite ?E, ?upd_same|rewrite ?(upd_other _ i _ j E)].

Definition idx (c : cell) : N := fst (cval c).

(** a step of the forwarding tasks of a link, or ([flt]) the failure of its connection, on cells alone: the fed
    cell [x] becomes [x']; [pc] is its parent, [rx] whether it has a receiver; the guards are those of [step] *)
Inductive link_step (rx : bool) (x pc : cell) : bool -> cell -> Prop :=
| ls_take : lsend x && negb (lseen x =? cver pc) = true ->
    link_step rx x pc false
      (x <| lseen := cver pc |> <| ltaken := fst (cval pc) |>
         <| lchan := if lrecv x then lchan x ++ [msg_of pc] else lchan x |>)
| ls_end : lsend x && (lseen x =? cver pc) && cclosed pc = true ->
    link_step rx x pc false (x <| lsend := false |> <| lchan := if lrecv x then lchan x ++ [MEof] else lchan x |>)
| ls_stop : lsend x && negb (lrecv x) = true -> link_step rx x pc false (x <| lsend := false |>)
| ls_val v rest : lrecv x = true -> lchan x = MVal v :: rest -> link_step rx x pc false (store x v <| lchan := rest |>)
| ls_err rest : lchan x = MErr :: rest -> link_step rx x pc false (store_err x <| lchan := rest |>)
| ls_norx : lrecv x = true -> rx = false -> link_step rx x pc false (recv_end x)
| ls_eof rest : lrecv x = true -> lchan x = MEof :: rest -> link_step rx x pc false (recv_end x <| lfin := true |>)
| ls_fault : link_step rx x pc true (recv_end (if lrecv x then store_err x else x) <| lsend := false |>).

(** what the calls on a handle reading cell [c] do to it: mark the version seen, show the value, drop *)
Definition shown (x : rcv) (c : cell) : list val := if cerr c then robs x else robs x ++ [cval c].
Definition rcv_upd (seen show live : bool) (x : rcv) (c : cell) : rcv :=
  mkR (rcell x) (if seen then cver c else rseen x) (if live then rlive x else false)
      (if show then shown x c else robs x) (if seen then fst (cval c) else rsidx x).

(** the cell created by [Receiver::deserialize] for a handle on cell [p] holding [c] *)
Definition rx_cell (c : cell) (p : nat) : cell :=
  mkC (cval c) (cerr c) 0 false (Some p) (cver c) [] true true false (fst (cval c)) (clevel c + 1)%Z.
(** [Sender::deserialize]: the new root, and the old root [c] linked to it as cell [n] *)
Definition tx_root (c : cell) : cell := mkC (cval c) false 0 false None 0 [] false false false 0 (clevel c - 1)%Z.
Definition tx_child (c : cell) (n : nat) : cell :=
  c <| cpar := Some n |> <| lseen := 0 |> <| lchan := [] |> <| lsend := true |> <| lrecv := true |>
    <| lfin := false |> <| ltaken := fst (cval c) |>.

Inductive step_view (st : state) : action -> state -> Prop :=
| sv_idle a : step_view st a st
| sv_send c p a : sender st = Some c -> step_view st a (do_send st c p)
| sv_drop c : sender st = Some c ->
    step_view st DropSender (set_cell st c (cells st c <| cclosed := true |>) <| sender := None |>)
| sv_sub c : sender st = Some c ->
    step_view st Subscribe (add_rcv st (mkR c (cver (cells st c)) true [] (fst (cval (cells st c)))))
| sv_clone r : (r < nrcv st)%nat -> rlive (rcvs st r) = true ->
    step_view st (CloneRx r) (add_rcv st (rcvs st r <| robs := [] |>))
| sv_rcv r a seen show live : (r < nrcv st)%nat -> rlive (rcvs st r) = true ->
    step_view st a (set_rcv st r (rcv_upd seen show live (rcvs st r) (cells st (rcell (rcvs st r)))))
| sv_trx r : (r < nrcv st)%nat -> rlive (rcvs st r) = true ->
    let p := rcell (rcvs st r) in
    step_view st (TransferRx r)
      (add_rcv (add_cell st (rx_cell (cells st p) p)) (mkR (ncell st) 0 true [] (fst (cval (cells st p)))))
| sv_ttx c : sender st = Some c -> cpar (cells st c) = None ->
    step_view st TransferTx
      (set_cell (add_cell st (tx_root (cells st c))) c (tx_child (cells st c) (ncell st))
         <| sender := Some (ncell st) |> <| root := ncell st |>)
| sv_link d c a x' : (d < ncell st)%nat -> cpar (cells st d) = Some c ->
    link_step (has_rx st d) (cells st d) (cells st c) (is_fault a) x' -> step_view st a (set_cell st d x').

Lemma step_inv st a st' : step st a = Some st' -> step_view st a st'.
Proof.
  assert (R : forall r (k : rcv -> option state),
            match live_rcv st r with Some x => k x | None => None end = Some st' ->
            (r < nrcv st)%nat /\ rlive (rcvs st r) = true /\ k (rcvs st r) = Some st').
  { intros r k. unfold live_rcv. destruct (Nat.ltb_spec r (nrcv st)); [|discriminate].
    destruct (rlive (rcvs st r)) eqn:E; [auto|discriminate]. }
  assert (L : forall d (k : cell -> nat -> option state),
            match linked st d with Some (x, c) => k x c | None => None end = Some st' ->
            exists c, (d < ncell st)%nat /\ cpar (cells st d) = Some c /\ k (cells st d) c = Some st').
  { intros d k. unfold linked. destruct (Nat.ltb_spec d (ncell st)); [|discriminate].
    destruct (cpar (cells st d)); [eauto|discriminate]. }
  destruct a; cbn [step]; intros H;
    try (destruct (sender st) as [c|] eqn:Es; [|discriminate]);
    try (apply R in H as (Hr & Hl & H));
    try (apply L in H as (c & Hd & Hp & H);
         match type of H with (if ?g then _ else _) = _ => destruct g eqn:G; [|discriminate] end;
         try (injection H as <-; apply (sv_link st d c _ _ Hd Hp); constructor; assumption)).
  - destruct (has_rx st c); injection H as <-; [exact (sv_send st c p _ Es)|constructor].
  - injection H as <-. exact (sv_send st c p _ Es).
  - injection H as <-. constructor; assumption.
  - injection H as <-. constructor; assumption.
  - injection H as <-. constructor; assumption.
  - injection H as <-. apply (sv_rcv st r _ false false false); assumption.
  - injection H as <-. apply (sv_rcv st r _ true true true); assumption.
  - injection H as <-. apply (sv_rcv st r _ false true true); assumption.
  - destruct (rseen (rcvs st r) =? _); injection H as <-; [constructor|]. apply (sv_rcv st r _ true false true); assumption.
  - injection H as <-. apply sv_trx; assumption.
  - destruct (cpar (cells st c)) eqn:Ep; [discriminate|]. injection H as <-. apply sv_ttx; assumption.
  - destruct (lchan (cells st d)) as [|[v| |] rest] eqn:E2;
      [discriminate|destruct (has_rx st d) eqn:E3..|]; injection H as <-; apply (sv_link st d c _ _ Hd Hp);
      first [eapply ls_val; eassumption|eapply ls_err; eassumption|eapply ls_eof; eassumption|apply ls_norx; assumption].
  - apply andb_true_iff in G as (E1 & E3). apply negb_true_iff in E3.
    injection H as <-. apply (sv_link st d c _ _ Hd Hp). apply ls_norx; assumption.
Qed.

Definition val_idxs (l : list msg) : list N :=
  flat_map (fun m => match m with MVal v => [fst v] | _ => [] end) l.
(** the indices on their way down a link, oldest first: in the fed cell, in the remote channel *)
Definition chain (x : cell) : list N := idx x :: val_idxs (lchan x).

Definition val_ok (s : list N) (v : val) : Prop := nth_error s (N.to_nat (fst v)) = Some (snd v).
Definition msg_ok (s : list N) (m : msg) : Prop := match m with MVal v => val_ok s v | _ => True end.

Definition SafeCell (s : list N) (x : cell) : Prop := val_ok s (cval x) /\ Forall (msg_ok s) (lchan x).

Definition SafeLink (x pc : cell) : Prop :=
  StronglySorted N.le (chain x) /\ Forall (fun i => i <= ltaken x) (chain x) /\ ltaken x <= idx pc.

(** [rsidx] is the index of the value that was current when the handle last marked a version seen;
    while the cell holds a value with another index the versions differ as well *)
Definition SafeRcv (s : list N) (x : rcv) (c : cell) : Prop :=
  Forall (val_ok s) (robs x) /\ StronglySorted N.le (map fst (robs x)) /\ Forall (fun v => fst v <= idx c) (robs x) /\
  rseen x <= cver c /\ (rseen x = cver c -> rsidx x = idx c).

Definition grows (c c' : cell) : Prop :=
  cver c' = cver c /\ cval c' = cval c \/ cver c' = cver c + 1 /\ idx c <= idx c'.

Set Implicit Arguments.
Record SafeC (nc : nat) (ce : nat -> cell) (nr : nat) (rc : nat -> rcv) (sd : option nat) (s : list N) : Prop := {
  sf_cell : forall d, (d < nc)%nat -> SafeCell s (ce d);
  sf_link : forall d c, (d < nc)%nat -> cpar (ce d) = Some c ->
            (c < nc)%nat /\ clevel (ce d) = (clevel (ce c) + 1)%Z /\ SafeLink (ce d) (ce c);
  sf_rcv : forall r, (r < nr)%nat -> (rcell (rc r) < nc)%nat /\ SafeRcv s (rc r) (ce (rcell (rc r)));
  sf_sender : forall c, sd = Some c -> (c < nc)%nat /\ cpar (ce c) = None;
}.
Unset Implicit Arguments.

Definition Safe (st : state) : Prop := SafeC (ncell st) (cells st) (nrcv st) (rcvs st) (sender st) (sent st).

Lemma val_idxs_app l1 l2 : val_idxs (l1 ++ l2) = val_idxs l1 ++ val_idxs l2.
Proof. apply flat_map_app. Qed.

Lemma val_ok_app s l v : val_ok s v -> val_ok (s ++ l) v.
Proof. unfold val_ok. intros H. rewrite nth_error_app1; auto. apply nth_error_Some. congruence. Qed.

Lemma val_ok_lt s v : val_ok s v -> fst v < len s.
Proof.
  unfold val_ok, len. intros H. assert (N.to_nat (fst v) < length s)%nat by (apply nth_error_Some; congruence). lia.
Qed.

Lemma val_ok_new s p : val_ok (s ++ [p]) (len s, p).
Proof.
  unfold val_ok, len. cbn [fst snd]. rewrite Nat2N.id. apply nth_error_snoc.
Qed.

Lemma SS_snoc (l : list N) x : StronglySorted N.le l -> Forall (fun i => i <= x) l -> StronglySorted N.le (l ++ [x]).
Proof.
  induction l as [|a l IH]; cbn [app]; intros Hs Hf.
  - repeat constructor.
  - inversion Hs; subst. inversion Hf; subst. constructor; auto. apply Forall_app. split; auto.
Qed.

Lemma Forall_le_trans (l : list N) a b : Forall (fun i => i <= a) l -> a <= b -> Forall (fun i => i <= b) l.
Proof. intros H Hab. eapply Forall_impl; [|exact H]. cbn. intros; lia. Qed.

Lemma SafeLink_parent x pc pc' : SafeLink x pc -> idx pc <= idx pc' -> SafeLink x pc'.
Proof. intros (A & B & C) H. repeat split; auto. lia. Qed.

Lemma grows_idx c c' : grows c c' -> idx c <= idx c'.
Proof. unfold idx. intros [(_ & ->)|(_ & ?)]; auto. apply N.le_refl. Qed.

Lemma SafeRcv_cell s x c c' : SafeRcv s x c -> grows c c' -> SafeRcv s x c'.
Proof.
  intros (A & B & C & D & E) H. pose proof (grows_idx _ _ H). repeat split; auto.
  - eapply Forall_impl; [|exact C]. cbn. intros; lia.
  - destruct H as [(-> & _)|(-> & _)]; lia.
  - unfold idx in *. destruct H as [(-> & ->)|(-> & _)]; auto. lia.
Qed.

Lemma SafeCell_app s l x : SafeCell s x -> SafeCell (s ++ l) x.
Proof.
  intros (A & B). split; auto using val_ok_app. eapply Forall_impl; [|exact B]. intros []; cbn; auto using val_ok_app.
Qed.

Lemma SafeRcv_app s l x c : SafeRcv s x c -> SafeRcv (s ++ l) x c.
Proof. intros (A & B). split; auto. eapply Forall_impl; [|exact A]. intros; now apply val_ok_app. Qed.

Lemma SafeRcv_new s x c : robs x = [] -> rseen x = cver c -> rsidx x = idx c -> SafeRcv s x c.
Proof. unfold SafeRcv. intros -> -> ->. repeat split; auto; try constructor. apply N.le_refl. Qed.

Lemma SafeLink_empty x pc : lchan x = [] -> idx x <= ltaken x -> ltaken x <= idx pc -> SafeLink x pc.
Proof. unfold SafeLink, chain. intros -> A B. repeat split; auto; repeat constructor; auto. Qed.

Section SafeOps.
  Context {nc : nat} {ce : nat -> cell} {nr : nat} {rc : nat -> rcv} {sd : option nat} {s : list N}.
  Hypothesis Hs : SafeC nc ce nr rc sd s.

  Lemma SafeC_sent l : SafeC nc ce nr rc sd (s ++ l).
  Proof.
    destruct Hs as [H1 H2 H3 H4]. split; auto using SafeCell_app.
    intros r Hr. destruct (H3 r Hr). auto using SafeRcv_app.
  Qed.

  Lemma SafeC_cell d x' :
    (d < nc)%nat -> clevel x' = clevel (ce d) -> grows (ce d) x' -> SafeCell s x' ->
    (forall c, cpar x' = Some c -> (c < nc)%nat /\ clevel x' = (clevel (ce c) + 1)%Z /\ SafeLink x' (ce c)) ->
    (sd = Some d -> cpar x' = None) ->
    SafeC nc (upd ce d x') nr rc sd s.
  Proof.
    destruct Hs as [H1 H2 H3 H4]. intros Hd Hlv Hidx Hc Hl Hsd. split.
    - intros e He. upd_at e d; auto.
    - intros e c He. upd_at e d; intros Hp.
      + destruct (Hl _ Hp) as (A & B & C). upd_at c d; auto. subst c. clear - B Hlv. lia.
      + destruct (H2 _ _ He Hp) as (A & B & C). upd_at c d; auto. subst c.
        split; [auto|split; [clear - B Hlv; lia|eapply SafeLink_parent; eauto using grows_idx]].
    - intros r Hr. destruct (H3 r Hr) as (A & B). split; auto. upd_at (rcell (rc r)) d; auto.
      eapply SafeRcv_cell; eauto. now rewrite E.
    - intros c E. destruct (H4 c E) as (A & B). split; auto. upd_at c d; auto. subst c. auto.
  Qed.

  Lemma SafeC_cell_same d x' :
    (d < nc)%nat -> clevel x' = clevel (ce d) -> cpar x' = cpar (ce d) -> grows (ce d) x' ->
    SafeCell s x' -> (forall c, cpar (ce d) = Some c -> SafeLink x' (ce c)) ->
    SafeC nc (upd ce d x') nr rc sd s.
  Proof.
    intros Hd Hlv Hp Hidx Hc Hl. apply SafeC_cell; auto.
    - intros c E. rewrite Hp in E. destruct (sf_link Hs Hd E) as (A & B & C). split; [auto|split; [congruence|auto]].
    - intros E. rewrite Hp. apply (sf_sender Hs E).
  Qed.

  Lemma SafeC_add_cell x' :
    SafeCell s x' ->
    (forall c, cpar x' = Some c -> (c < nc)%nat /\ clevel x' = (clevel (ce c) + 1)%Z /\ SafeLink x' (ce c)) ->
    SafeC (S nc) (upd ce nc x') nr rc sd s.
  Proof.
    destruct Hs as [H1 H2 H3 H4]. intros Hc Hl. split.
    - intros e He. upd_at e nc; auto. apply H1. clear - He E. lia.
    - intros e c He. upd_at e nc; intros Hp.
      + destruct (Hl _ Hp) as (A & B & C). rewrite upd_other by (clear - A; lia). auto.
      + destruct (H2 e c) as (A & B & C); auto; [clear - He E; lia|]. rewrite upd_other by (clear - A; lia). auto.
    - intros r Hr. destruct (H3 r Hr) as (A & B). rewrite upd_other by (clear - A; lia). auto.
    - intros c E. destruct (H4 c E) as (A & B). rewrite upd_other by (clear - A; lia). auto.
  Qed.

  Lemma SafeC_rcv nr' r x' :
    (forall q, (q < nr')%nat -> q <> r -> (q < nr)%nat) -> (rcell x' < nc)%nat -> SafeRcv s x' (ce (rcell x')) ->
    SafeC nc ce nr' (upd rc r x') sd s.
  Proof.
    destruct Hs as [H1 H2 H3 H4]. intros Hq Hc Hx. split; auto. intros q Hq'. upd_at q r; auto.
  Qed.

  Lemma SafeC_sender sd' :
    (forall c, sd' = Some c -> (c < nc)%nat /\ cpar (ce c) = None) -> SafeC nc ce nr rc sd' s.
  Proof. destruct Hs as [H1 H2 H3 H4]. intros H. split; auto. Qed.
End SafeOps.

Lemma link_step_frame rx x pc flt x' :
  link_step rx x pc flt x' ->
  cpar x' = cpar x /\ clevel x' = clevel x /\ ((cver x' = cver x /\ cval x' = cval x) \/ cver x' = cver x + 1).
Proof. destruct 1; try destruct (lrecv x); prj; auto. Qed.

Lemma link_step_safe s rx x pc flt x' :
  link_step rx x pc flt x' -> SafeCell s x -> val_ok s (cval pc) -> SafeLink x pc ->
  SafeCell s x' /\ SafeLink x' pc /\ idx x <= idx x'.
Proof.
  intros H (Hv & Hm) Hpc (A & B & C).
  assert (Hi : idx x <= ltaken x) by now inversion B.
  assert (He : forall y, cval y = cval x -> lchan y = [] -> ltaken y = ltaken x ->
                         SafeCell s y /\ SafeLink y pc /\ idx x <= idx y).
  { intros y E1 E2 E3. unfold SafeCell, idx in *. rewrite E1, E2. split; [split; [auto|constructor]|split; [|lia]].
    apply SafeLink_empty; unfold idx; rewrite ?E1, ?E3; auto. }
  destruct H as [G|G|G|v rest Hr Hch|rest Hch|Hr Hrx|rest Hr Hch|];
    try (apply He; reflexivity); try (destruct (lrecv x); apply He; reflexivity);
    unfold SafeCell, SafeLink, chain, idx in *; prj.
  - (* take: whatever is on the way is at most the index taken now *)
    assert (B' : Forall (fun i => i <= fst (cval pc)) (fst (cval x) :: val_idxs (lchan x))) by (eapply Forall_le_trans; eauto).
    destruct (lrecv x); [|repeat split; auto; lia].
    split; [split; [auto|apply Forall_app; split; auto; unfold msg_of; destruct (cerr pc); now repeat constructor]|].
    split; [|lia]. unfold msg_of. rewrite val_idxs_app.
    destruct (cerr pc); cbn [val_idxs flat_map app]; rewrite ?app_nil_r; repeat split; auto; try lia.
    + now apply (SS_snoc (_ :: _)).
    + apply (Forall_app _ (_ :: _)). split; auto. constructor; [lia|constructor].
  - destruct (lrecv x); [rewrite val_idxs_app; cbn [val_idxs flat_map]; rewrite app_nil_r|]; repeat split; auto; try lia.
    apply Forall_app. split; auto. now repeat constructor.
  - repeat split; auto; lia.
  - rewrite Hch in *. cbn [val_idxs flat_map app] in *. inversion A as [|? ? A1 A2]. inversion A2. inversion B. inversion Hm.
    subst. repeat split; auto.
  - rewrite Hch in *. inversion Hm. repeat split; auto; lia.
Qed.

Lemma rcv_upd_safe s seen show live x c :
  SafeRcv s x c -> val_ok s (cval c) -> SafeRcv s (rcv_upd seen show live x c) c.
Proof.
  intros (A & B & C & D) Hv.
  assert (Hsh : Forall (val_ok s) (shown x c) /\ StronglySorted N.le (map fst (shown x c)) /\
                Forall (fun v => fst v <= idx c) (shown x c)).
  { unfold shown. destruct (cerr c); [now repeat split|]. repeat split.
    - apply Forall_app. split; auto.
    - rewrite map_app. apply SS_snoc; auto. now rewrite Forall_map.
    - apply Forall_app. split; auto. constructor; auto. apply N.le_refl. }
  destruct Hsh as (A' & B' & C'). destruct seen, show; unfold SafeRcv; prj; repeat split; auto; try apply N.le_refl; apply D.
Qed.

Lemma Safe_init p : Safe (init p).
Proof.
  split; cbn [init ncell cells nrcv rcvs sender sent].
  - intros d _. split; [reflexivity|constructor].
  - discriminate.
  - intros r Hr. assert (r = 0)%nat as -> by lia. rewrite upd_same. split; [cbn; lia|now apply SafeRcv_new].
  - intros c [= <-]. split; [lia|reflexivity].
Qed.

Lemma Safe_step st a st' : Safe st -> step st a = Some st' -> Safe st'.
Proof.
  intros Hs H. destruct (step_inv _ _ _ H) as [a|c p a E|c E|c E|r Hr Hl|r a seen show live Hr Hl|r Hr Hl p|c E Ep|d c a x' Hd Hp Hx];
    unfold Safe in *; prj; auto.
  - destruct (sf_sender Hs E) as (Hc & Hp). destruct (sf_cell Hs Hc) as (Hv & Hm).
    apply (SafeC_cell_same (SafeC_sent Hs [p])); prj; auto.
    + right. unfold idx. prj. apply val_ok_lt in Hv. split; [auto|lia].
    + split; prj; [apply val_ok_new|]. eapply Forall_impl; [|exact Hm]. intros []; cbn; auto using val_ok_app.
    + congruence.
  - destruct (sf_sender Hs E) as (Hc & Hp).
    eapply SafeC_sender; [|discriminate]. apply (SafeC_cell_same Hs); auto.
    + now left.
    + apply (sf_cell Hs Hc).
    + intros k Ek. apply (sf_link Hs Hc Ek).
  - apply (SafeC_rcv Hs); prj; [lia|apply (sf_sender Hs E)|now apply SafeRcv_new].
  - destruct (sf_rcv Hs Hr) as (A & _ & _ & _ & B). apply (SafeC_rcv Hs); prj; [lia|auto|].
    repeat split; try constructor; apply B.
  - destruct (sf_rcv Hs Hr) as (A & B). apply (SafeC_rcv Hs); auto. apply rcv_upd_safe; auto. apply (sf_cell Hs A).
  - destruct (sf_rcv Hs Hr) as (A & _). destruct (sf_cell Hs A) as (Hv & _). fold p in A, Hv.
    eapply SafeC_rcv; [eapply (SafeC_add_cell Hs)| | |]; prj; [split; [exact Hv|constructor]| |clear; lia..|].
    + intros c [= <-]. split; [auto|split; [reflexivity|]]. apply SafeLink_empty; unfold idx, rx_cell; prj; auto; lia.
    + rewrite upd_same. now apply SafeRcv_new.
  - destruct (sf_sender Hs E) as (Hc & _). destruct (sf_cell Hs Hc) as (Hv & Hm).
    assert (Hne : c <> ncell st) by (clear - Hc; lia).
    eapply SafeC_cell; [eapply SafeC_sender; [eapply (SafeC_add_cell Hs (tx_root (cells st c)))|]|..];
      rewrite ?upd_same, ?(upd_other _ _ _ _ Hne); unfold idx, tx_child; prj; auto; try (clear - Hc; lia); try discriminate.
    + split; [exact Hv|constructor].
    + intros k [= <-]. rewrite upd_same. split; [lia|reflexivity].
    + now left.
    + split; [exact Hv|constructor].
    + intros k [= <-]. rewrite upd_same. unfold tx_root. prj. split; [lia|split; [lia|]].
      apply SafeLink_empty; unfold idx; prj; auto; lia.
    + intros [= ?]. lia.
  - destruct (sf_link Hs Hd Hp) as (Hc & _ & Hl). destruct (link_step_frame _ _ _ _ _ Hx) as (F1 & F2 & F3).
    destruct (link_step_safe _ _ _ _ _ _ Hx (sf_cell Hs Hd) (proj1 (sf_cell Hs Hc)) Hl) as (S1 & S2 & S3).
    apply (SafeC_cell_same Hs); auto; [destruct F3; [left|right]; auto|]. intros k Ek. congruence.
Qed.

Lemma Safe_run acts st st' : Safe st -> run acts st = Some st' -> Safe st'.
Proof. apply (orun_inv step Safe Safe_step). Qed.

Theorem only_sent acts p st r v :
  run acts (init p) = Some st -> (r < nrcv st)%nat -> In v (robs (rcvs st r)) ->
  nth_error (sent st) (N.to_nat (fst v)) = Some (snd v).
Proof.
  intros H Hr Hin. destruct (sf_rcv (Safe_run _ _ _ (Safe_init p) H) Hr) as (_ & (A & _)).
  rewrite Forall_forall in A. exact (A _ Hin).
Qed.

Theorem monotone acts p st r :
  run acts (init p) = Some st -> (r < nrcv st)%nat ->
  StronglySorted N.le (map fst (robs (rcvs st r))) /\
  Forall (fun v => fst v <= fst (cval (cells st (rcell (rcvs st r))))) (robs (rcvs st r)).
Proof. intros H Hr. destruct (sf_rcv (Safe_run _ _ _ (Safe_init p) H) Hr) as (_ & _ & B & C & _). auto. Qed.

Definition is_eof (m : msg) : bool := match m with MEof => true | _ => false end.
Definition is_err (m : msg) : bool := match m with MErr => true | _ => false end.
Definition no_eof (l : list msg) : bool := forallb (fun m => negb (is_eof m)) l.
Definition no_err (l : list msg) : bool := forallb (fun m => negb (is_err m)) l.

(** the feed of [x] ended regularly: its [send_impl] saw [pc] closed with nothing unseen, and [pc] is the
    root ([pr]) or was itself fed to the end *)
Definition fed_out (pr : Prop) (x pc : cell) : Prop :=
  lsend x = false /\ cclosed pc = true /\ lseen x = cver pc /\ (pr \/ lfin pc = true).

Record LiveLink (pr : Prop) (x pc : cell) : Prop := {
  ll_closed : cclosed x = negb (lrecv x);
  ll_seen : lseen x <= cver pc;
  ll_taken : lseen x = cver pc -> ltaken x = idx pc;
  ll_last : lrecv x = true -> last (val_idxs (lchan x)) (idx x) = ltaken x;
  ll_eofin : lrecv x = true -> lsend x = false -> In MEof (lchan x);
  ll_wf : no_eof (removelast (lchan x)) = true;
  ll_eof : In MEof (lchan x) -> fed_out pr x pc;
  ll_fin : lfin x = true -> lrecv x = false /\ idx x = ltaken x /\ fed_out pr x pc;
  ll_nochan : lrecv x = false -> lchan x = [];
  ll_noerr : cerr x = false /\ no_err (lchan x) = true;
}.

(** a cell whose [recv_impl] gave up because the cell had no receiver left; it never gets one again *)
Definition dead (x : cell) : Prop := cpar x <> None /\ lrecv x = false /\ lfin x = false.

Set Implicit Arguments.
Record LiveC (nc : nat) (ce : nat -> cell) (nr : nat) (rc : nat -> rcv) (sd : option nat) (rt : nat) (s : list N)
  : Prop := {
  lv_root : (rt < nc)%nat /\ cpar (ce rt) = None;
  lv_uniq : forall d, (d < nc)%nat -> cpar (ce d) = None -> d = rt;
  lv_sender : forall c, sd = Some c -> c = rt;
  lv_open : cclosed (ce rt) = match sd with Some _ => false | None => true end;
  lv_top : idx (ce rt) + 1 = len s /\ cerr (ce rt) = false;
  lv_level : forall d, (d < nc)%nat -> (clevel (ce rt) <= clevel (ce d))%Z;
  lv_link : forall d c, (d < nc)%nat -> cpar (ce d) = Some c -> LiveLink (c = rt) (ce d) (ce c);
  lv_rcv : forall r, (r < nr)%nat -> rlive (rc r) = true -> ~ dead (ce (rcell (rc r)));
  lv_fwd : forall e c, (e < nc)%nat -> cpar (ce e) = Some c -> lsend (ce e) = true -> ~ dead (ce c);
}.
Unset Implicit Arguments.

Definition Live (st : state) : Prop :=
  LiveC (ncell st) (cells st) (nrcv st) (rcvs st) (sender st) (root st) (sent st).

Lemma has_rx_spec st d :
  has_rx st d = true <->
  (exists r, (r < nrcv st)%nat /\ rlive (rcvs st r) = true /\ rcell (rcvs st r) = d) \/
  (exists e, (e < ncell st)%nat /\ lsend (cells st e) = true /\ cpar (cells st e) = Some d).
Proof.
  unfold has_rx, rx_at, fwd_at, par_is. rewrite orb_true_iff, !existsb_exists.
  split; (intros [(k & A & B)|(k & A & B)]; [left|right]; exists k).
  - apply in_seq in A. apply andb_true_iff in B as (B & C). apply Nat.eqb_eq in C. repeat split; auto; lia.
  - apply in_seq in A. apply andb_true_iff in B as (B & C). destruct (cpar (cells st k)); [|discriminate].
    apply Nat.eqb_eq in C. subst. repeat split; auto; lia.
  - destruct B as (-> & <-). rewrite in_seq, Nat.eqb_refl. split; [lia|reflexivity].
  - destruct B as (-> & ->). rewrite in_seq, Nat.eqb_refl. split; [lia|reflexivity].
Qed.

Lemma last_cons_default {A} (a : A) l d : last (a :: l) d = last l a.
Proof. revert a. induction l as [|b l IH]; intros a; [reflexivity|]. cbn [last] in *. destruct l; auto. Qed.

Lemma no_eof_in l : no_eof l = true <-> ~ In MEof l.
Proof.
  unfold no_eof. rewrite forallb_forall. split.
  - intros H Hin. specialize (H _ Hin). discriminate.
  - intros H m Hin. destruct m; auto; contradiction.
Qed.

(** what [LiveLink] reads of the parent: version, index, closure and end *)
Lemma child_parent (pr pr' : Prop) y x x' :
  cver x <= cver x' -> (cver x' = cver x -> idx x' = idx x) ->
  (cclosed x = true -> cclosed x' = true /\ cver x' = cver x /\ (pr \/ lfin x = true -> pr' \/ lfin x' = true)) ->
  LiveLink pr y x -> LiveLink pr' y x'.
Proof.
  intros Hv Hi Hc [A B C D E F G H I J].
  assert (Hf : fed_out pr y x -> fed_out pr' y x').
  { intros (F1 & F2 & F3 & F4). destruct (Hc F2) as (K1 & K2 & K3). repeat split; auto. congruence. }
  split; auto.
  - clear - B Hv. lia.
  - intros Hs. assert (cver x' = cver x) as Ev by (clear - B Hv Hs; lia). rewrite (Hi Ev). apply C. clear - Ev Hs. lia.
  - intros Hf'. destruct (H Hf') as (H1 & H2 & H3). auto.
Qed.

Lemma child_keep pr y x x' :
  cver x' = cver x -> cval x' = cval x -> (cclosed x = true -> cclosed x' = true) -> (lfin x = true -> lfin x' = true) ->
  LiveLink pr y x -> LiveLink pr y x'.
Proof. intros E1 E2 Hc Hf. apply child_parent; unfold idx; rewrite ?E1, ?E2; auto; [apply N.le_refl|tauto]. Qed.

Lemma child_store (pr pr' : Prop) y x x' :
  cclosed x = false -> cver x' = cver x + 1 -> LiveLink pr y x -> LiveLink pr' y x'.
Proof. intros E1 E3. apply child_parent; try lia. congruence. Qed.

Section LiveOps.
  Context {nc : nat} {ce : nat -> cell} {nr : nat} {rc : nat -> rcv} {sd : option nat} {rt : nat} {s : list N}.
  Hypothesis (Hl : LiveC nc ce nr rc sd rt s) (Hs : SafeC nc ce nr rc sd s).

  Lemma self_parent d c : (d < nc)%nat -> cpar (ce d) = Some c -> c <> d.
  Proof. intros Hd Hp ->. destruct (sf_link Hs Hd Hp) as (_ & H & _). lia. Qed.

  Lemma Live_cerr d : (d < nc)%nat -> cerr (ce d) = false.
  Proof.
    intros Hd. destruct (cpar (ce d)) as [c|] eqn:E.
    - apply (ll_noerr _ _ _ (lv_link Hl Hd E)).
    - rewrite (lv_uniq Hl Hd E). apply (lv_top Hl).
  Qed.

  Definition norx (d : nat) : Prop :=
    (forall r, (r < nr)%nat -> rlive (rc r) = true -> rcell (rc r) <> d) /\
    (forall e, (e < nc)%nat -> lsend (ce e) = true -> cpar (ce e) <> Some d).

  Lemma LiveC_cell d x' sd' s' :
    (d < nc)%nat -> cpar x' = cpar (ce d) -> clevel x' = clevel (ce d) ->
    (lsend x' = true -> lsend (ce d) = true) ->
    (forall q y, LiveLink q y (ce d) -> LiveLink q y x') ->
    (dead x' -> dead (ce d) \/ norx d) ->
    match cpar (ce d) with
    | Some c => LiveLink (c = rt) x' (ce c) /\ s' = s /\ sd' = sd
    | None => idx x' + 1 = len s' /\ cerr x' = false /\ (sd' = sd \/ sd' = None) /\
              cclosed x' = match sd' with Some _ => false | None => true end
    end ->
    LiveC nc (upd ce d x') nr rc sd' rt s'.
  Proof.
    intros Hd Hp Hlv Hsd Hch Hdead Hx. assert (Hself := fun c => self_parent d c Hd).
    destruct Hl as [(R1 & R2) U S O T Lv L Xr Xf]. clear Hl Hs.
    assert (Hdd : forall e, dead (upd ce d x' e) -> e = d /\ norx d \/ dead (ce e)).
    { intros e. upd_at e d; auto. intros Hde. destruct (Hdead Hde); auto. }
    assert (Hrcv : forall r, (r < nr)%nat -> rlive (rc r) = true -> ~ dead (upd ce d x' (rcell (rc r)))).
    { intros r Hr Hlr Hde. destruct (Hdd _ Hde) as [(E & N & _)|?]; [now apply (N r)|now apply (Xr r)]. }
    assert (Hfwd : forall e c, (e < nc)%nat -> cpar (upd ce d x' e) = Some c -> lsend (upd ce d x' e) = true ->
                               ~ dead (upd ce d x' c)).
    { intros e c He Hpe Hse Hde. assert (lsend (ce e) = true /\ cpar (ce e) = Some c) as (Hse' & Hpe').
      { revert Hpe Hse. upd_at e d; auto. intros Hpe Hse. split; auto; congruence. }
      destruct (Hdd _ Hde) as [(-> & _ & N)|?]; [now apply (N e)|now apply (Xf e c)]. }
    destruct (cpar (ce d)) as [c|] eqn:Ep.
    - destruct Hx as (Hx & -> & ->). assert (Hne : rt <> d) by congruence.
      split; rewrite ?(upd_other _ d _ rt Hne); auto.
      + intros e He. upd_at e d; auto. congruence.
      + intros e He. upd_at e d; rewrite ?Hlv; auto.
      + intros e k He. upd_at e d; intros Hpe.
        * assert (k = c) as -> by congruence. now rewrite upd_other by auto.
        * upd_at k d; auto. subst k. auto.
    - assert (d = rt) as -> by auto. destruct Hx as (Hx1 & Hx2 & Hx3 & Hx4).
      split; rewrite ?upd_same; auto.
      + intros e He. upd_at e rt; auto.
      + intros k ->. destruct Hx3 as [<-|?]; [auto|discriminate].
      + intros e He. upd_at e rt; rewrite ?Hlv; auto.
      + intros e k He. upd_at e rt; intros Hpe; [congruence|]. upd_at k rt; auto. subst k. auto.
  Qed.

  Lemma LiveC_rcvs nr' rc' :
    (forall q, (q < nr')%nat -> rlive (rc' q) = true -> ~ dead (ce (rcell (rc' q)))) -> LiveC nc ce nr' rc' sd rt s.
  Proof. destruct Hl. intros H. now split. Qed.

  Lemma LiveC_add_cell x' c :
    (c < nc)%nat -> cpar x' = Some c -> clevel x' = (clevel (ce c) + 1)%Z -> lrecv x' = true ->
    LiveLink (c = rt) x' (ce c) -> ~ dead (ce c) -> LiveC (S nc) (upd ce nc x') nr rc sd rt s.
  Proof.
    destruct Hl as [(R1 & R2) U Sd O T Lv L Xr Xf]. intros Hc Hp Hlv Hr Hlk Hnd.
    assert (Hpar : forall e k, (e < nc)%nat -> cpar (ce e) = Some k -> k <> nc).
    { intros e k He Hk. destruct (sf_link Hs He Hk) as (Hk' & _). clear - Hk'. lia. }
    assert (Hrc : forall r, (r < nr)%nat -> rcell (rc r) <> nc) by (intros r Hr'; destruct (sf_rcv Hs Hr') as (A & _); clear - A; lia).
    assert (Hlt : forall e, (e < S nc)%nat -> e <> nc -> (e < nc)%nat) by (clear; lia).
    assert (Hrt : rt <> nc) by (clear - R1; lia). assert (Hcn : c <> nc) by (clear - Hc; lia). clear Hl Hs.
    split; rewrite ?(upd_other _ nc _ rt Hrt); auto.
    - intros e He. upd_at e nc; auto. congruence.
    - intros e He. upd_at e nc; auto. rewrite Hlv. specialize (Lv c Hc). clear - Lv. lia.
    - intros e k He. upd_at e nc; intros Hpe.
      + assert (k = c) as -> by congruence. now rewrite upd_other.
      + rewrite upd_other by eauto. auto.
    - intros r Hr' Hlr. rewrite upd_other by auto. auto.
    - intros e k He. upd_at e nc; intros Hpe Hse.
      + assert (k = c) as -> by congruence. now rewrite upd_other.
      + rewrite upd_other by eauto. eauto.
  Qed.

  Lemma LiveC_move_sender :
    sd = Some rt ->
    LiveC (S nc) (upd (upd ce nc (tx_root (ce rt))) rt (tx_child (ce rt) nc)) nr rc (Some nc) nc s.
  Proof.
    destruct Hl as [(R1 & R2) U _ Hcl T Lv L Xr Xf]. intros ->.
    assert (Hpar : forall e k, (e < nc)%nat -> cpar (ce e) = Some k -> k <> nc).
    { intros e k He Hk. destruct (sf_link Hs He Hk) as (Hk' & _). clear - Hk'. lia. }
    assert (Hrc : forall r, (r < nr)%nat -> rcell (rc r) <> nc) by (intros r Hr'; destruct (sf_rcv Hs Hr') as (A & _); clear - A; lia).
    assert (Hlt : forall e, (e < S nc)%nat -> e <> nc -> (e < nc)%nat) by (clear; lia).
    assert (Hn : nc <> rt) by (clear - R1; lia). clear Hl Hs.
    assert (Hnd : forall e, dead (upd (upd ce nc (tx_root (ce rt))) rt (tx_child (ce rt) nc) e) ->
                            e <> rt /\ e <> nc /\ dead (ce e)).
    { intros e. upd_at e rt; [intros (_ & ? & _); discriminate|]. upd_at e nc; [intros (? & _); easy|auto]. }
    split; rewrite ?(upd_other _ rt _ nc Hn), ?upd_same; auto.
    - intros e He. upd_at e rt; [discriminate|]. upd_at e nc; auto. intros Hp. now apply U in Hp; auto.
    - now intros c [= <-].
    - split; [apply T|reflexivity].
    - intros e He. upd_at e rt; [|upd_at e nc; [apply Z.le_refl|]]; try specialize (Lv e (Hlt e He E0));
        unfold tx_root, tx_child; prj; clear - Lv; lia.
    - intros e c He. upd_at e rt; [|upd_at e nc; [discriminate|]]; intros Hpe.
      + injection Hpe as <-. rewrite upd_other, upd_same by auto. destruct T as (_ & T2).
        split; unfold fed_out, tx_root, tx_child, idx; prj;
          cbn [val_idxs flat_map removelast no_eof no_err forallb last In]; auto; easy.
      + specialize (L _ _ (Hlt e He E0) Hpe). revert L. upd_at c rt.
        * (* the children of the old root: it is open *)
          apply child_parent; unfold tx_child, idx; prj; auto; [apply N.le_refl|congruence].
        * rewrite upd_other by eauto. apply child_parent; auto; [apply N.le_refl|]. intros ?. repeat split; auto. tauto.
    - intros r Hr Hlr Hde. apply Hnd in Hde as (_ & _ & ?). now apply (Xr r).
    - intros e c He Hpe Hse Hde. apply Hnd in Hde as (N1 & N2 & Hde). revert Hpe Hse.
      upd_at e rt; [intros [= ?]; congruence|]. upd_at e nc; [discriminate|]. intros Hpe Hse. apply (Xf e c); auto.
  Qed.
End LiveOps.

(** the fields of [LiveLink] one by one, the propositional ones at once *)
Ltac link_fields := split; unfold idx, fed_out; prj; auto; try apply N.le_refl; try (intros; congruence).

Lemma link_step_live pr rx x pc flt x' :
  link_step rx x pc flt x' -> flt = false -> LiveLink pr x pc -> cerr pc = false ->
  (lsend x = true -> cclosed pc = true -> pr \/ lfin pc = true) ->
  LiveLink pr x' pc /\ (forall q y, LiveLink q y x -> LiveLink q y x') /\
  (lsend x' = true -> lsend x = true) /\ (dead x' -> dead x \/ rx = false).
Proof.
  intros H Hnf [A B C D E F G I J (K1 & K2)] Hce Hpar.
  assert (Hnoeof : lsend x = true -> ~ In MEof (lchan x)).
  { intros Hs Hin. destruct (G Hin). congruence. }
  assert (Hnofin : lrecv x = true \/ lsend x = true -> lfin x = false).
  { destruct (lfin x); auto. destruct (I eq_refl) as (? & _ & ? & _). intros [?|?]; congruence. }
  destruct H as [Hsd|Hsd|Hsd|v rest Hr Hch|rest Hch|Hr Hrx|rest Hr Hch|]; try discriminate;
    try (apply andb_true_iff in Hsd as (Hsd & G2)); try (apply andb_true_iff in Hsd as (Hsd & G3));
    try (assert (Hf : lfin x = false) by (apply Hnofin; auto)); unfold dead, idx, fed_out in *;
    (split; [|split; [intros q y; try (apply child_keep; prj; auto; fail)|]]); prj; auto.
  - unfold msg_of. rewrite Hce. destruct (lrecv x) eqn:Hr; link_fields.
    + intros _. rewrite val_idxs_app. apply last_last.
    + rewrite removelast_last. now apply no_eof_in, Hnoeof.
    + intros Hin. apply in_app_iff in Hin as [Hin|[Hin|[]]]; [|discriminate]. destruct (Hnoeof Hsd Hin).
    + split; auto. unfold no_err in *. now rewrite forallb_app, K2.
    + intros Hin. destruct (Hnoeof Hsd Hin).
  - apply N.eqb_eq in G3. destruct (lrecv x) eqn:Hr; link_fields.
    + intros _. rewrite val_idxs_app. cbn. rewrite app_nil_r. auto.
    + intros _ _. apply in_or_app. right. now left.
    + rewrite removelast_last. now apply no_eof_in, Hnoeof.
    + split; auto. unfold no_err in *. now rewrite forallb_app, K2.
  - apply negb_true_iff in G2. link_fields. intros Hin. destruct (Hnoeof Hsd Hin).
  - rewrite Hch in D, E, F, G, K2. specialize (D Hr). cbn [val_idxs flat_map app] in D. rewrite last_cons_default in D.
    link_fields.
    + intros _ Hs. destruct (E Hr Hs) as [?|?]; [discriminate|auto].
    + destruct rest; auto.
    + cbn in G. auto.
  - apply child_store; prj; auto. now rewrite A, Hr.
  - rewrite Hch in K2. discriminate.
  - rewrite Hch in K2. discriminate.
  - link_fields. intros [].
  - rewrite Hch in D, E, F, G, K2. assert (rest = []) as -> by (destruct rest; [auto|discriminate]).
    specialize (D Hr). cbn in D. destruct (G (or_introl eq_refl)) as (G1 & G2 & G3 & G4).
    link_fields.
  - split; auto. intros (_ & _ & ?). discriminate.
Qed.

Lemma Live_init p : Live (init p).
Proof.
  split; cbn [init ncell cells nrcv rcvs sender sent root]; try discriminate.
  - split; [lia|reflexivity].
  - intros d Hd _. lia.
  - now intros c [= <-].
  - reflexivity.
  - split; reflexivity.
  - intros r _ _ (H & _). now apply H.
Qed.

Lemma has_rx_alive st d c :
  Live st -> cpar (cells st d) = Some c -> has_rx st d = true ->
  lrecv (cells st d) = true \/ lfin (cells st d) = true.
Proof.
  intros Hl Hp Hrx. assert (Hnd : ~ dead (cells st d)).
  { apply has_rx_spec in Hrx as [(r & Hr & A & <-)|(e & He & A & B)]; [now apply (lv_rcv Hl Hr)|now apply (lv_fwd Hl He B)]. }
  unfold dead in Hnd. rewrite Hp in Hnd. destruct (lrecv (cells st d)), (lfin (cells st d)); auto.
  destruct Hnd. repeat split; congruence.
Qed.

Lemma Live_step st a st' : Live st -> Safe st -> is_fault a = false -> step st a = Some st' -> Live st'.
Proof.
  intros Hl Hs Hnf H.
  destruct (step_inv _ _ _ H) as [a|c p a E|c E|c E|r Hr Hlr|r a seen show live Hr Hlr|r Hr Hlr p|c E Ep|d c a x' Hd Hp Hx];
    unfold Live, Safe in *; prj; auto;
    try (pose proof (lv_open Hl) as Hcl; rewrite E in Hcl; pose proof (lv_sender Hl E) as ->; destruct (lv_root Hl) as (R1 & R2)).
  - apply (LiveC_cell Hl Hs); prj; auto; [|rewrite R2, E].
    + intros q y. apply child_parent; prj; auto; try lia; congruence.
    + unfold idx. prj. rewrite len_app. destruct (lv_top Hl). repeat split; auto.
  - apply (LiveC_cell Hl Hs); prj; auto; [|rewrite R2].
    + intros q y. apply child_parent; prj; auto; try lia.
    + destruct (lv_top Hl). auto.
  - apply (LiveC_rcvs Hl). intros q Hq. upd_at q (nrcv st); [prj; intros _ (? & _); congruence|apply (lv_rcv Hl); lia].
  - apply (LiveC_rcvs Hl). intros q Hq. upd_at q (nrcv st); [prj; intros _; now apply (lv_rcv Hl Hr)|apply (lv_rcv Hl); lia].
  - apply (LiveC_rcvs Hl). intros q Hq. upd_at q r; [|now apply (lv_rcv Hl)].
    intros _. apply (lv_rcv Hl Hr Hlr).
  - pose proof (lv_rcv Hl Hr Hlr) as Hnd. destruct (sf_rcv Hs Hr) as (Hc & _). fold p in Hnd, Hc.
    eapply LiveC_rcvs; [eapply (LiveC_add_cell Hl Hs (rx_cell (cells st p) p) p); auto|].
    + pose proof (Live_cerr Hl p Hc).
      split; unfold fed_out, rx_cell, idx; prj; cbn [val_idxs flat_map removelast no_eof no_err forallb last In]; auto; try lia; try easy.
    + intros q Hq. upd_at q (nrcv st); [intros _ (_ & ? & _); discriminate|].
      intros Hlq. rewrite upd_other by (destruct (sf_rcv Hs (r := q)); lia). apply (lv_rcv Hl); auto. lia.
  - now apply (LiveC_move_sender Hl Hs).
  - pose proof (lv_link Hl Hd Hp) as LL. destruct (sf_link Hs Hd Hp) as (Hc & _).
    destruct (link_step_frame _ _ _ _ _ Hx) as (F1 & F2 & _).
    destruct (link_step_live _ _ _ _ _ _ Hx Hnf LL (Live_cerr Hl c Hc)) as (L1 & L2 & L3 & L4).
    { (* the parent of a running [send_impl] is closed only if it is the root or ended regularly *)
      intros Hsd Hcl. destruct (cpar (cells st c)) as [k|] eqn:Ek; [right|left; apply (lv_uniq Hl Hc Ek)].
      pose proof (lv_fwd Hl Hd Hp Hsd) as Hnd. pose proof (ll_closed _ _ _ (lv_link Hl Hc Ek)) as Hk.
      unfold dead in Hnd. rewrite Ek in Hnd. rewrite Hcl in Hk. destruct (lrecv (cells st c)), (lfin (cells st c)); auto; try discriminate.
      destruct Hnd. repeat split; congruence. }
    apply (LiveC_cell Hl Hs); auto.
    + intros Hde. destruct (L4 Hde) as [?|Hrx]; auto. right.
      split; intros k Hk A B; assert (has_rx st d = true) by (apply has_rx_spec; eauto); congruence.
    + rewrite Hp. auto.
Qed.

Lemma Live_run acts : forall st st',
  Live st -> Safe st -> no_fault acts = true -> run acts st = Some st' -> Live st' /\ Safe st'.
Proof.
  induction acts as [|a acts IH]; cbn [run no_fault forallb]; intros st st' Hl Hs Hnf H.
  - injection H as <-. auto.
  - apply andb_true_iff in Hnf as (Ha & Hnf). apply negb_true_iff in Ha.
    destruct (step st a) eqn:E; [|discriminate]. apply (IH s); eauto using Safe_step, Live_step.
Qed.

Lemma quiescent_link st d c :
  quiescent st = true -> (d < ncell st)%nat -> cpar (cells st d) = Some c ->
  let x := cells st d in let pc := cells st c in
  (lsend x = true -> lseen x = cver pc /\ cclosed pc = false /\ lrecv x = true) /\
  (lrecv x = true -> lchan x = [] /\ has_rx st d = true).
Proof.
  unfold quiescent. rewrite forallb_forall. intros Hq Hd Hp. specialize (Hq d).
  assert (Hin : In d (seq 0 (ncell st))) by (apply in_seq; lia). apply Hq in Hin. clear Hq.
  apply negb_true_iff in Hin. unfold fwd_enabled in Hin. rewrite Hp in Hin.
  repeat (apply orb_false_iff in Hin; destruct Hin as (Hin & ?)).
  cbn zeta. split.
  - intros Hs. rewrite Hs in *. cbn [andb] in *.
    destruct (N.eqb_spec (lseen (cells st d)) (cver (cells st c))); [|discriminate]. cbn [andb] in *.
    apply negb_false_iff in H1. auto.
  - intros Hr. rewrite Hr in *. cbn [andb] in *. apply negb_false_iff in H. split; auto.
    destruct (lchan (cells st d)); auto. discriminate.
Qed.

Definition good (st : state) (d : nat) : Prop :=
  d = root st \/ has_rx st d = true \/ lfin (cells st d) = true.

Lemma synced_level st :
  Live st -> Safe st -> quiescent st = true ->
  forall n d, (d < ncell st)%nat -> (clevel (cells st d) - clevel (cells st (root st)) <= Z.of_nat n)%Z ->
  good st d -> idx (cells st d) + 1 = len (sent st).
Proof.
  intros Hl Hs Hq. induction n as [|n IH]; intros d Hd Hlev Hg;
    (destruct (cpar (cells st d)) as [c|] eqn:Ep; [|rewrite (lv_uniq Hl Hd Ep); apply (lv_top Hl)]);
    destruct (sf_link Hs Hd Ep) as (Hc & Hlv & _).
  - (* level 0: only the root *)
    pose proof (lv_level Hl Hc). lia.
  - pose proof (lv_link Hl Hd Ep) as LL.
    destruct (quiescent_link _ _ _ Hq Hd Ep) as (Q1 & Q2). cbn zeta in *.
    assert (Hup : good st c -> idx (cells st c) + 1 = len (sent st)) by (apply IH; auto; lia).
    assert (Hfin : lfin (cells st d) = true -> idx (cells st d) + 1 = len (sent st)).
    { intros Hf. destruct (ll_fin _ _ _ LL Hf) as (_ & F5 & _ & _ & F4 & F6).
      rewrite F5, (ll_taken _ _ _ LL F4). apply Hup. destruct F6 as [->|F6]; [left; auto|right; right; auto]. }
    destruct Hg as [->|[Hrx|Hf]]; auto.
    + destruct (lv_root Hl). congruence.
    + destruct (has_rx_alive _ _ _ Hl Ep Hrx) as [Hr|Hf]; auto.
      destruct (Q2 Hr) as (Hch & _).
      destruct (lsend (cells st d)) eqn:Hsd.
      * destruct (Q1 eq_refl) as (Hseen & _ & _).
        pose proof (ll_last _ _ _ LL Hr) as Hlast. rewrite Hch in Hlast. cbn in Hlast.
        rewrite Hlast, (ll_taken _ _ _ LL Hseen). apply Hup.
        right. left. apply has_rx_spec. right. exists d. auto.
      * pose proof (ll_eofin _ _ _ LL Hr Hsd) as Hin. rewrite Hch in Hin. destruct Hin.
Qed.

Lemma nth_last (l : list N) x d : nth_error l (length l - 1) = Some x -> last l d = x.
Proof.
  destruct l as [|a l] using rev_ind; [discriminate|].
  rewrite app_length, last_last. cbn [length]. rewrite nth_error_app2 by lia.
  replace (length l + 1 - 1 - length l)%nat with 0%nat by lia. cbn. congruence.
Qed.

(** in a quiescent state reached without faults every cell that still has a receiver (a handle or
    a forwarding task), or whose feed ended regularly, holds the value stored last *)
Lemma synced st d :
  Live st -> Safe st -> quiescent st = true -> (d < ncell st)%nat -> good st d ->
  cval (cells st d) = latest st /\ cerr (cells st d) = false.
Proof.
  intros Hl Hs Hq Hd Hg. split; [|apply (Live_cerr Hl); auto].
  pose proof (lv_level Hl Hd) as Hlev.
  assert (Hi : idx (cells st d) + 1 = len (sent st)).
  { apply (synced_level _ Hl Hs Hq (Z.to_nat (clevel (cells st d) - clevel (cells st (root st)))) d); auto. lia. }
  destruct (sf_cell Hs Hd) as (Hv & _). unfold val_ok in Hv. unfold idx, latest, len in *.
  destruct (cval (cells st d)) as (i, p). cbn [fst snd] in *. f_equal; [lia|].
  symmetry. apply nth_last. rewrite <- Hv. f_equal. lia.
Qed.

Theorem latest_at_quiescence acts p st r :
  run acts (init p) = Some st -> no_fault acts = true -> quiescent st = true ->
  (r < nrcv st)%nat -> rlive (rcvs st r) = true ->
  cval (cells st (rcell (rcvs st r))) = latest st /\ cerr (cells st (rcell (rcvs st r))) = false.
Proof.
  intros H Hnf Hq Hr Hlive.
  destruct (Live_run _ _ _ (Live_init p) (Safe_init p) Hnf H) as (Hl & Hs).
  destruct (sf_rcv Hs Hr) as (Hc & _).
  apply synced; auto. right. left. apply has_rx_spec. left. exists r. auto.
Qed.

Lemma fwd_enabled_step st d :
  (d < ncell st)%nat -> fwd_enabled st d = true ->
  exists a st', is_fwd a = true /\ step st a = Some st'.
Proof.
  intros Hd H. unfold fwd_enabled in H. destruct (cpar (cells st d)) as [c|] eqn:Ep; [|discriminate].
  assert (Hlk : linked st d = Some (cells st d, c)).
  { unfold linked. destruct (Nat.ltb_spec d (ncell st)); [|lia]. now rewrite Ep. }
  repeat (apply orb_true_iff in H; destruct H as [H|H]).
  - exists (FwdTake d). cbn [step is_fwd]. rewrite Hlk, H. eauto.
  - exists (FwdEnd d). cbn [step is_fwd]. rewrite Hlk, H. eauto.
  - exists (FwdStop d). cbn [step is_fwd]. rewrite Hlk, H. eauto.
  - exists (FwdDeliver d). cbn [step is_fwd]. rewrite Hlk. apply andb_true_iff in H as (H1 & H2). rewrite H1.
    destruct (lchan (cells st d)) as [|m l]; [discriminate|].
    destruct m; [destruct (has_rx st d)|destruct (has_rx st d)|]; eauto.
  - exists (RecvStop d). cbn [step is_fwd]. rewrite Hlk, H. eauto.
Qed.

Lemma forallb_false {A} (f : A -> bool) l : forallb f l = false -> exists x, In x l /\ f x = false.
Proof.
  induction l as [|a l IH]; cbn [forallb]; [discriminate|].
  destruct (f a) eqn:E; cbn [andb]; intros H.
  - destruct (IH H) as (x & Hin & Hx). exists x. split; auto. now right.
  - exists a. split; auto. now left.
Qed.

(** if a cell that still has a receiver is behind, some forwarding task can take a step *)
Theorem progress acts p st r :
  run acts (init p) = Some st -> no_fault acts = true ->
  (r < nrcv st)%nat -> rlive (rcvs st r) = true ->
  cval (cells st (rcell (rcvs st r))) <> latest st ->
  exists a st', is_fwd a = true /\ step st a = Some st'.
Proof.
  intros H Hnf Hr Hlive Hne. destruct (quiescent st) eqn:Hq.
  - destruct (latest_at_quiescence _ _ _ _ H Hnf Hq Hr Hlive). contradiction.
  - unfold quiescent in Hq. apply forallb_false in Hq.
    destruct Hq as (d & Hin & Hd). apply in_seq in Hin. apply negb_false_iff in Hd.
    apply (fwd_enabled_step st d); auto. lia.
Qed.

(** big steps are small steps *)
Lemma quiesce_sound fuel : forall st,
  exists acts, run acts st = Some (quiesce fuel st) /\ no_fault acts = true.
Proof.
  induction fuel as [|f IH]; cbn [quiesce]; intros st; [now exists []|].
  destruct (quiescent st); [now exists []|].
  destruct (otry_run step (pass_acts (ncell st)) st) as (a1 & Hi & H1).
  destruct (IH (try_steps (pass_acts (ncell st)) st)) as (a2 & H2 & N2).
  exists (a1 ++ a2). split.
  - change (orun step (a1 ++ a2) st = Some (quiesce f (try_steps (pass_acts (ncell st)) st))).
    rewrite orun_app, H1. exact H2.
  - unfold no_fault in *. rewrite forallb_app, N2, andb_true_r. apply forallb_forall. intros a Ha.
    apply Hi, in_flat_map in Ha as (d & _ & Ha). cbn in Ha. now repeat (destruct Ha as [<-|Ha]; [reflexivity|]).
Qed.

Lemma sent_frozen acts st st' : sender st = None -> run acts st = Some st' -> sender st' = None /\ sent st' = sent st.
Proof.
  intros Hn. apply (orun_inv step (fun s => sender s = None /\ sent s = sent st)); auto.
  intros s a s' (A & B) H. destruct (step_inv _ _ _ H); prj; auto; congruence.
Qed.

(** the value sent immediately before the sender is dropped is what every live receiver shows at quiescence *)
Theorem latest_after_drop acts1 acts2 p q st1 st r :
  run acts1 (init p) = Some st1 -> send_ok st1 = true ->
  run (Send q :: DropSender :: acts2) st1 = Some st ->
  no_fault (acts1 ++ acts2) = true -> quiescent st = true ->
  (r < nrcv st)%nat -> rlive (rcvs st r) = true ->
  snd (cval (cells st (rcell (rcvs st r)))) = q /\ cerr (cells st (rcell (rcvs st r))) = false.
Proof.
  intros H1 Hok H2 Hnf Hq Hr Hlive.
  assert (Hrun : run (acts1 ++ Send q :: DropSender :: acts2) (init p) = Some st).
  { change (orun step (acts1 ++ Send q :: DropSender :: acts2) (init p) = Some st). now rewrite orun_app, (H1 : orun step _ _ = _). }
  assert (Hnf' : no_fault (acts1 ++ Send q :: DropSender :: acts2) = true).
  { unfold no_fault in *. rewrite forallb_app in *. apply andb_true_iff in Hnf as (-> & Hb). cbn. exact Hb. }
  destruct (latest_at_quiescence _ _ _ _ Hrun Hnf' Hq Hr Hlive) as (Hv & He). split; auto.
  rewrite Hv. unfold latest. cbn [snd].
  cbn [run step] in H2. unfold send_ok in Hok. destruct (sender st1) as [c|] eqn:Es; [|discriminate].
  rewrite Hok in H2. cbn [step] in H2. cbn [sender do_send set_cell set RecordSet.set] in H2. rewrite Es in H2.
  match type of H2 with run _ ?s = _ => destruct (sent_frozen acts2 s st eq_refl H2) as (_ & ->) end.
  prj. apply last_last.
Qed.

(** no lost wake-up: while the cell holds a value with another index than the one current when the handle
    last marked a version seen, a poll of [changed()] answers [Ok] (rule T1) *)
Theorem no_lost_wakeup acts p st r :
  run acts (init p) = Some st -> (r < nrcv st)%nat ->
  rsidx (rcvs st r) <> fst (cval (cells st (rcell (rcvs st r)))) ->
  changed_res st r = ChOk.
Proof.
  intros H Hr Hne. destruct (sf_rcv (Safe_run _ _ _ (Safe_init p) H) Hr) as (_ & _ & _ & _ & _ & B).
  unfold changed_res. destruct (N.eqb_spec (rseen (rcvs st r)) (cver (cells st (rcell (rcvs st r))))); auto.
  destruct Hne. now apply B.
Qed.
