(** Proofs about [Rch/Ports.v] (property C05). *)
From Remoc Require Import Lib.Base Gen.Halves Rch.Ports.

Lemma nodup_app_l {A} (l1 l2 : list A) : NoDup (l1 ++ l2) -> NoDup l1.
Proof.
  induction l1 as [|x l1 IH]; cbn [app]; [constructor|].
  intros H. inversion H as [|? ? Hn ND]; subst. constructor; [|auto].
  intros Hc. apply Hn. apply in_or_app. now left.
Qed.

Lemma nodup_app_disj {A} (l1 l2 : list A) x : NoDup (l1 ++ l2) -> In x l1 -> In x l2 -> False.
Proof.
  induction l1 as [|y l1 IH]; cbn [app]; [intros _ []|].
  intros H [->|H1] H2; inversion H as [|? ? Hn ND]; subst; [|eauto].
  apply Hn. apply in_or_app. now right.
Qed.

Lemma nodup_app_mid {A} (l1 l2 l3 : list A) : NoDup ((l1 ++ l2) ++ l3) -> NoDup (l1 ++ l3).
Proof.
  rewrite <- app_assoc. induction l2 as [|x l2 IH]; cbn [app]; [auto|]. intros H. apply IH. eapply NoDup_remove_1, H.
Qed.

Lemma in_assoc_nodup {A} k (v : A) m : NoDup (map fst m) -> In (k, v) m -> assoc k m = Some v.
Proof.
  induction m as [|[k' v'] m IH]; cbn [assoc map fst]; [intros _ []|].
  intros ND [H|H].
  - injection H as -> ->. now rewrite N.eqb_refl.
  - inversion ND as [|? ? Hn ND']; subst.
    destruct (k' =? k) eqn:E.
    + apply N.eqb_eq in E. subst. exfalso. apply Hn. apply in_map_iff. now exists (k, v).
    + auto.
Qed.

Lemma assoc_none_notin {A} k (m : list (N * A)) : assoc k m = None <-> ~ In k (map fst m).
Proof.
  induction m as [|[k' v'] m IH]; cbn [assoc map fst].
  - split; auto.
  - destruct (k' =? k) eqn:E.
    + apply N.eqb_eq in E. subst. split; [discriminate|]. intros H. exfalso. apply H. now left.
    + apply N.eqb_neq in E. rewrite IH. split.
      * intros H [H1|H1]; [now apply E|now apply H].
      * intros H H1. apply H. now right.
Qed.

Lemma assoc_remove_same {A} k (m : list (N * A)) : assoc k (remove k m) = None.
Proof.
  induction m as [|[k' v'] m IH]; cbn [remove assoc]; [reflexivity|].
  destruct (k' =? k) eqn:E; [exact IH|]. cbn [assoc]. now rewrite E.
Qed.

Lemma assoc_remove_other {A} k k' (m : list (N * A)) : k <> k' -> assoc k' (remove k m) = assoc k' m.
Proof.
  intros Hne. induction m as [|[k2 v2] m IH]; cbn [remove assoc]; [reflexivity|].
  destruct (k2 =? k) eqn:E.
  - apply N.eqb_eq in E. subst. rewrite IH.
    destruct (k =? k') eqn:E2; [apply N.eqb_eq in E2; contradiction|reflexivity].
  - cbn [assoc]. now rewrite IH.
Qed.

Lemma assoc_insert_same {A} k (v : A) m : assoc k (insert k v m) = Some v.
Proof. unfold insert. cbn [assoc]. now rewrite N.eqb_refl. Qed.

Lemma assoc_insert_other {A} k k' (v : A) m : k <> k' -> assoc k' (insert k v m) = assoc k' m.
Proof.
  intros Hne. unfold insert. cbn [assoc].
  destruct (k =? k') eqn:E; [apply N.eqb_eq in E; contradiction|]. now apply assoc_remove_other.
Qed.

Lemma remove_keys_incl {A} k (m : list (N * A)) x : In x (map fst (remove k m)) -> In x (map fst m) /\ x <> k.
Proof.
  induction m as [|[k' v'] m IH]; cbn [remove map fst]; [intros []|].
  destruct (k' =? k) eqn:E.
  - intros H. destruct (IH H). split; [now right|assumption].
  - apply N.eqb_neq in E. cbn [map fst]. intros [H|H].
    + subst. split; [now left|assumption].
    + destruct (IH H). split; [now right|assumption].
Qed.

Lemma remove_keys_other {A} k (m : list (N * A)) x : In x (map fst m) -> x <> k -> In x (map fst (remove k m)).
Proof.
  induction m as [|[k' v'] m IH]; cbn [remove map fst]; [intros []|].
  intros [H|H] Hne.
  - subst. destruct (x =? k) eqn:E; [apply N.eqb_eq in E; contradiction|]. now left.
  - destruct (k' =? k); [exact (IH H Hne)|]. right. exact (IH H Hne).
Qed.

Lemma concat_chunks {A} sizes (l : list A) : reassemble (chunks sizes l) = l.
Proof.
  unfold reassemble. revert l. induction sizes as [|s ss IH]; intros l; cbn [chunks concat].
  - now rewrite app_nil_r.
  - rewrite IH. apply firstn_skipn.
Qed.

Lemma forward_hop_ports ins ps outs tab :
  forward_hop ins ps = Some (outs, tab) -> exists ps2, ps = map r_port outs ++ ps2.
Proof.
  revert ps outs tab. induction ins as [|r ins IH]; intros ps outs tab; cbn [forward_hop].
  - intros [= <- <-]. now exists ps.
  - destruct ps as [|p ps']; [discriminate|].
    destruct (forward_hop ins ps') as [[o t]|] eqn:E; [|discriminate].
    intros [= <- <-]. destruct (IH _ _ _ E) as [ps2 ->]. now exists ps2.
Qed.

Lemma forward_hop_tab_keys ins ps outs tab :
  forward_hop ins ps = Some (outs, tab) -> map fst tab = map r_port outs.
Proof.
  revert ps outs tab. induction ins as [|r ins IH]; intros ps outs tab; cbn [forward_hop].
  - now intros [= <- <-].
  - destruct ps as [|p ps']; [discriminate|].
    destruct (forward_hop ins ps') as [[o t]|] eqn:E; [|discriminate].
    intros [= <- <-]. cbn [map fst r_port]. f_equal. eauto.
Qed.

Lemma Forall2_impl_in {A B} (P Q : A -> B -> Prop) l1 l2 :
  (forall a b, In a l1 -> P a b -> Q a b) -> Forall2 P l1 l2 -> Forall2 Q l1 l2.
Proof.
  intros H F. induction F as [|a b l1 l2 HP F IH]; constructor.
  - apply H; [now left|exact HP].
  - apply IH. intros a' b' Hin. apply H. now right.
Qed.

Lemma Forall2_in_l {A B} (P : A -> B -> Prop) l1 l2 a :
  Forall2 P l1 l2 -> In a l1 -> exists b, In b l2 /\ P a b.
Proof.
  intros F. induction F as [|a' b l1 l2 HP F IH]; [intros []|].
  intros [<-|H]; [exists b; split; [now left|exact HP]|].
  destruct (IH H) as [b' [H1 H2]]. exists b'. split; [now right|exact H2].
Qed.

Lemma Forall2_map_eq {A B C} (f : A -> C) (g : B -> C) l1 l2 :
  Forall2 (fun a b => f a = g b) l1 l2 -> map f l1 = map g l2.
Proof. intros F. induction F; cbn [map]; congruence. Qed.

Lemma forward_hop_spec ins ps outs tab :
  forward_hop ins ps = Some (outs, tab) -> NoDup ps ->
  Forall2 (fun o r => r_id o = r_id r /\ assoc (r_port o) tab = Some r) outs ins /\
  NoDup (map r_port outs).
Proof.
  revert ps outs tab. induction ins as [|r ins IH]; intros ps outs tab; cbn [forward_hop].
  - intros [= <- <-] _. split; constructor.
  - destruct ps as [|p ps']; [discriminate|].
    destruct (forward_hop ins ps') as [[o t]|] eqn:E; [|discriminate].
    intros [= <- <-] ND. inversion ND as [|? ? Hn ND']; subst.
    destruct (IH _ _ _ E ND') as [F NDo].
    destruct (forward_hop_ports _ _ _ _ E) as [ps2 Hps].
    assert (Hnp : ~ In p (map r_port o)).
    { intros Hin. apply Hn. rewrite Hps. apply in_or_app. now left. }
    split.
    + constructor.
      * cbn [r_id r_port assoc]. now rewrite N.eqb_refl.
      * eapply Forall2_impl_in; [|exact F]. cbn beta. intros a b Hin [H1 H2]. split; [exact H1|].
        cbn [assoc]. destruct (p =? r_port a) eqn:E2; [|exact H2].
        apply N.eqb_eq in E2. exfalso. apply Hnp. rewrite E2. now apply in_map.
    + cbn [map r_port]. constructor; assumption.
Qed.

Lemma Forall2_refl_all {A} (P : A -> A -> Prop) l : (forall a, P a a) -> Forall2 P l l.
Proof. intros H. induction l; constructor; auto. Qed.

Lemma Forall2_comp {A B C} (P : A -> B -> Prop) (Q : B -> C -> Prop) (R : A -> C -> Prop) l1 l2 l3 :
  (forall a b c, P a b -> Q b c -> R a c) -> Forall2 P l1 l2 -> Forall2 Q l2 l3 -> Forall2 R l1 l3.
Proof.
  intros H F. revert l3. induction F as [|a b l1 l2 HP F IH]; intros l3 G; inversion G; subst; constructor; eauto.
Qed.

Lemma trace_back_app l1 l2 p :
  trace_back (l1 ++ l2) p = match trace_back l1 p with Some p' => trace_back l2 p' | None => None end.
Proof.
  revert p. induction l1 as [|tab l1 IH]; intros p; cbn [app trace_back]; [reflexivity|].
  destruct (assoc p tab); auto.
Qed.

Definition hop_ok (h : list N * list nat) : Prop := NoDup (fst h).

(** Whatever the number of forwarders, their port choices and the batch boundaries: the requests reach
    the far end in the same order with the same ids, and following the forwarders' tables back from the
    port of a delivered request leads to the port of the origin's request at the same position. *)
Lemma route_spec hops : forall rs fin tabs,
  route rs hops = Some (fin, tabs) -> Forall hop_ok hops ->
  Forall2 (fun f r => r_id f = r_id r /\ trace_back (rev tabs) (r_port f) = Some (r_port r)) fin rs.
Proof.
  induction hops as [|[ps sizes] hops IH]; intros rs fin tabs; cbn [route].
  - intros [= <- <-] _. apply Forall2_refl_all. intros a. split; reflexivity.
  - rewrite concat_chunks.
    destruct (forward_hop rs ps) as [[outs tab]|] eqn:E1; [|discriminate].
    destruct (route outs hops) as [[fin' tabs']|] eqn:E2; [|discriminate].
    intros [= <- <-] HF. inversion HF as [|? ? Hok HF']; subst.
    destruct (forward_hop_spec _ _ _ _ E1 Hok) as [F1 _].
    specialize (IH _ _ _ E2 HF').
    eapply Forall2_comp; [|exact IH|exact F1].
    cbn beta. intros f o r [H1 H2] [H3 H4]. split; [congruence|].
    cbn [rev]. rewrite trace_back_app, H2. cbn [trace_back]. now rewrite H4.
Qed.

Fixpoint entries (pl : list (option (N * cbid))) : list (N * cbid) :=
  match pl with
  | [] => []
  | Some e :: pl' => e :: entries pl'
  | None :: pl' => entries pl'
  end.

Lemma serialize_ind (P : list leaf -> list N -> list (N * cbid) -> list (option (N * cbid)) -> Prop) :
  (forall ps, P [] ps [] []) ->
  (forall l b ls ps t pl, l_mode l = MFake b -> serialize ls ps = Some (t, pl) -> P ls ps t pl ->
     P (l :: ls) ps t (Some (b, l_cb l) :: pl)) ->
  (forall l ls p ps t pl, l_mode l = MReal \/ l_mode l = MIgnored -> serialize ls ps = Some (t, pl) -> P ls ps t pl ->
     P (l :: ls) (p :: ps) ((p, l_cb l) :: t)
       (match l_mode l with MReal => Some (p, l_cb l) | _ => None end :: pl)) ->
  forall ls ps t pl, serialize ls ps = Some (t, pl) -> P ls ps t pl.
Proof.
  intros H0 Hf Ht. induction ls as [|l ls IH]; intros ps t pl; cbn [serialize].
  - intros [= <- <-]. apply H0.
  - destruct (l_mode l) eqn:M.
    1,2: destruct ps as [|p ps']; [discriminate|];
         destruct (serialize ls ps') as [[t' pl']|] eqn:E; [|discriminate]; intros [= <- <-];
         specialize (Ht l ls p ps' t' pl'); rewrite M in Ht; apply Ht; auto.
    destruct (serialize ls ps) as [[t' pl']|] eqn:E; [|discriminate]. intros [= <- <-]. eapply Hf; eauto.
Qed.

Lemma serialize_ports : forall ls ps t pl,
  serialize ls ps = Some (t, pl) -> exists ps2, ps = map fst t ++ ps2.
Proof.
  apply serialize_ind; [intros ps; now exists ps|auto|].
  intros l ls p ps t pl _ _ [ps2 ->]. now exists ps2.
Qed.

Lemma serialize_table : forall ls ps t pl,
  serialize ls ps = Some (t, pl) ->
  forall p cb, In (p, cb) t -> exists l, In l ls /\ l_cb l = cb /\ (l_mode l = MReal \/ l_mode l = MIgnored).
Proof.
  apply (serialize_ind (fun ls ps t pl => forall p cb, In (p, cb) t ->
           exists l, In l ls /\ l_cb l = cb /\ (l_mode l = MReal \/ l_mode l = MIgnored))).
  - intros ps p cb [].
  - intros l b ls ps t pl _ _ IH p cb H. destruct (IH _ _ H) as (l' & H1 & H2). exists l'. split; [now right|exact H2].
  - intros l ls p0 ps t pl M _ IH p cb [[= <- <-]|H].
    + exists l. split; [now left|auto].
    + destruct (IH _ _ H) as (l' & H1 & H2). exists l'. split; [now right|exact H2].
Qed.

Lemma serialize_labels_nodup ls ps t pl :
  serialize ls ps = Some (t, pl) -> NoDup (map l_cb ls) -> NoDup (map snd t).
Proof.
  revert ls ps t pl. apply (serialize_ind (fun ls ps t pl => NoDup (map l_cb ls) -> NoDup (map snd t))).
  - constructor.
  - intros l b ls ps t pl _ _ IH ND. inversion ND; auto.
  - intros l ls p ps t pl _ E IH ND. inversion ND as [|? ? Hn ND']; subst. cbn [map snd]. constructor; [|auto].
    intros Hc. apply in_map_iff in Hc. destruct Hc as [[p' cb] [Hcb Hc]]. cbn [snd] in Hcb. subst cb.
    destruct (serialize_table _ _ _ _ E _ _ Hc) as (l' & H1 & H2 & _). apply Hn. rewrite <- H2. now apply in_map.
Qed.

Lemma serialize_entries : forall ls ps t pl,
  serialize ls ps = Some (t, pl) ->
  forall id cb, In (id, cb) (entries pl) ->
  (In (id, cb) t /\ exists l, In l ls /\ l_cb l = cb /\ l_mode l = MReal) \/ In id (fake_ids ls).
Proof.
  apply (serialize_ind (fun ls ps t pl => forall id cb, In (id, cb) (entries pl) ->
           (In (id, cb) t /\ exists l, In l ls /\ l_cb l = cb /\ l_mode l = MReal) \/ In id (fake_ids ls))).
  - intros ps id cb [].
  - intros l b ls ps t pl M _ IH id cb. cbn [entries fake_ids]. rewrite M. intros [[= <- <-]|Hin]; [right; now left|].
    destruct (IH _ _ Hin) as [[H1 (l' & H2 & H3)]|H1]; [left|right; now right]. split; eauto using in_cons.
  - intros l ls p ps t pl M _ IH id cb. cbn [fake_ids].
    assert (Hrec : In (id, cb) (entries pl) ->
      (In (id, cb) ((p, l_cb l) :: t) /\ exists l0, In l0 (l :: ls) /\ l_cb l0 = cb /\ l_mode l0 = MReal) \/
      In id (fake_ids ls)).
    { intros Hin. destruct (IH _ _ Hin) as [[H1 (l' & H2 & H3)]|H1]; [left|now right].
      split; [now right|]. exists l'. split; [now right|exact H3]. }
    destruct M as [M|M]; rewrite M in *; cbn [entries]; [intros [[= <- <-]|Hin]|]; auto.
    left. split; [now left|]. exists l. split; [now left|auto].
Qed.

Lemma serialize_travels : forall ls ps t pl,
  serialize ls ps = Some (t, pl) ->
  forall l, In l ls -> l_mode l = MReal \/ l_mode l = MIgnored ->
  exists p, In (p, l_cb l) t /\ (l_mode l = MReal -> In (p, l_cb l) (entries pl)).
Proof.
  apply (serialize_ind (fun ls ps t pl => forall l, In l ls -> l_mode l = MReal \/ l_mode l = MIgnored ->
           exists p, In (p, l_cb l) t /\ (l_mode l = MReal -> In (p, l_cb l) (entries pl)))).
  - intros ps l [].
  - intros l0 b ls ps t pl M0 _ IH l [<-|Hin] M; [destruct M; congruence|].
    destruct (IH _ Hin M) as (p & H1 & H2). exists p. split; [exact H1|]. intros Hr. right. auto.
  - intros l0 ls p0 ps t pl M0 _ IH l [<-|Hin] M.
    + exists p0. split; [now left|]. intros ->. now left.
    + destruct (IH _ Hin M) as (p & H1 & H2). exists p. split; [now right|]. intros Hr.
      destruct (l_mode l0); cbn [entries]; auto using in_cons.
Qed.

Lemma serialize_fakes : forall ls ps t pl,
  serialize ls ps = Some (t, pl) -> forall b, In b (fake_ids ls) -> In b (map fst (entries pl)).
Proof.
  apply (serialize_ind (fun ls ps t pl => forall b, In b (fake_ids ls) -> In b (map fst (entries pl)))).
  - intros ps b [].
  - intros l b0 ls ps t pl M _ IH b. cbn [fake_ids entries map fst]. rewrite M. intros [H|H]; [now left|right; auto].
  - intros l ls p ps t pl M _ IH b. cbn [fake_ids]. intros H.
    destruct M as [M|M]; rewrite M in *; cbn [entries map]; auto using in_cons.
Qed.

Lemma serialize_entry_ids ls ps t pl :
  serialize ls ps = Some (t, pl) -> NoDup (map fst t ++ fake_ids ls) -> NoDup (map fst (entries pl)).
Proof.
  revert ls ps t pl.
  apply (serialize_ind (fun ls ps t pl => NoDup (map fst t ++ fake_ids ls) -> NoDup (map fst (entries pl)))).
  - constructor.
  - intros l b ls ps t pl M E IH. cbn [fake_ids entries map fst]. rewrite M. intros ND.
    constructor; [|apply IH; eapply NoDup_remove_1, ND].
    intros Hc. apply (NoDup_remove_2 _ _ _ ND).
    apply in_map_iff in Hc. destruct Hc as [[id cb] [Hid Hc]]. cbn [fst] in Hid. subst id. apply in_or_app.
    destruct (serialize_entries _ _ _ _ E _ _ Hc) as [[H1 _]|H1]; [left|now right]. apply in_map_iff. now exists (b, cb).
  - intros l ls p ps t pl M E IH. cbn [map fst app fake_ids]. intros ND.
    assert (ND' : NoDup (map fst t ++ fake_ids ls)) by (destruct M as [M|M]; rewrite M in ND; now inversion ND).
    destruct M as [M|M]; rewrite M in *; cbn [entries map fst]; [|auto].
    inversion ND as [|? ? Hn _]; subst. constructor; [|auto]. intros Hc. apply Hn.
    apply in_map_iff in Hc. destruct Hc as [[id cb] [Hid Hc]]. cbn [fst] in Hid. subst id. apply in_or_app.
    destruct (serialize_entries _ _ _ _ E _ _ Hc) as [[H1 _]|H1]; [left|now right]. apply in_map_iff. now exists (p, cb).
Qed.

Lemma deser_spec pl : forall m qs m',
  deser m pl qs = Some m' -> NoDup (map fst (entries pl)) ->
  (forall id cb, In (id, cb) (entries pl) -> exists q, assoc id m' = Some (q, cb)) /\
  (forall id, ~ In id (map fst (entries pl)) -> assoc id m' = assoc id m).
Proof.
  induction pl as [|[[id0 cb0]|] pl IH]; intros m qs m'; cbn [deser entries map fst].
  - intros [= <-] _. split; [intros ? ? []|auto].
  - destruct qs as [|q qs']; [discriminate|]. intros H ND. inversion ND as [|? ? Hn ND']; subst.
    destruct (IH _ _ _ H ND') as [I1 I2]. split.
    + intros id cb [E|Hin].
      * injection E as <- <-. exists q. rewrite (I2 _ Hn). apply assoc_insert_same.
      * auto.
    + intros id Hni. rewrite I2 by (intros Hc; apply Hni; now right).
      apply assoc_insert_other. intros ->. apply Hni. now left.
  - intros H ND. eauto.
Qed.

Lemma deser_ports pl : forall m qs m',
  deser m pl qs = Some m' -> exists qs1 qs2, qs = qs1 ++ qs2 /\ length qs1 = length (entries pl).
Proof.
  induction pl as [|[[id0 cb0]|] pl IH]; intros m qs m'; cbn [deser entries].
  - intros _. exists [], qs. split; reflexivity.
  - destruct qs as [|q qs']; [discriminate|]. intros H.
    destruct (IH _ _ _ H) as [qs1 [qs2 [-> Hl]]]. exists (q :: qs1), qs2. cbn [app length]. split; congruence.
  - eauto.
Qed.

(** The loop removes what it matches: it is described against a map [m0] that the current map agrees with on the ids
    still to come (they are pairwise distinct). *)
Lemma match_reqs_spec rs : forall m0 m acc rej mf,
  match_reqs m rs = (acc, rej, mf) -> NoDup (map r_id rs) ->
  (forall r, In r rs -> assoc (r_id r) m = assoc (r_id r) m0) ->
  (forall a, In a acc <-> In (a_req a) rs /\ assoc (r_id (a_req a)) m0 = Some (a_port a, a_cb a)) /\
  (forall r, In r rej <-> In r rs /\ assoc (r_id r) m0 = None).
Proof.
  induction rs as [|r rs IH]; intros m0 m acc rej mf; cbn [match_reqs map].
  - intros [= <- <- <-] _ _. split; intros x; split; [intros []|intros [[] _]|intros []|intros [[] _]].
  - intros H ND Hm. inversion ND as [|? ? Hn ND']; subst. pose proof (Hm r (or_introl eq_refl)) as Hr.
    destruct (assoc (r_id r) m) as [[q cb]|] eqn:EA.
    + destruct (match_reqs (remove (r_id r) m) rs) as [[acc' rej'] mf'] eqn:EM. injection H as <- <- <-.
      destruct (IH m0 _ _ _ _ EM ND') as [I1 I2].
      { intros r' Hr'. rewrite assoc_remove_other; [auto using in_cons|]. intros E. apply Hn. rewrite E. now apply in_map. }
      split; intros x; cbn [In]; rewrite ?I1, ?I2.
      * split; [intros [<-|[Hx Ha]]; cbn [a_req a_port a_cb]; auto|].
        intros [[E|Hx] Ha]; [left|auto]. destruct x as [xr xp xc]. cbn [a_req a_port a_cb] in *. subst xr. congruence.
      * split; [intros [Hx Ha]; auto|]. intros [[<-|Hx] Ha]; [congruence|auto].
    + destruct (match_reqs m rs) as [[acc' rej'] mf'] eqn:EM. injection H as <- <- <-.
      destruct (IH m0 _ _ _ _ EM ND') as [I1 I2]; [auto using in_cons|].
      split; intros x; cbn [In]; rewrite ?I1, ?I2.
      * split; [intros [Hx Ha]; auto|]. intros [[<-|Hx] Ha]; [congruence|auto].
      * split; [intros [<-|[Hx Ha]]; auto|]. intros [[E|Hx] Ha]; auto.
Qed.

Lemma match_reqs_left rs : forall m acc rej mf,
  match_reqs m rs = (acc, rej, mf) ->
  (forall id, In id (map r_id rs) -> assoc id mf = None) /\
  (forall id, ~ In id (map r_id rs) -> assoc id mf = assoc id m).
Proof.
  induction rs as [|r rs IH]; intros m acc rej mf; cbn [match_reqs map In].
  - intros [= <- <- <-]. split; [intros id []|reflexivity].
  - (* in both branches the recursive call starts from a map without [r_id r] that agrees with [m] elsewhere *)
    intros H. assert (exists m', assoc (r_id r) m' = None /\ (forall id, id <> r_id r -> assoc id m' = assoc id m) /\
                                 exists acc' rej', match_reqs m' rs = (acc', rej', mf)) as (m' & Hr & Hm' & acc' & rej' & EM).
    { destruct (assoc (r_id r) m) as [[q cb]|] eqn:EA.
      - destruct (match_reqs (remove (r_id r) m) rs) as [[acc' rej'] mf'] eqn:EM. injection H as <- <- <-.
        exists (remove (r_id r) m). split; [apply assoc_remove_same|]. split; [|eauto]. intros id Hne. apply assoc_remove_other. congruence.
      - destruct (match_reqs m rs) as [[acc' rej'] mf'] eqn:EM. injection H as <- <- <-. exists m. eauto. }
    destruct (IH _ _ _ _ EM) as [I3 I4]. split; intros id Hid.
    + destruct (in_dec N.eq_dec id (map r_id rs)) as [Hi|Hi]; [auto|]. destruct Hid as [<-|Hid]; [|contradiction]. now rewrite I4.
    + rewrite I4 by auto. apply Hm'. intros ->. auto.
Qed.

Lemma match_reqs_ids_nodup rs : forall m acc rej mf,
  match_reqs m rs = (acc, rej, mf) -> NoDup (map r_id rs) ->
  NoDup (map (fun a => r_id (a_req a)) acc).
Proof.
  induction rs as [|r rs IH]; intros m acc rej mf; cbn [match_reqs map].
  - intros [= <- <- <-] _. constructor.
  - intros H ND. inversion ND as [|? ? Hn ND']; subst.
    destruct (assoc (r_id r) m) as [[q cb]|] eqn:EA.
    + destruct (match_reqs (remove (r_id r) m) rs) as [[acc' rej'] mf'] eqn:EM.
      injection H as <- <- <-. cbn [map a_req]. constructor; [|eauto].
      intros Hc. apply in_map_iff in Hc. destruct Hc as [a [E Hin]].
      destruct (match_reqs_spec _ _ _ _ _ _ EM ND' (fun _ _ => eq_refl)) as [I1 _]. apply I1 in Hin. destruct Hin as [Hin _].
      apply Hn. rewrite <- E. now apply in_map.
    + destruct (match_reqs m rs) as [[acc' rej'] mf'] eqn:EM.
      injection H as <- <- <-. eauto.
Qed.

Lemma expected_spec ls ps t pl qs m :
  serialize ls ps = Some (t, pl) -> deser [] pl qs = Some m -> NoDup (map fst t ++ fake_ids ls) ->
  (forall l, In l ls -> l_mode l = MReal -> exists p q, In (p, l_cb l) t /\ assoc p m = Some (q, l_cb l)) /\
  (forall p cb q cb', In (p, cb) t -> assoc p m = Some (q, cb') ->
     cb' = cb /\ exists l, In l ls /\ l_cb l = cb /\ l_mode l = MReal) /\
  (forall b, ~ In b (map fst t) -> (assoc b m <> None <-> In b (fake_ids ls))).
Proof.
  intros E1 E4 NDall. pose proof (serialize_entry_ids _ _ _ _ E1 NDall) as NDe.
  destruct (deser_spec _ _ _ _ E4 NDe) as [D1 D2].
  assert (NDt : NoDup (map fst t)) by now apply nodup_app_l in NDall.
  assert (Hfrom : forall id q cb, assoc id m = Some (q, cb) -> In (id, cb) (entries pl)).
  { intros id q cb Hm.
    destruct (in_dec N.eq_dec id (map fst (entries pl))) as [Hi|Hi]; [|rewrite (D2 _ Hi) in Hm; discriminate].
    apply in_map_iff in Hi. destruct Hi as [[id' cb'] [<- Hi]]. destruct (D1 _ _ Hi) as [q' Hq]. cbn [fst] in *.
    rewrite Hq in Hm. now injection Hm as _ <-. }
  split; [|split].
  - intros l Hl M. destruct (serialize_travels _ _ _ _ E1 _ Hl (or_introl M)) as (p & Ht & He).
    destruct (D1 _ _ (He M)) as [q Hq]. eauto.
  - intros p cb q cb' Ht Hm. apply Hfrom in Hm. destruct (serialize_entries _ _ _ _ E1 _ _ Hm) as [[H1 Hreal]|H1].
    + assert (cb' = cb) as ->; [|auto].
      pose proof (in_assoc_nodup _ _ _ NDt H1). pose proof (in_assoc_nodup _ _ _ NDt Ht). congruence.
    + exfalso. apply (nodup_app_disj _ _ p NDall); [|exact H1]. apply in_map_iff. now exists (p, cb).
  - intros b Hb. split.
    + intros Hne. destruct (assoc b m) as [[q cb]|] eqn:Hm; [|congruence]. apply Hfrom in Hm.
      destruct (serialize_entries _ _ _ _ E1 _ _ Hm) as [[H1 _]|H1]; [|exact H1].
      exfalso. apply Hb. apply in_map_iff. now exists (b, cb).
    + intros Hf. pose proof (serialize_fakes _ _ _ _ E1 _ Hf) as Hi. apply in_map_iff in Hi.
      destruct Hi as [[id cb] [<- Hi]]. destruct (D1 _ _ Hi) as [q Hq]. cbn [fst]. now rewrite Hq.
Qed.

Lemma route_origin t hops fin tabs :
  route (origin_reqs t) hops = Some (fin, tabs) -> Forall hop_ok hops ->
  map r_id fin = map fst t /\ forall f, In f fin -> trace_back (rev tabs) (r_port f) = Some (r_id f).
Proof.
  intros E2 Hh. pose proof (route_spec _ _ _ _ E2 Hh) as F. split.
  - replace (map fst t) with (map r_id (origin_reqs t)) by (unfold origin_reqs; now rewrite map_map). apply Forall2_map_eq. eapply Forall2_impl_in; [|exact F]. now intros ? ? _ [? _].
  - intros f Hf. destruct (Forall2_in_l _ _ _ _ F Hf) as (r0 & Hr0 & Hid & Htr). rewrite Htr, Hid.
    unfold origin_reqs in Hr0. apply in_map_iff in Hr0. now destruct Hr0 as [e [<- _]].
Qed.

Lemma flat_map_singletons {A B} (f : A -> list B) (g : A -> B) l :
  (forall x, In x l -> f x = [g x]) -> flat_map f l = map g l.
Proof.
  induction l as [|x l IH]; intros H; cbn [flat_map map]; [reflexivity|].
  rewrite (H x (or_introl eq_refl)), IH; [reflexivity|]. intros y Hy. apply H. now right.
Qed.

Lemma NoDup_map_finer {A B C} (f : A -> B) (g : A -> C) l :
  NoDup (map f l) -> (forall x y, In x l -> In y l -> g x = g y -> f x = f y) -> NoDup (map g l).
Proof.
  induction l as [|x l IH]; cbn [map]; [constructor|]. intros ND H. inversion ND as [|? ? Hn ND']; subst.
  constructor; [|apply IH; auto using in_cons].
  intros Hc. apply in_map_iff in Hc. destruct Hc as [y [E Hy]]. apply Hn. rewrite <- (H y x); auto using in_cons, in_eq, in_map.
Qed.

Section Wiring.
  Variables (ls : list leaf) (ps : list N) (hops : list (list N * list nat)) (last_sizes : list nat) (qs : list N).
  Variable w : wired.
  Hypothesis Hlabels : NoDup (map l_cb ls).
  Hypothesis Hports : NoDup (ps ++ fake_ids ls).
  Hypothesis Hhops : Forall hop_ok hops.
  Hypothesis Hwire : wire ls ps hops last_sizes qs = WOk w.

  Let t := w_table w.
  Let pr := pairing (w_table w) (w_tabs w) (w_acc w).

  Lemma wire_inv : exists pl fin m,
    serialize ls ps = Some (t, pl) /\ route (origin_reqs t) hops = Some (fin, w_tabs w) /\
    w_fin w = fin /\ deser [] pl qs = Some m /\ match_reqs m fin = (w_acc w, w_rej w, w_missing w).
  Proof.
    unfold wire in Hwire.
    destruct (serialize ls ps) as [[t0 pl]|] eqn:E1; [|discriminate].
    destruct (route (origin_reqs t0) hops) as [[fin tabs]|] eqn:E2; [|discriminate].
    rewrite concat_chunks in Hwire.
    destruct (deser [] pl qs) as [m|] eqn:E3; [|discriminate].
    destruct (match_reqs m fin) as [[acc rej] mf] eqn:E4.
    injection Hwire as <-. cbn [w_table w_tabs w_fin w_acc w_rej w_missing] in *.
    exists pl, fin, m. subst t. cbn [w_table]. auto.
  Qed.

  Lemma wire_facts : exists m,
    NoDup (map fst t ++ fake_ids ls) /\
    (forall l, In l ls -> l_mode l = MReal -> exists p q, In (p, l_cb l) t /\ assoc p m = Some (q, l_cb l)) /\
    (forall p cb q cb', In (p, cb) t -> assoc p m = Some (q, cb') ->
       cb' = cb /\ exists l, In l ls /\ l_cb l = cb /\ l_mode l = MReal) /\
    (forall b, ~ In b (map fst t) -> (assoc b m <> None <-> In b (fake_ids ls))) /\
    map r_id (w_fin w) = map fst t /\ NoDup (map r_id (w_fin w)) /\
    (forall f, In f (w_fin w) -> trace_back (rev (w_tabs w)) (r_port f) = Some (r_id f)) /\
    match_reqs m (w_fin w) = (w_acc w, w_rej w, w_missing w).
  Proof.
    destruct wire_inv as (pl & fin & m & E1 & E2 & -> & E4 & E5). exists m.
    assert (NDall : NoDup (map fst t ++ fake_ids ls)).
    { destruct (serialize_ports _ _ _ _ E1) as [ps2 Hps]. rewrite Hps in Hports. now apply nodup_app_mid in Hports. }
    destruct (expected_spec _ _ _ _ _ _ E1 E4 NDall) as (X1 & X2 & X3).
    destruct (route_origin _ _ _ _ E2 Hhops) as [Hids Htr]. rewrite Hids. apply nodup_app_l in NDall as NDt. auto 10.
  Qed.

  Lemma table_keys_nodup : NoDup (map fst t).
  Proof. destruct wire_facts as (m & NDall & _). now apply nodup_app_l in NDall. Qed.

  Lemma accepted_inv a : In a (w_acc w) ->
    In (a_req a) (w_fin w) /\ In (r_id (a_req a), a_cb a) t /\ exists l, In l ls /\ l_cb l = a_cb a /\ l_mode l = MReal.
  Proof.
    destruct wire_facts as (m & NDall & _ & X2 & _ & Hids & NDfin & _ & E5). pose proof table_keys_nodup as NDt.
    destruct (match_reqs_spec _ _ _ _ _ _ E5 NDfin (fun _ _ => eq_refl)) as [I1 _]. intros Ha. apply I1 in Ha. destruct Ha as [Hf Hm].
    split; [exact Hf|]. assert (Hp : In (r_id (a_req a)) (map fst t)) by (rewrite <- Hids; now apply in_map).
    apply in_map_iff in Hp. destruct Hp as [[p cb] [Ep Hp]]. cbn [fst] in Ep. subst p.
    destruct (X2 _ _ _ _ Hp Hm) as [-> Hreal]. auto.
  Qed.

  Lemma accepted_real l : In l ls -> l_mode l = MReal ->
    exists p f q, In (p, l_cb l) t /\ r_id f = p /\ In (mkAcc f q (l_cb l)) (w_acc w).
  Proof.
    destruct wire_facts as (m & NDall & X1 & _ & _ & Hids & NDfin & _ & E5). pose proof table_keys_nodup as NDt.
    destruct (match_reqs_spec _ _ _ _ _ _ E5 NDfin (fun _ _ => eq_refl)) as [I1 _]. intros Hl M.
    destruct (X1 _ Hl M) as (p & q & Ht & Hm).
    assert (Hp : In p (map r_id (w_fin w))) by (rewrite Hids; apply in_map_iff; now exists (p, l_cb l)).
    apply in_map_iff in Hp. destruct Hp as [f [Ef Hf]]. exists p, f, q. split; [exact Ht|]. split; [exact Ef|].
    apply I1. cbn [a_req a_port a_cb]. rewrite Ef. exact (conj Hf Hm).
  Qed.

  Lemma pairing_eq : pr = map (fun a => (a_cb a, a_cb a)) (w_acc w).
  Proof.
    apply flat_map_singletons. intros a Ha. destruct (accepted_inv a Ha) as (Hf & Ht & _).
    destruct wire_facts as (m & _ & _ & _ & _ & _ & _ & Htr & _). unfold pair_of. rewrite (Htr _ Hf).
    fold t. now rewrite (in_assoc_nodup _ _ _ table_keys_nodup Ht).
  Qed.

  (** The wiring of one value over any number of forwarders: every pair connects a delivered half with the origin
      callback of the SAME label; the pairing is injective in both directions; every half that travelled normally is
      connected; the request of a half the far end ignores is dropped, i.e. rejected; and the ports reported missing
      are exactly the ids named without a request. *)
  Theorem pairing_label_preserving : forall a b, In (a, b) pr -> a = b.
  Proof. rewrite pairing_eq. intros a b H. apply in_map_iff in H. destruct H as [x [[= <- <-] _]]. reflexivity. Qed.

  Theorem pairing_injective : NoDup (map fst pr) /\ NoDup (map snd pr).
  Proof.
    rewrite pairing_eq, !map_map. cbn [fst snd].
    assert (ND : NoDup (map a_cb (w_acc w))); [|split; exact ND].
    destruct wire_facts as (m & _ & _ & _ & _ & _ & NDfin & _ & E5).
    destruct wire_inv as (pl & _ & _ & E1 & _). pose proof (serialize_labels_nodup _ _ _ _ E1 Hlabels) as NDl.
    (* distinct ids, and one label sits under one port of the table only *)
    apply (NoDup_map_finer _ _ _ (match_reqs_ids_nodup _ _ _ _ _ E5 NDfin)). intros x y Hx Hy E.
    destruct (accepted_inv x Hx) as (_ & Htx & _). destruct (accepted_inv y Hy) as (_ & Hty & _).
    rewrite E in Htx. now injection (NoDup_map_inj snd _ _ _ NDl Htx Hty eq_refl).
  Qed.

  Theorem pairing_complete : forall l, In l ls -> l_mode l = MReal -> In (l_cb l, l_cb l) pr.
  Proof.
    intros l Hl M. destruct (accepted_real l Hl M) as (p & f & q & _ & _ & Ha).
    rewrite pairing_eq. apply in_map_iff. now exists (mkAcc f q (l_cb l)).
  Qed.

  Theorem ignored_rejected : forall l, In l ls -> l_mode l = MIgnored ->
    exists p f, In (p, l_cb l) t /\ In f (w_rej w) /\ r_id f = p /\ trace_back (rev (w_tabs w)) (r_port f) = Some p.
  Proof.
    destruct wire_facts as (m & _ & _ & X2 & _ & Hids & NDfin & Htr & E5).
    destruct (match_reqs_spec _ _ _ _ _ _ E5 NDfin (fun _ _ => eq_refl)) as [_ I2]. destruct wire_inv as (pl & _ & _ & E1 & _).
    intros l Hl M. destruct (serialize_travels _ _ _ _ E1 _ Hl (or_intror M)) as (p & Ht & _).
    assert (Hp : In p (map r_id (w_fin w))) by (rewrite Hids; apply in_map_iff; now exists (p, l_cb l)).
    apply in_map_iff in Hp. destruct Hp as [f [Ef Hf]]. exists p, f.
    split; [exact Ht|]. split; [|split; [exact Ef|rewrite <- Ef; auto]]. apply I2. split; [exact Hf|]. rewrite Ef.
    (* an expected entry under this port would belong to a real leaf with the same label *)
    destruct (assoc p m) as [[q cb']|] eqn:Hm; [exfalso|reflexivity].
    destruct (X2 _ _ _ _ Ht Hm) as (_ & l' & Hl' & Hcb & M').
    rewrite (NoDup_map_inj l_cb _ _ _ Hlabels Hl' Hl Hcb) in M'. congruence.
  Qed.

  Theorem missing_are_fakes : forall b, In b (fake_ids ls) <-> assoc b (w_missing w) <> None.
  Proof.
    destruct wire_facts as (m & NDall & _ & _ & X3 & Hids & _ & _ & E5).
    destruct (match_reqs_left _ _ _ _ _ E5) as [I3 I4]. rewrite Hids in I3, I4.
    intros b. destruct (in_dec N.eq_dec b (map fst t)) as [Hi|Hi].
    - rewrite (I3 _ Hi). split; [|congruence]. intros Hb. destruct (nodup_app_disj _ _ b NDall Hi Hb).
    - rewrite (I4 _ Hi). symmetry. now apply X3.
  Qed.
End Wiring.

Lemma nth_error_update_same {A} (l : list A) i x y : nth_error l i = Some y -> nth_error (update l i x) i = Some x.
Proof.
  revert i. induction l as [|z l IH]; intros [|i]; cbn [nth_error update]; try discriminate; auto.
Qed.

Lemma nth_error_update_other {A} (l : list A) i j x : i <> j -> nth_error (update l i x) j = nth_error l j.
Proof.
  revert i j. induction l as [|z l IH]; intros [|i] [|j] H; cbn [nth_error update]; try reflexivity; try congruence.
  apply IH. congruence.
Qed.

Lemma update_length {A} (l : list A) i x : length (update l i x) = length l.
Proof. revert i. induction l as [|z l IH]; intros [|i]; cbn [update length]; auto. Qed.

Definition far_ok (h : nat) (dead : list nat) (d : bool) (f : fstat) : Prop :=
  match f with
  | FNone => d = true -> dead <> []
  | FConn => d = true /\ dead <> []
  | FErr => d = true /\ In h dead
  end.

(** Per-request invariant: [d] is the far end's decision for this request. *)
Definition rinv (h : nat) (dead : list nat) (d : bool) (r : rstate) : Prop :=
  match r_phase r with
  | Going k => (1 <= k <= h)%nat /\ r_far r = FNone
  | Held => r_far r = FNone
  | AccBack k => (1 <= k <= h)%nat /\ r_far r = FConn /\ d = true
  | RejBack k => (1 <= k <= h)%nat /\ far_ok h dead d (r_far r)
  | DoneOk => r_far r = FConn /\ d = true
  | DoneErr => far_ok h dead d (r_far r)
  end.

Definition inv (s : sys) : Prop :=
  (1 <= s_h s)%nat /\
  forall i r, nth_error (s_reqs s) i = Some r -> rinv (s_h s) (s_dead s) (nth i (s_decide s) false) r.

Lemma is_dead_in s k : is_dead s k = true -> In k (s_dead s).
Proof.
  unfold is_dead. intros H. apply existsb_exists in H. destruct H as [x [H1 H2]].
  apply Nat.eqb_eq in H2. now subst.
Qed.

Lemma far_ok_mono h dead k d f : far_ok h dead d f -> far_ok h (k :: dead) d f.
Proof.
  destruct f; cbn.
  - intros _ _. discriminate.
  - intros [? ?]. split; [auto|discriminate].
  - intros [? ?]. split; [auto|now right].
Qed.

Lemma rinv_mono h dead k d r : rinv h dead d r -> rinv h (k :: dead) d r.
Proof.
  unfold rinv. destruct (r_phase r); auto.
  - intros [? ?]. split; [auto|now apply far_ok_mono].
  - apply far_ok_mono.
Qed.

Definition rank (h : nat) (p : phase) : nat :=
  match p with
  | Going k => 3 * h + 3 - k
  | Held => 2 * h + 2
  | AccBack k => h + 1 + k
  | RejBack k => k
  | DoneOk | DoneErr => 0
  end.

Definition measure (s : sys) : nat := list_sum (map (fun r => rank (s_h s) (r_phase r)) (s_reqs s)).

Definition is_cut (a : action) : bool := match a with ACut _ => true | _ => false end.

Fixpoint moves (acts : list action) (s : sys) : nat :=
  match acts with
  | [] => O
  | a :: acts' =>
      match step s a with
      | Some s' => (if is_cut a then O else 1%nat) + moves acts' s'
      | None => moves acts' s
      end
  end.

Lemma fail_up_spec h dead d k f n :
  (1 <= k <= h)%nat -> far_ok h dead d f -> (k <= n)%nat ->
  rinv h dead d (mkR (fail_up k) f) /\ (rank h (fail_up k) < n)%nat.
Proof.
  intros Hk Hf Hn. destruct k as [|[|k']]; cbn [fail_up rank]; unfold rinv; cbn [r_phase r_far]; repeat split; auto; lia.
Qed.

Lemma step_req_spec s i lost r r' :
  (1 <= s_h s)%nat -> rinv (s_h s) (s_dead s) (nth i (s_decide s) false) r ->
  step_req s i lost r = Some r' ->
  rinv (s_h s) (s_dead s) (nth i (s_decide s) false) r' /\
  (rank (s_h s) (r_phase r') < rank (s_h s) (r_phase r))%nat.
Proof.
  intros Hh Hr. unfold step_req.
  destruct (phase_conn (s_h s) (r_phase r)) as [k|] eqn:EP; [|discriminate].
  unfold rinv in Hr. destruct lost.
  - destruct (is_dead s k) eqn:ED; [|discriminate]. intros [= <-]. cbn [r_phase].
    pose proof (is_dead_in _ _ ED) as Hin.
    assert (Hne : s_dead s <> []) by (intros E; rewrite E in Hin; destruct Hin).
    destruct (r_phase r) eqn:EPh; cbn [phase_conn] in EP; try discriminate; injection EP as <-; cbn [rank].
    + destruct Hr as [Hk Hf]. apply fail_up_spec; [exact Hk| |lia]. rewrite Hf. cbn. auto.
    + apply fail_up_spec; [lia| |lia]. destruct (nth i (s_decide s) false) eqn:EDc; [cbn; auto|]. rewrite Hr. cbn. discriminate.
    + destruct Hr as (Hk & Hf & Hd). apply fail_up_spec; [exact Hk| |lia]. rewrite Hf. cbn. auto.
    + destruct Hr as [Hk Hf]. apply fail_up_spec; [exact Hk|exact Hf|lia].
  - destruct (is_dead s k) eqn:ED; [discriminate|].
    destruct (r_phase r) eqn:EPh; cbn [phase_conn] in EP; try discriminate; injection EP as <-.
    + destruct Hr as [Hk Hf]. destruct (Nat.ltb k0 (s_h s)) eqn:EL; intros [= <-]; unfold rinv; cbn [r_phase r_far rank].
      * apply Nat.ltb_lt in EL. repeat split; auto; lia.
      * split; [exact Hf|lia].
    + destruct (nth i (s_decide s) false) eqn:EDc; intros [= <-]; unfold rinv; cbn [r_phase r_far rank].
      * repeat split; auto; lia.
      * rewrite Hr. cbn. repeat split; try discriminate; lia.
    + destruct Hr as (Hk & Hf & Hd). destruct k0 as [|[|k']]; intros [= <-]; unfold rinv; cbn [r_phase r_far rank];
        repeat split; auto; lia.
    + destruct Hr as [Hk Hf]. destruct k0 as [|[|k']]; intros [= <-]; unfold rinv; cbn [r_phase r_far rank];
        repeat split; auto; lia.
Qed.

(** the two request actions differ only in the flag handed to [step_req] *)
Lemma step_cases s a s' : step s a = Some s' ->
  (exists i (lost : bool) r r', a = (if lost then ALost i else AMove i) /\ nth_error (s_reqs s) i = Some r /\
     step_req s i lost r = Some r' /\ s' = mkSys (s_h s) (s_dead s) (update (s_reqs s) i r') (s_decide s)) \/
  (exists k, a = ACut k /\ s' = mkSys (s_h s) (k :: s_dead s) (s_reqs s) (s_decide s)).
Proof.
  destruct a as [i|i|k]; cbn [step].
  - destruct (nth_error (s_reqs s) i) as [r|] eqn:E; [|discriminate].
    destruct (step_req s i false r) as [r'|] eqn:ES; [|discriminate]. intros [= <-]. left. exists i, false, r, r'. auto.
  - destruct (nth_error (s_reqs s) i) as [r|] eqn:E; [|discriminate].
    destruct (step_req s i true r) as [r'|] eqn:ES; [|discriminate]. intros [= <-]. left. exists i, true, r, r'. auto.
  - destruct (_ && _)%bool; [|discriminate]. intros [= <-]. right. eauto.
Qed.

Lemma list_sum_update {A} (f : A -> nat) l i x y :
  nth_error l i = Some y -> (list_sum (map f (update l i x)) + f y = list_sum (map f l) + f x)%nat.
Proof.
  revert i. induction l as [|z l IH]; intros [|i]; cbn [nth_error update map list_sum fold_right]; try discriminate.
  - intros [= ->]. lia.
  - intros H. specialize (IH _ H). unfold list_sum in IH. lia.
Qed.

Lemma step_spec s a s' :
  inv s -> step s a = Some s' ->
  inv s' /\ if is_cut a then measure s' = measure s else (measure s' < measure s)%nat.
Proof.
  intros [Hh Hi] H. destruct (step_cases _ _ _ H) as [(i & lost & r & r' & -> & E & ES & ->)|(k & -> & ->)].
  - destruct (step_req_spec _ _ _ _ _ Hh (Hi _ _ E) ES) as [Hr' Hlt]. split.
    + split; [exact Hh|]. cbn [s_h s_dead s_reqs s_decide]. intros j rj Hj.
      destruct (Nat.eq_dec i j) as [<-|Hne].
      * rewrite (nth_error_update_same _ _ _ _ E) in Hj. now injection Hj as <-.
      * rewrite nth_error_update_other in Hj by exact Hne. auto.
    + pose proof (list_sum_update (fun r => rank (s_h s) (r_phase r)) _ _ r' _ E) as HS. cbn beta in HS.
      unfold measure. cbn [s_h s_reqs]. destruct lost; cbn [is_cut]; lia.
  - split; [|reflexivity]. split; [exact Hh|]. cbn [s_h s_dead s_reqs s_decide]. intros j rj Hj. apply rinv_mono. auto.
Qed.

Lemma step_static s a s' : step s a = Some s' -> s_decide s' = s_decide s /\ s_h s' = s_h s.
Proof. intros H. destruct (step_cases _ _ _ H) as [(i & lost & r & r' & _ & _ & _ & ->)|(k & _ & ->)]; auto. Qed.

Lemma init_inv h decide : (1 <= h)%nat -> inv (init_sys h decide).
Proof.
  intros Hh. split; [exact Hh|]. cbn [init_sys s_h s_dead s_reqs s_decide]. intros i r Hi.
  apply nth_error_In in Hi. apply in_map_iff in Hi. destruct Hi as [b [<- _]].
  unfold rinv. cbn [r_phase r_far]. split; [lia|reflexivity].
Qed.

Lemma run_inv acts : forall s, inv s -> inv (run acts s).
Proof.
  induction acts as [|a acts IH]; intros s Hs; cbn [run]; [exact Hs|].
  destruct (step s a) as [s'|] eqn:E; [|auto]. apply IH. eapply step_spec; eauto.
Qed.

Lemma run_static acts : forall s, s_decide (run acts s) = s_decide s /\ s_h (run acts s) = s_h s.
Proof.
  induction acts as [|a acts IH]; intros s; cbn [run]; [auto|].
  destruct (step s a) as [s'|] eqn:E; [|auto].
  destruct (IH s') as [-> ->]. eapply step_static; eauto.
Qed.

Lemma rinv_facts h dead d r : rinv h dead d r ->
  (r_phase r = DoneOk -> r_far r = FConn /\ d = true) /\
  (d = false -> r_far r = FNone /\ r_phase r <> DoneOk) /\
  (r_far r = FErr -> d = true /\ In h dead) /\
  (r_phase r = DoneErr -> r_far r = FConn -> dead <> []).
Proof.
  unfold rinv, far_ok. destruct r as [p f]. cbn [r_phase r_far].
  destruct p, f; repeat split; intros; try discriminate; try congruence; try tauto; intuition congruence.
Qed.

(** The origin's connect future resolves successfully only for a request the far end matched by id
    and accepted; a request the far end dropped (superfluous, or its value was lost) never connects
    and leaves no far-end port behind; a far-end callback fails only when its own connection was lost;
    and when the origin sees an error although the far end holds a connected port, some connection
    on the path has been lost -- so that port is broken and its user gets an error too. *)
Theorem resolution_safe h decide acts i r :
  (1 <= h)%nat ->
  nth_error (s_reqs (run acts (init_sys h decide))) i = Some r ->
  let s := run acts (init_sys h decide) in
  let d := nth i decide false in
  (r_phase r = DoneOk -> r_far r = FConn /\ d = true) /\
  (d = false -> r_far r = FNone /\ r_phase r <> DoneOk) /\
  (r_far r = FErr -> d = true /\ In h (s_dead s)) /\
  (r_phase r = DoneErr -> r_far r = FConn -> s_dead s <> []).
Proof.
  intros Hh Hr s d.
  assert (Hinv : inv s) by (apply run_inv, init_inv; exact Hh).
  assert (Hdec : s_decide s = decide /\ s_h s = h) by (unfold s; apply (run_static acts (init_sys h decide))).
  destruct Hdec as [Hd1 Hd2]. destruct Hinv as [_ Hi]. specialize (Hi i r Hr). rewrite Hd1, Hd2 in Hi.
  fold d in Hi. apply rinv_facts in Hi. exact Hi.
Qed.

(** Progress: nothing stays pending at quiescence.  This is where the chmux-level facts enter (trusted here, to be discharged by the dispatcher model
    of C10 and the fail-stop model of C06): a request in flight on a live connection can always make
    its next step ([AMove] is enabled: the dispatcher delivers it, the listener side answers it
    exactly once, the answer is delivered), and a request that depends on a lost connection can always
    fail ([ALost] is enabled).  Given that, every request that is not resolved has an enabled step. *)
Theorem progress s i r :
  inv s -> nth_error (s_reqs s) i = Some r -> is_done r = false ->
  enabled s (AMove i) = true \/ enabled s (ALost i) = true.
Proof.
  intros [Hh Hi] E Hd. specialize (Hi _ _ E). unfold enabled. cbn [step]. rewrite E.
  unfold step_req. unfold is_done in Hd. unfold rinv in Hi.
  destruct (r_phase r) as [k| |k|k| |] eqn:EP; try discriminate; cbn [phase_conn].
  - destruct (is_dead s k); [now right|left]. now destruct (Nat.ltb k (s_h s)).
  - destruct (is_dead s (s_h s)); [now right|left]. now destruct (nth i (s_decide s) false).
  - destruct (is_dead s k); [now right|left]. now destruct k as [|[|k']].
  - destruct (is_dead s k); [now right|left]. now destruct k as [|[|k']].
Qed.

Corollary quiescent_all_resolved s :
  inv s -> quiescent s -> forall i r, nth_error (s_reqs s) i = Some r -> is_done r = true.
Proof.
  intros Hinv Hq i r E. destruct (is_done r) eqn:Hd; [reflexivity|].
  destruct (Hq i) as [H1 H2]. destruct (progress _ _ _ Hinv E Hd); congruence.
Qed.

(** At quiescence -- no request can make a step any more -- every request is resolved, and:
    a request the far end matched by id and accepted is connected at both ends, unless a connection
    was lost, in which case the origin's connect future failed (and the far end's port, if it got one,
    sits on a broken path); a request the far end dropped failed at the origin and left nothing at the
    far end.  No end stays pending. *)
Theorem resolved_at_quiescence h decide acts :
  (1 <= h)%nat ->
  let s := run acts (init_sys h decide) in
  quiescent s ->
  forall i r, nth_error (s_reqs s) i = Some r ->
    if nth i decide false
    then (r_phase r = DoneOk /\ r_far r = FConn) \/ (r_phase r = DoneErr /\ s_dead s <> [])
    else r_phase r = DoneErr /\ r_far r = FNone.
Proof.
  intros Hh s Hq i r E.
  assert (Hinv : inv s) by (apply run_inv, init_inv; exact Hh).
  pose proof (quiescent_all_resolved _ Hinv Hq _ _ E) as Hd.
  destruct (run_static acts (init_sys h decide)) as [Hd1 Hd2]. fold s in Hd1, Hd2.
  cbn [init_sys s_decide s_h] in Hd1, Hd2.
  destruct Hinv as [_ Hi]. specialize (Hi _ _ E). rewrite Hd1, Hd2 in Hi.
  unfold rinv, far_ok in Hi. unfold is_done in Hd.
  destruct (nth i decide false) eqn:ED; destruct (r_phase r) eqn:EP; try discriminate.
  - left. tauto.
  - right. split; [reflexivity|]. destruct (r_far r); [auto|tauto|].
    destruct Hi as [_ Hin]. intros E0. rewrite E0 in Hin. destruct Hin.
  - destruct Hi; discriminate.
  - split; [reflexivity|]. destruct (r_far r); [reflexivity| |]; destruct Hi; discriminate.
Qed.

(** No schedule makes more than [measure] request steps: the resolution terminates (with the
    bounded number of possible connection losses, every schedule reaches quiescence). *)
Theorem resolution_terminates acts : forall s, inv s -> (moves acts s <= measure s)%nat.
Proof.
  induction acts as [|a acts IH]; intros s Hs; cbn [moves]; [lia|].
  destruct (step s a) as [s'|] eqn:E; [|auto].
  destruct (step_spec _ _ _ Hs E) as [Hs' HD]. pose proof (IH _ Hs') as HI. destruct (is_cut a); lia.
Qed.

Lemma init_measure h decide : measure (init_sys h decide) = (length decide * (3 * h + 2))%nat.
Proof.
  unfold measure. cbn [init_sys s_h s_reqs]. rewrite map_map. cbn [r_phase rank].
  induction decide as [|b l IH]; cbn [map list_sum fold_right length]; [reflexivity|]. unfold list_sum in IH. rewrite IH. lia.
Qed.

Lemma drive_one_run fuel : forall i s, exists acts, drive_one fuel i s = run acts s.
Proof.
  induction fuel as [|f IH]; intros i s; cbn [drive_one]; [now exists []|].
  destruct (step s (AMove i)) as [s1|] eqn:E1.
  - destruct (IH i s1) as [acts ->]. exists (AMove i :: acts). cbn [run]. now rewrite E1.
  - destruct (step s (ALost i)) as [s2|] eqn:E2.
    + destruct (IH i s2) as [acts ->]. exists (ALost i :: acts). cbn [run]. now rewrite E2.
    + now exists [].
Qed.

Lemma run_app a1 : forall a2 s, run (a1 ++ a2) s = run a2 (run a1 s).
Proof.
  induction a1 as [|a a1 IH]; intros a2 s; cbn [app run]; [reflexivity|].
  destruct (step s a); apply IH.
Qed.

(** the canonical schedule of the executable model is a schedule *)
Lemma drive_all_run fuel n : forall s, exists acts, drive_all fuel n s = run acts s.
Proof.
  induction n as [|n IH]; intros s; cbn [drive_all]; [now exists []|].
  destruct (IH s) as [a1 ->]. destruct (drive_one_run fuel n (run a1 s)) as [a2 ->].
  exists (a1 ++ a2). now rewrite run_app.
Qed.

Lemma drive_step s a i r s' :
  inv s -> nth_error (s_reqs s) i = Some r -> a = AMove i \/ a = ALost i -> step s a = Some s' ->
  inv s' /\ s_h s' = s_h s /\
  exists r', nth_error (s_reqs s') i = Some r' /\ (rank (s_h s) (r_phase r') < rank (s_h s) (r_phase r))%nat.
Proof.
  intros Hs E Ha H. split; [now apply (step_spec _ _ _ Hs H)|]. split; [now apply (step_static _ _ _ H)|].
  destruct Hs as [Hh Hi].
  destruct (step_cases _ _ _ H) as [(j & lost & r0 & r' & Ea & E0 & ES & ->)|(k & -> & _)]; [|destruct Ha; discriminate].
  assert (j = i) as -> by (destruct lost, Ha; congruence). rewrite E in E0. injection E0 as <-.
  exists r'. split; [cbn [s_reqs]; eapply nth_error_update_same; eauto|].
  now apply (step_req_spec _ _ _ _ _ Hh (Hi _ _ E) ES).
Qed.

Lemma drive_one_done fuel : forall i s r,
  inv s -> nth_error (s_reqs s) i = Some r -> (rank (s_h s) (r_phase r) <= fuel)%nat ->
  exists r', nth_error (s_reqs (drive_one fuel i s)) i = Some r' /\ is_done r' = true.
Proof.
  induction fuel as [|f IH]; intros i s r Hs E Hf; cbn [drive_one].
  - exists r. split; [exact E|]. destruct Hs as [_ Hi]. specialize (Hi _ _ E).
    unfold rinv in Hi. unfold is_done. destruct (r_phase r); cbn [rank] in Hf; auto; lia.
  - destruct (step s (AMove i)) as [s1|] eqn:E1; [|destruct (step s (ALost i)) as [s2|] eqn:E2].
    + destruct (drive_step _ _ _ _ _ Hs E (or_introl eq_refl) E1) as (Hs1 & Hh & r1 & Er1 & Hlt).
      apply (IH _ _ _ Hs1 Er1). rewrite Hh. lia.
    + destruct (drive_step _ _ _ _ _ Hs E (or_intror eq_refl) E2) as (Hs2 & Hh & r2 & Er2 & Hlt).
      apply (IH _ _ _ Hs2 Er2). rewrite Hh. lia.
    + (* no step enabled: resolved, by [progress] *)
      exists r. split; [exact E|]. destruct (is_done r) eqn:Hd; [reflexivity|].
      destruct (progress _ _ _ Hs E Hd) as [H|H]; unfold enabled in H; rewrite ?E1, ?E2 in H; discriminate.
Qed.

Definition loc_eqb (a b : loc) : bool :=
  match a, b with
  | Local, Local | Remote, Remote | Sending CEmpty, Sending CEmpty | Sending CSent, Sending CSent
  | Sending CClosed, Sending CClosed => true
  | _, _ => false
  end.

(** A half that left directly has its location marked non-local: [Sending] while the confirmation is
    outstanding, [Sending]-confirmed or [Remote] afterwards. *)
Definition ok_side (d o : bool) (l : loc) : bool :=
  match d, o with
  | true, true => loc_eqb l (Sending CEmpty)
  | true, false => loc_eqb l (Sending CSent) || loc_eqb l Remote
  | false, true => false
  | false, false => true
  end.

Definition il_inv (st : il_state) : bool :=
  negb (is_bad st) && ok_side (is_direct_tx st) (is_open_tx st) (il_sender (is_il st))
  && ok_side (is_direct_rx st) (is_open_rx st) (il_receiver (is_il st)).

Lemma il_inv_iff st : il_inv st = true <->
  is_bad st = false /\ ok_side (is_direct_tx st) (is_open_tx st) (il_sender (is_il st)) = true /\
  ok_side (is_direct_rx st) (is_open_rx st) (il_receiver (is_il st)) = true.
Proof. unfold il_inv. rewrite !andb_true_iff, negb_true_iff. tauto. Qed.

Lemma ok_side_check d o l :
  ok_side d o l = true -> ok_side d o (fst (check_local l)) = true /\ (snd (check_local l) = true -> d = false).
Proof. destruct d, o, l as [|[| |]|]; cbn; auto; discriminate. Qed.

Lemma ok_side_confirm d l (sent : bool) :
  ok_side d true l = true -> ok_side sent false (confirm_loc l (if sent then CSent else CClosed)) = true.
Proof. destruct d, l as [|[| |]|], sent; cbn; congruence. Qed.

(** reduces the record projections and the per-side accessors, nothing else *)
Ltac il_fields := cbn [is_bad is_direct_tx is_direct_rx is_open_tx is_open_rx is_il is_last il_sender il_receiver
                       g_direct g_open other set_direct set_loc get_loc marked fst snd orb] in *.

Lemma il_step_inv lr st a : il_inv st = true -> il_inv (il_step true lr st a) = true.
Proof.
  rewrite !il_inv_iff. destruct st as [[ls lr_] dtx drx otx orx bad last]. il_fields. intros (-> & Hs & Hr).
  destruct a as [[|]|[|]|[|]]; cbn [il_step]; il_fields.
  - destruct dtx; [il_fields; auto|]. cbn [ser_half]; il_fields.
    destruct (ok_side_check _ _ _ Hr) as [Hr' Hd]. destruct (check_local lr_) as [r' [|]]; il_fields.
    + rewrite (Hd eq_refl) in *. auto.
    + destruct lr; il_fields; auto.
  - destruct drx; [il_fields; auto|]. cbn [ser_half]; il_fields.
    destruct (ok_side_check _ _ _ Hs) as [Hs' Hd]. destruct (check_local ls) as [s' [|]]; il_fields.
    + rewrite (Hd eq_refl) in *. auto.
    + destruct lr; il_fields; auto.
  - destruct otx; il_fields; auto using (ok_side_confirm dtx ls true).
  - destruct orx; il_fields; auto using (ok_side_confirm drx lr_ true).
  - destruct otx; il_fields; auto using (ok_side_confirm dtx ls false).
  - destruct orx; il_fields; auto using (ok_side_confirm drx lr_ false).
Qed.

Lemma il_run_inv lr acts : forall st, il_inv st = true -> il_inv (fold_left (il_step true lr) acts st) = true.
Proof. apply (fold_left_inv (il_step true lr) (fun st => il_inv st = true)). intros st a. apply il_step_inv. Qed.

(** With the repaired transitions ([fixed = true]): whatever the order of serializations,
    confirmations and cancellations, no serialization ever takes the direct path while the other half
    is away on a direct connection (in progress or complete); the other half takes the forwarding path ([bin]) or
    fails to serialize ([lr]). *)
Theorem interlock_fixed lr acts : is_bad (il_run true lr acts) = false.
Proof. apply il_inv_iff. now apply il_run_inv. Qed.

Theorem interlock_fixed_other lr acts s :
  let st := il_run true lr acts in
  g_direct st s = true -> g_direct st (other s) = false ->
  is_last (il_step true lr st (ISer (other s))) = if lr then SerError else Forwarding.
Proof.
  intros st. assert (H : il_inv st = true) by now apply il_run_inv.
  apply il_inv_iff in H as (_ & Hs & Hr). clearbody st. destruct st as [[ls lr_] dtx drx otx orx bad last].
  destruct s; il_fields; intros -> ->; cbn [il_step ser_half]; il_fields.
  - destruct (ok_side_check _ _ _ Hs) as [_ Hd]. destruct (check_local ls) as [s' [|]]; [discriminate (Hd eq_refl)|].
    now destruct lr.
  - destruct (ok_side_check _ _ _ Hr) as [_ Hd]. destruct (check_local lr_) as [r' [|]]; [discriminate (Hd eq_refl)|].
    now destruct lr.
Qed.

(** A cancelled direct transfer (its callback is dropped unrun) makes the location it marked local
    again at the next check -- in both variants of the transitions. *)
Theorem interlock_cancel_reverts fixed lr st s :
  g_open st s = true -> get_loc (is_il st) (marked fixed s) = Sending CEmpty ->
  let st' := il_step fixed lr st (ICancel s) in
  check_local (get_loc (is_il st') (marked fixed s)) = (Local, true) /\ g_direct st' s = false.
Proof.
  destruct st as [[ls lr_] dtx drx otx orx bad last]. destruct fixed, s; cbn; intros -> ->; cbn; auto.
Qed.

(** [fixed = false] is the code before the repair of finding F10 (fix 8d7bad2 in /repo), [fixed = true]
    the code as it is.  The former marks the wrong location: after the sender has left (and its
    transfer was confirmed), serializing the receiver takes the direct path again. *)
Theorem interlock_refuted : forall lr,
  exists acts, is_bad (il_run false lr acts) = true /\ is_last (il_run false lr acts) = Direct.
Proof. intros lr. exists [ISer STx; IConfirm STx; ISer SRx]. destruct lr; vm_compute; auto. Qed.

(** Outside that class (both halves of one channel get serialized) the code before the repair keeps
    the property as well: if only one side is ever serialized nothing bad happens. *)
Definition only_side (s0 : side) (a : il_action) : bool :=
  match a with ISer s => side_eqb s s0 | _ => true end.

(** the ghost fields of the other side do not depend on the locations: only on the path [ser_half] returns *)
Lemma il_step_one_side lr s0 st a :
  only_side s0 a = true -> is_bad st = false -> g_direct st (other s0) = false -> g_open st (other s0) = false ->
  let st' := il_step false lr st a in
  is_bad st' = false /\ g_direct st' (other s0) = false /\ g_open st' (other s0) = false.
Proof.
  destruct st as [il dtx drx otx orx bad last]. destruct a as [s|s|s]; cbn [only_side]; intros Ha Hb Hd Ho.
  - destruct s0, s; try discriminate Ha; il_fields; subst; cbn [il_step]; il_fields.
    + destruct dtx; [auto|]. destruct (ser_half false lr STx il) as [il' []]; il_fields; auto.
    + destruct drx; [auto|]. destruct (ser_half false lr SRx il) as [il' []]; il_fields; auto.
  - destruct s0, s; il_fields; subst; cbn [il_step]; il_fields; auto; [destruct otx|destruct orx]; il_fields; auto.
  - destruct s0, s; il_fields; subst; cbn [il_step]; il_fields; auto; [destruct otx|destruct orx]; il_fields; auto.
Qed.

Theorem interlock_one_side lr s0 acts :
  forallb (only_side s0) acts = true -> is_bad (il_run false lr acts) = false.
Proof.
  unfold il_run.
  assert (G : forall acts st, forallb (only_side s0) acts = true ->
            is_bad st = false -> g_direct st (other s0) = false -> g_open st (other s0) = false ->
            is_bad (fold_left (il_step false lr) acts st) = false).
  { induction acts0 as [|a acts0 IH]; intros st HF H1 H2 H3; cbn [fold_left]; [exact H1|].
    cbn [forallb] in HF. apply andb_prop in HF. destruct HF as [Ha HF].
    destruct (il_step_one_side lr s0 st a Ha H1 H2 H3) as [K1 [K2 K3]]. now apply IH. }
  intros HF. apply G; [exact HF|reflexivity|now destruct s0|now destruct s0].
Qed.

Fixpoint travelling (ls : list leaf) : nat :=
  match ls with
  | [] => O
  | l :: ls' => match l_mode l with MFake _ => travelling ls' | _ => S (travelling ls') end
  end.

(** Serialization fails ("ports exhausted") exactly when the value carries more halves than the
    origin's allocator has ports left; then nothing is sent (the item comes back in the error). *)
Theorem serialize_exhausted ls : forall ps, serialize ls ps = None <-> (length ps < travelling ls)%nat.
Proof.
  induction ls as [|l ls IH]; intros ps; cbn [serialize travelling].
  - split; [discriminate|intros H; inversion H].
  - destruct (l_mode l).
    1,2: destruct ps as [|p ps']; cbn [length]; [split; [intros _; apply Nat.lt_0_succ|reflexivity]|];
         rewrite <- Nat.succ_lt_mono, <- IH; now destruct (serialize ls ps') as [[t pl]|].
    rewrite <- IH. now destruct (serialize ls ps) as [[t pl]|].
Qed.

(** Deserialization fails exactly when the far end's allocator has fewer ports left than the value
    carries halves it knows; then the item is lost as a whole and none of its requests is accepted. *)
Theorem deser_exhausted pl : forall m qs, deser m pl qs = None <-> (length qs < length (entries pl))%nat.
Proof.
  induction pl as [|[[id cb]|] pl IH]; intros m qs; cbn [deser entries length].
  - split; [discriminate|lia].
  - destruct qs as [|q qs']; cbn [length]; [split; [lia|reflexivity]|].
    rewrite IH. lia.
  - apply IH.
Qed.

Lemma nth_map_error {A} (f : A -> bool) l i x : nth_error l i = Some x -> nth i (map f l) false = f x.
Proof.
  revert i. induction l as [|y l IH]; intros [|i]; cbn [nth_error map nth]; try discriminate.
  - now intros [= ->].
  - apply IH.
Qed.

Section EndToEnd.
  Variables (ls : list leaf) (ps : list N) (hops : list (list N * list nat)) (last_sizes : list nat) (qs : list N).
  Variable w : wired.
  Hypothesis Hlabels : NoDup (map l_cb ls).
  Hypothesis Hports : NoDup (ps ++ fake_ids ls).
  Hypothesis Hhops : Forall hop_ok hops.
  Hypothesis Hwire : wire ls ps hops last_sizes qs = WOk w.

  Lemma decisions_spec i p cb :
    nth_error (w_table w) i = Some (p, cb) ->
    (nth i (decisions w) false = true <-> exists l, In l ls /\ l_cb l = cb /\ l_mode l = MReal).
  Proof.
    intros Hi. unfold decisions. rewrite (nth_map_error _ _ _ _ Hi). cbn [fst].
    pose proof (nth_error_In _ _ Hi) as Hin. rewrite existsb_exists. split.
    - intros (a & Ha & Hid). apply N.eqb_eq in Hid.
      destruct (accepted_inv _ _ _ _ _ _ Hports Hhops Hwire a Ha) as (_ & Ht & Hreal). rewrite Hid in Ht.
      pose proof (table_keys_nodup _ _ _ _ _ _ Hports Hhops Hwire) as NDt.
      pose proof (in_assoc_nodup _ _ _ NDt Ht). pose proof (in_assoc_nodup _ _ _ NDt Hin).
      now replace cb with (a_cb a) by congruence.
    - intros (l & Hl & <- & M).
      destruct (accepted_real _ _ _ _ _ _ Hports Hhops Hwire l Hl M) as (p' & f & q & Ht & Ef & Ha).
      destruct (wire_inv _ _ _ _ _ _ Hwire) as (pl & _ & _ & E1 & _).
      pose proof (serialize_labels_nodup _ _ _ _ E1 Hlabels) as NDl.
      injection (NoDup_map_inj snd _ _ _ NDl Ht Hin eq_refl) as ->.
      exists (mkAcc f q (l_cb l)). split; [exact Ha|]. now apply N.eqb_eq.
  Qed.

  (** End to end: the value is wired ([wire]) and its requests resolve under an arbitrary schedule with
      the far end's decisions computed by the matching; at quiescence, when no connection was lost,
      the callback of every normally travelling half got its connected port at both ends, and the
      callback of every half the far end does not know got an error, with nothing left at the far end. *)
  Theorem end_to_end acts :
    let s := run acts (init_sys (S (length hops)) (decisions w)) in
    quiescent s -> s_dead s = [] ->
    forall i p cb r, nth_error (w_table w) i = Some (p, cb) -> nth_error (s_reqs s) i = Some r ->
      ((exists l, In l ls /\ l_cb l = cb /\ l_mode l = MReal) -> r_phase r = DoneOk /\ r_far r = FConn) /\
      ((exists l, In l ls /\ l_cb l = cb /\ l_mode l = MIgnored) -> r_phase r = DoneErr /\ r_far r = FNone).
  Proof.
    intros s Hq Hd i p cb r Hi Hr.
    pose proof (resolved_at_quiescence (S (length hops)) (decisions w) acts ltac:(lia) Hq i r Hr) as H.
    fold s in H.
    pose proof (decisions_spec _ _ _ Hi) as DS.
    split.
    - intros Hreal. apply DS in Hreal. rewrite Hreal in H. destruct H as [H|[_ H]]; [exact H|]. now rewrite Hd in H.
    - intros [l [Hl [Hcb M]]].
      destruct (nth i (decisions w) false) eqn:ED; [|exact H].
      exfalso. destruct DS as [DS1 _]. destruct (DS1 eq_refl) as [l' [Hl' [Hcb' M']]].
      assert (l' = l) by (apply (NoDup_map_inj l_cb _ _ _ Hlabels Hl' Hl); congruence).
      subst l'. congruence.
  Qed.
End EndToEnd.

(** facts read off the source (regenerated on every run) *)
Lemma source_shape :
  ser_id_is_port = true /\ ser_callbacks_in_order = true /\ forward_keeps_id = true /\
  forward_relays_answer = true /\ deser_keyed_by_remote_port = true /\ match_by_id = true /\
  missing_ports_reported = true /\ interlock_sites_understood = true /\
  bin_tx_marks_own = bin_rx_marks_own /\ lr_tx_marks_own = lr_rx_marks_own.
Proof. repeat split; reflexivity. Qed.
