(** Common imports and settings; [len], [sum], [prefix] and list facts used in several directories;
    runs and reachability over action lists. *)
From Coq Require Export List NArith ZArith Lia Bool Arith.
Export ListNotations.
#[global] Open Scope N_scope.

#[global] Arguments N.add : simpl never.
#[global] Arguments N.sub : simpl never.
#[global] Arguments N.mul : simpl never.
#[global] Arguments N.div : simpl never.
#[global] Arguments N.modulo : simpl never.
#[global] Arguments N.eqb : simpl never.
#[global] Arguments N.ltb : simpl never.
#[global] Arguments N.leb : simpl never.
#[global] Arguments N.min : simpl never.
#[global] Arguments N.max : simpl never.
#[global] Arguments N.pow : simpl never.
#[global] Arguments N.of_nat : simpl never.
#[global] Arguments N.to_nat : simpl never.

(** [lia] with division/modulo support. *)
From Coq Require Export ZifyBool ZifyN ZifyNat.
Ltac Zify.zify_post_hook ::= Z.div_mod_to_equations.

Definition len {A} (l : list A) : N := N.of_nat (length l).

Lemma len_nil {A} : len (@nil A) = 0. Proof. reflexivity. Qed.
Lemma len_cons {A} (x : A) l : len (x :: l) = 1 + len l.
Proof. unfold len. cbn [length]. lia. Qed.
Lemma len_app {A} (l1 l2 : list A) : len (l1 ++ l2) = len l1 + len l2.
Proof. unfold len. rewrite app_length. lia. Qed.
Lemma len_map {A B} (f : A -> B) l : len (map f l) = len l.
Proof. unfold len. now rewrite map_length. Qed.
Lemma len_snoc {A} (l : list A) x : len (l ++ [x]) = len l + 1.
Proof. rewrite len_app, len_cons, len_nil. lia. Qed.
Lemma len_firstn {A} (l : list A) (n : N) : len (firstn (N.to_nat n) l) = N.min n (len l).
Proof. unfold len. rewrite firstn_length. lia. Qed.

Fixpoint sum (l : list N) : N := match l with [] => 0 | x :: r => x + sum r end.
Lemma sum_app l1 l2 : sum (l1 ++ l2) = sum l1 + sum l2.
Proof. induction l1 as [|x l1 IH]; cbn [sum app]; lia. Qed.
Lemma sum_cons x l : sum (x :: l) = x + sum l. Proof. reflexivity. Qed.
Lemma sum_snoc l x : sum (l ++ [x]) = sum l + x.
Proof. rewrite sum_app. cbn [sum]. lia. Qed.

Definition prefix {A} (l1 l2 : list A) : Prop := exists r, l2 = l1 ++ r.
Lemma prefix_refl {A} (l : list A) : prefix l l.
Proof. exists []. now rewrite app_nil_r. Qed.
Lemma prefix_nil {A} (l : list A) : prefix [] l.
Proof. now exists l. Qed.
Lemma prefix_app_r {A} (l1 l2 l3 : list A) : prefix l1 l2 -> prefix l1 (l2 ++ l3).
Proof. intros [r ->]. exists (r ++ l3). now rewrite app_assoc. Qed.
Lemma prefix_trans {A} (l1 l2 l3 : list A) : prefix l1 l2 -> prefix l2 l3 -> prefix l1 l3.
Proof. intros [r ->] [r' ->]. exists (r ++ r'). now rewrite app_assoc. Qed.
Lemma filter_prefix {A} (f : A -> bool) l1 l2 : prefix l1 l2 -> prefix (filter f l1) (filter f l2).
Proof. intros [r ->]. exists (filter f r). apply filter_app. Qed.

Lemma firstn_skipn_len {A} (k : nat) (l : list A) :
  (k <= length l)%nat -> length (firstn k l) = k.
Proof. intros. rewrite firstn_length. lia. Qed.

Lemma firstn_app_all {A} (l1 l2 : list A) : firstn (length l1) (l1 ++ l2) = l1.
Proof. rewrite <- (Nat.add_0_r (length l1)), firstn_app_2. apply app_nil_r. Qed.
Lemma firstn_snoc_le {A} (l x : list A) t : (t <= length l)%nat -> firstn t (l ++ x) = firstn t l.
Proof. intros H. rewrite firstn_app. replace (t - length l)%nat with O by lia. apply app_nil_r. Qed.
Lemma firstn_S_nth {A} (l : list A) k x : nth_error l k = Some x -> firstn (S k) l = firstn k l ++ [x].
Proof.
  revert k. induction l as [|y l IH]; intros k H; [destruct k; discriminate|].
  destruct k as [|k]; cbn [nth_error] in H; [now injection H as ->|].
  change (firstn (S (S k)) (y :: l)) with (y :: firstn (S k) l). now rewrite (IH _ H).
Qed.
Lemma nth_error_snoc {A} (l : list A) x : nth_error (l ++ [x]) (length l) = Some x.
Proof. rewrite nth_error_app2 by lia. now rewrite Nat.sub_diag. Qed.
Lemma nth_snoc {A} (l : list A) x k y :
  nth_error (l ++ [x]) k = Some y -> nth_error l k = Some y \/ (k = length l /\ y = x).
Proof.
  intros H. destruct (Nat.lt_ge_cases k (length l)) as [Hlt|Hge]; [left; now rewrite nth_error_app1 in H|right].
  rewrite nth_error_app2 in H by exact Hge. destruct (k - length l)%nat as [|[|]] eqn:E; cbn in H; try discriminate.
  split; [lia|congruence].
Qed.

Lemma NoDup_snoc {A} (l : list A) x : NoDup l -> ~ In x l -> NoDup (l ++ [x]).
Proof.
  intros H1 H2. rewrite <- (rev_involutive (l ++ [x])), rev_app_distr. apply NoDup_rev. cbn.
  constructor; [now rewrite <- in_rev|now apply NoDup_rev].
Qed.
Lemma NoDup_map_inj {A B} (f : A -> B) l x y : NoDup (map f l) -> In x l -> In y l -> f x = f y -> x = y.
Proof.
  induction l as [|z l IH]; cbn [map]; [intros _ []|]. intros ND Hx Hy E. inversion ND as [|? ? Hn ND']; subst.
  destruct Hx as [->|Hx], Hy as [->|Hy]; auto; exfalso; apply Hn; [rewrite E|rewrite <- E]; now apply in_map.
Qed.

(** Runs over action lists: [fold_left] of a total [step], [orun] of a partial one. *)
Lemma fold_left_inv {S A} (step : S -> A -> S) (P : S -> Prop) :
  (forall s a, P s -> P (step s a)) -> forall acts s, P s -> P (fold_left step acts s).
Proof. intros H acts. induction acts as [|a acts IH]; cbn [fold_left]; auto. Qed.

Section OptRun.
  Context {S A : Type} (step : S -> A -> option S).

  Fixpoint orun (acts : list A) (s : S) : option S :=
    match acts with
    | [] => Some s
    | a :: r => match step s a with Some s' => orun r s' | None => None end
    end.

  Lemma orun_inv (P : S -> Prop) :
    (forall s a s', P s -> step s a = Some s' -> P s') ->
    forall acts s s', P s -> orun acts s = Some s' -> P s'.
  Proof.
    intros H acts. induction acts as [|a acts IH]; cbn [orun]; intros s s' Hs E.
    - now injection E as <-.
    - destruct (step s a) eqn:Ea; [eauto|discriminate].
  Qed.

  Lemma orun_app a b s :
    orun (a ++ b) s = match orun a s with Some s' => orun b s' | None => None end.
  Proof.
    revert s. induction a as [|x a IH]; intros s; cbn [orun app]; [reflexivity|].
    now destruct (step s x).
  Qed.

  Definition otry (s : S) (a : A) : S := match step s a with Some s' => s' | None => s end.

  Lemma otry_run acts s : exists acts', incl acts' acts /\ orun acts' s = Some (fold_left otry acts s).
  Proof.
    revert s. induction acts as [|a acts IH]; intros s; cbn [fold_left].
    - exists []. split; [apply incl_refl|reflexivity].
    - destruct (IH (otry s a)) as (r & Hi & Hr). unfold otry in *.
      destruct (step s a) eqn:Ea.
      + exists (a :: r). split; [now apply incl_cons; [left|apply incl_tl]|]. cbn [orun]. now rewrite Ea.
      + exists r. split; [now apply incl_tl|exact Hr].
  Qed.
End OptRun.

(** Reachability by a partial step function.  A runner's own "try" functions that skip the actions that are not
    enabled are convertible with [otry] and [fold_left otry]. *)
Section OReach.
  Context {S A : Type} (step : S -> A -> option S).

  Definition oreach (s s' : S) : Prop := exists acts, orun step acts s = Some s'.

  Lemma oreach_refl s : oreach s s.
  Proof. now exists []. Qed.
  Lemma oreach_trans s1 s2 s3 : oreach s1 s2 -> oreach s2 s3 -> oreach s1 s3.
  Proof. intros [a1 H1] [a2 H2]. exists (a1 ++ a2). now rewrite orun_app, H1. Qed.
  Lemma oreach_fold {B} (f : S -> B -> S) (l : list B) :
    (forall s x, oreach s (f s x)) -> forall s, oreach s (fold_left f l s).
  Proof. intros Hf s. apply (fold_left_inv f (oreach s)); [|apply oreach_refl]. intros s0 x H. eapply oreach_trans; eauto. Qed.
  Lemma oreach_trys acts s : oreach s (fold_left (otry step) acts s).
  Proof. destruct (otry_run step acts s) as (acts' & _ & H). now exists acts'. Qed.
  Lemma oreach_try s a : oreach s (otry step s a).
  Proof. exact (oreach_trys [a] s). Qed.
End OReach.
