(** Confinement, type safety and release of handles, for every action list. *)
From Remoc Require Import Lib.Base Robj.Handle.
From RecordUpdate Require Import RecordUpdate.

Ltac prj :=
  cbn [cells handles storage flight tasks used issued set RecordSet.set kill
       c_owner c_tag c_taken c_prov h_ep h_tag h_st h_live h_org s_conn s_ep s_id s_cell
       m_conn m_dst m_id m_tag m_org t_conn t_ep t_id t_cell fst snd] in *.

(** * Lists *)
Lemma getN_app_l {A} (l r : list A) n x : getN l n = Some x -> getN (l ++ r) n = Some x.
Proof.
  unfold getN. intros H. rewrite nth_error_app1; [exact H|]. apply nth_error_Some. congruence.
Qed.

Lemma getN_len {A} (l : list A) x : getN (l ++ [x]) (len l) = Some x.
Proof.
  unfold getN, len. rewrite Nat2N.id. rewrite nth_error_app2 by lia. now rewrite Nat.sub_diag.
Qed.

Lemma upd_nat_get {A} (f : A -> A) : forall (l : list A) k j,
  nth_error (upd_nat k f l) j = if Nat.eqb j k then option_map f (nth_error l j) else nth_error l j.
Proof.
  induction l as [|x l IH]; intros k j.
  - cbn [upd_nat]. destruct k; destruct (Nat.eqb j _); destruct j; reflexivity.
  - destruct k, j; cbn [upd_nat nth_error Nat.eqb option_map]; try reflexivity. apply IH.
Qed.

Lemma getN_updN {A} (f : A -> A) (l : list A) n m :
  getN (updN n f l) m = if m =? n then option_map f (getN l m) else getN l m.
Proof.
  unfold getN, updN. rewrite upd_nat_get.
  destruct (N.eqb_spec m n) as [->|Hne].
  - now rewrite Nat.eqb_refl.
  - destruct (Nat.eqb_spec (N.to_nat m) (N.to_nat n)) as [E|_]; [|reflexivity].
    apply N2Nat.inj in E. contradiction.
Qed.

Lemma Forall_upd_nat {A} (P : A -> Prop) (f : A -> A) : forall (l : list A) k,
  Forall P l -> (forall x, P x -> P (f x)) -> Forall P (upd_nat k f l).
Proof.
  induction l as [|x l IH]; intros k Hl Hf; destruct k; cbn [upd_nat]; auto;
    inversion Hl; subst; constructor; auto.
Qed.
Lemma Forall_updN {A} (P : A -> Prop) (f : A -> A) (l : list A) n :
  Forall P l -> (forall x, P x -> P (f x)) -> Forall P (updN n f l).
Proof. apply Forall_upd_nat. Qed.

Lemma Forall_snoc {A} (P : A -> Prop) l x : Forall P l -> P x -> Forall P (l ++ [x]).
Proof. intros. apply Forall_app. split; auto. Qed.

Lemma Forall_filter {A} (P : A -> Prop) (p : A -> bool) l : Forall P l -> Forall P (filter p l).
Proof. apply incl_Forall, incl_filter. Qed.

Lemma take_first_spec {A} (p : A -> bool) : forall (l : list A) x r,
  take_first p l = Some (x, r) ->
  p x = true /\ In x l /\ (forall y, In y r -> In y l) /\
  (forall q : A -> bool, len (filter q l) = (if q x then 1 else 0) + len (filter q r)).
Proof.
  induction l as [|y l IH]; intros x r H; cbn [take_first] in H; [discriminate|].
  destruct (p y) eqn:Ep.
  - injection H as <- <-. repeat split; auto; [now left|intros; now right|].
    intros q. cbn [filter]. destruct (q y); rewrite ?len_cons; lia.
  - destruct (take_first p l) as [[z r']|] eqn:Et; [|discriminate]. injection H as <- <-.
    destruct (IH _ _ eq_refl) as (Hp & Hin & Hsub & Hcnt). repeat split; auto.
    + now right.
    + intros w [<-|Hw]; [now left|right; auto].
    + intros q. cbn [filter]. specialize (Hcnt q). destruct (q y); rewrite ?len_cons; lia.
Qed.

Lemma NoDup_filter_map {A B} (f : A -> B) (p : A -> bool) (l : list A) :
  NoDup (map f l) -> NoDup (map f (filter p l)).
Proof.
  induction l as [|z l IH]; intros H; cbn [filter map]; [constructor|].
  cbn [map] in H. inversion H as [|? ? Hnin Hnd]; subst. destruct (p z); auto.
  cbn [map]. constructor; auto. intros Hin. apply Hnin. apply in_map_iff in Hin.
  destruct Hin as (w & Hw & Hin). apply filter_In in Hin. apply in_map_iff. exists w. tauto.
Qed.

Lemma mem_In i l : mem i l = true <-> In i l.
Proof.
  unfold mem. rewrite existsb_exists. split.
  - intros (x & Hx & E). apply N.eqb_eq in E. now subst.
  - intros H. exists i. split; auto. apply N.eqb_refl.
Qed.

Definition cell_ok (s : sys) (v e : N) : Prop := exists cl, getN (cells s) v = Some cl /\ c_owner cl = e.

(** ghost origin of a handle agrees with what it refers to *)
Definition org_ok (s : sys) (x : hstate) (o : option N) : Prop :=
  forall v0, o = Some v0 ->
  match x with
  | LocalCreated v => v = v0
  | LocalReceived v i => v = v0 /\ In (i, v0) (issued s)
  | Remote i => In (i, v0) (issued s)
  end.

Definition entry_ok (s : sys) (en : entry) : Prop :=
  cell_ok s (s_cell en) (s_ep en) /\ In (s_id en, s_cell en) (issued s) /\
  In (mk_task (s_conn en) (s_ep en) (s_id en) (s_cell en)) (tasks s).
Definition handle_ok (s : sys) (hd : handle) : Prop :=
  (forall v, st_cell (h_st hd) = Some v -> cell_ok s v (h_ep hd)) /\ org_ok s (h_st hd) (h_org hd).
Definition msg_ok (s : sys) (m : tmsg) : Prop := forall v0, m_org m = Some v0 -> In (m_id m, v0) (issued s).

Record Inv (s : sys) : Prop := {
  inv_sto : Forall (entry_ok s) (storage s);
  inv_han : Forall (handle_ok s) (handles s);
  inv_fly : Forall (msg_ok s) (flight s);
  inv_fun : forall i v v', In (i, v) (issued s) -> In (i, v') (issued s) -> v = v';
  inv_used : forall i v, In (i, v) (issued s) -> In i (used s);
  inv_tid : NoDup (map t_id (tasks s));
  inv_tused : Forall (fun t => In (t_id t) (used s)) (tasks s)
}.

(** what a step may do to cells, ids and tasks as far as the per-element conditions care *)
Definition cells_ext (l l' : list cell) : Prop :=
  forall v cl, getN l v = Some cl ->
    exists cl', getN l' v = Some cl' /\ c_owner cl' = c_owner cl /\ c_tag cl' = c_tag cl /\
                (c_taken cl = true -> c_taken cl' = true).

Lemma cells_ext_refl l : cells_ext l l.
Proof. intros v cl H. eauto 6. Qed.
Lemma cells_ext_app l x : cells_ext l (l ++ [x]).
Proof. intros v cl H. exists cl. split; [now apply getN_app_l|auto]. Qed.
Lemma cells_ext_upd l n f :
  (forall c, c_owner (f c) = c_owner c /\ c_tag (f c) = c_tag c /\ (c_taken c = true -> c_taken (f c) = true)) ->
  cells_ext l (updN n f l).
Proof.
  intros Hf v cl H. rewrite getN_updN. destruct (v =? n); [|eauto 6].
  rewrite H. cbn [option_map]. exists (f cl). destruct (Hf cl) as (A & B & C). auto.
Qed.

Lemma cell_ok_ext s s' v e : cells_ext (cells s) (cells s') -> cell_ok s v e -> cell_ok s' v e.
Proof. intros Hx (cl & Hg & Ho). destruct (Hx _ _ Hg) as (cl' & Hg' & Ho' & _). exists cl'. split; congruence. Qed.

Lemma org_ok_ext s s' x o : incl (issued s) (issued s') -> org_ok s x o -> org_ok s' x o.
Proof.
  intros Hi H v0 E. specialize (H v0 E). destruct x; auto; try (destruct H; split; auto); try (now apply Hi).
Qed.

Lemma entry_ok_ext s s' en :
  cells_ext (cells s) (cells s') -> incl (issued s) (issued s') -> incl (tasks s) (tasks s') ->
  entry_ok s en -> entry_ok s' en.
Proof.
  intros Hc Hi Ht (H1 & H2 & H3). repeat split; [eapply cell_ok_ext; eauto|now apply Hi|now apply Ht].
Qed.
Lemma handle_ok_ext s s' hd :
  cells_ext (cells s) (cells s') -> incl (issued s) (issued s') -> handle_ok s hd -> handle_ok s' hd.
Proof.
  intros Hc Hi (H1 & H2). split; [intros v E; eapply cell_ok_ext; eauto|eapply org_ok_ext; eauto].
Qed.
Lemma msg_ok_ext s s' m : incl (issued s) (issued s') -> msg_ok s m -> msg_ok s' m.
Proof. intros Hi H v0 E. apply Hi. now apply H. Qed.

Lemma Inv_init : Inv init.
Proof. constructor; cbn; try constructor; try (intros; contradiction). Qed.

Lemma live_handle_spec s h hd : live_handle s h = Some hd -> getN (handles s) h = Some hd /\ h_live hd = true.
Proof.
  unfold live_handle. destruct (getN (handles s) h) as [x|]; [|discriminate].
  destruct (h_live x) eqn:E; [|discriminate]. intros [= <-]. auto.
Qed.

Lemma live_handle_ok s h hd : Inv s -> live_handle s h = Some hd -> handle_ok s hd.
Proof.
  intros HI H. apply live_handle_spec in H. destruct H as [H _]. apply nth_error_In in H.
  pose proof (inv_han s HI) as HF. rewrite Forall_forall in HF. auto.
Qed.

(** dropping a handle or changing its phantom type does not touch what the invariant says *)
Lemma handle_ok_flags s hd l t : handle_ok s hd -> handle_ok s (hd <| h_live := l |>) /\ handle_ok s (hd <| h_tag := t |>).
Proof. intros H. split; exact H. Qed.

Lemma Inv_kill s h : Inv s -> Inv (kill s h).
Proof.
  intros [H1 H2 H3 H4 H5 H6 H7]. constructor; prj; auto.
  apply Forall_updN; [exact H2|auto].
Qed.

Lemma Inv_ext s s' :
  Inv s -> cells_ext (cells s) (cells s') -> incl (issued s) (issued s') -> incl (tasks s) (tasks s') ->
  Forall (entry_ok s') (storage s) /\ Forall (handle_ok s') (handles s) /\ Forall (msg_ok s') (flight s).
Proof.
  intros HI Hc Hi Ht. repeat split; (eapply Forall_impl; [|apply HI]); intros x;
    [now apply entry_ok_ext|now apply handle_ok_ext|now apply msg_ok_ext].
Qed.

Lemma Inv_cells_upd s v f :
  (forall c, c_owner (f c) = c_owner c /\ c_tag (f c) = c_tag c /\ (c_taken c = true -> c_taken (f c) = true)) ->
  Inv s -> Inv (s <| cells ::= updN v f |>).
Proof.
  intros Hf HI. destruct (Inv_ext s (s <| cells ::= updN v f |>) HI) as (A & B & _);
    [now apply cells_ext_upd|apply incl_refl..|].
  destruct HI. constructor; prj; auto.
Qed.

Lemma access_state s hd take :
  fst (access s hd take) = s \/
  exists v, fst (access s hd take) = s <| cells ::= updN v (fun c => c <| c_taken := true |>) |>.
Proof.
  unfold access. destruct (st_cell (h_st hd)) as [v|]; [|now left].
  destruct (getN (cells s) v) as [cl|]; [|now left]. destruct (c_taken cl); [now left|].
  destruct take; [right; exists v; reflexivity|now left].
Qed.

Lemma Inv_access s hd take : Inv s -> Inv (fst (access s hd take)).
Proof.
  intros HI. destruct (access_state s hd take) as [->|[v ->]]; [exact HI|].
  apply Inv_cells_upd; auto.
Qed.

Lemma at_site_spec c e i en : at_site c e i en = true <-> s_conn en = c /\ s_ep en = e /\ s_id en = i.
Proof. unfold at_site. rewrite !andb_true_iff, !N.eqb_eq. tauto. Qed.

Lemma Inv_step s a : Inv s -> Inv (fst (step s a)).
Proof.
  intros HI. pose proof HI as [H1 H2 H3 H4 H5 H6 H7].
  destruct a as [e t keep|h|h|h t|h c dst i|c e|c dst i t|c e|h|h|h|v|v|i]; cbn [step].
  - cbn [fst]. match goal with |- Inv ?s1 => destruct (Inv_ext s s1 HI) as (A & B & _) end;
      [apply cells_ext_app|apply incl_refl..|].
    constructor; prj; auto. apply Forall_snoc; [exact B|]. split; prj.
    + intros v [= <-]. eexists. split; [apply getN_len|reflexivity].
    + intros v0 [= <-]. reflexivity.
  - destruct (live_handle s h) as [hd|] eqn:El; [|exact HI]. cbn [fst].
    constructor; prj; auto. apply Forall_snoc; [exact H2|]. exact (live_handle_ok s h hd HI El).
  - destruct (live_handle s h); [apply Inv_kill|]; exact HI.
  - destruct (live_handle s h); [|exact HI]. cbn [fst]. constructor; prj; auto.
    apply Forall_updN; [exact H2|auto].
  - destruct (live_handle s h) as [hd|] eqn:El; [|exact HI].
    destruct (live_handle_ok s h hd HI El) as [Hc Ho].
    destruct (h_st hd) as [v|v j|j] eqn:Est.
    2,3: (* a received or remote handle is forwarded under the id it has: only the message is added *)
      cbn [fst]; constructor; prj; auto;
      [apply Forall_updN; [exact H2|auto]|apply Forall_snoc; [exact H3|]; intros v0 E; prj; apply (Ho v0 E)].
    + destruct (mem i (used s)) eqn:Em; [exact HI|]. cbn [fst].
      assert (Hfresh : ~ In i (used s)) by (rewrite <- mem_In; congruence).
      match goal with |- Inv ?s1 => destruct (Inv_ext s s1 HI) as (A & B & C) end;
        [apply cells_ext_refl|apply incl_tl, incl_refl|apply incl_appl, incl_refl|].
      constructor; prj.
      * apply Forall_snoc; [exact A|]. repeat split; prj.
        -- apply Hc. reflexivity.
        -- now left.
        -- apply in_or_app. right. now left.
      * apply Forall_updN; [exact B|auto].
      * apply Forall_snoc; [exact C|]. intros v0 E. prj. specialize (Ho v0 E). cbn in Ho. subst. now left.
      * intros j v1 v2 [E1|I1] [E2|I2].
        -- congruence.
        -- injection E1 as <- <-. exfalso. apply Hfresh. eapply H5; eauto.
        -- injection E2 as <- <-. exfalso. apply Hfresh. eapply H5; eauto.
        -- eapply H4; eauto.
      * intros j v1 [E|I]; [injection E as <- <-; now left|right; eapply H5; eauto].
      * rewrite map_app. cbn [map]. apply NoDup_snoc; auto. intros Hin. apply Hfresh.
        apply in_map_iff in Hin. destruct Hin as (t0 & E & Ht0). cbn [t_id] in E. rewrite <- E.
        rewrite Forall_forall in H7. auto.
      * apply Forall_snoc; [|now left]. eapply Forall_impl; [|exact H7]. intros t0 Ht0. now right.
  - destruct (take_first (for_ep c e) (flight s)) as [[m rest]|] eqn:Et; [|exact HI].
    destruct (take_first_spec _ _ _ _ Et) as (_ & Hin & Hsub & _).
    assert (Hm : msg_ok s m) by (rewrite Forall_forall in H3; auto).
    assert (Hrest : Forall (msg_ok s) rest).
    { apply Forall_forall. intros y Hy. rewrite Forall_forall in H3. auto. }
    destruct (find (at_site c e (m_id m)) (storage s)) as [en|] eqn:Ef; cbn [fst].
    + apply find_some in Ef. destruct Ef as [Hen Hsite]. apply at_site_spec in Hsite. destruct Hsite as (_ & Hep & Hid).
      assert (Heo : entry_ok s en) by (rewrite Forall_forall in H1; auto). destruct Heo as (Hcell & Hiss & _).
      constructor; prj; auto.
      * apply Forall_filter. exact H1.
      * apply Forall_snoc; [exact H2|]. split; prj.
        -- intros v [= <-]. now rewrite <- Hep.
        -- intros v0 E. specialize (Hm v0 E). rewrite <- Hid in Hm at 1. split; [|now rewrite <- Hid].
           eapply H4; eauto.
    + constructor; prj; auto. apply Forall_snoc; [exact H2|]. split; prj; [discriminate|].
      intros v0 E. exact (Hm v0 E).
  - cbn [fst]. constructor; prj; auto. apply Forall_snoc; [exact H3|]. intros v0 E. discriminate.
  - destruct (take_first (for_ep c e) (flight s)) as [[m rest]|] eqn:Et; [|exact HI].
    destruct (take_first_spec _ _ _ _ Et) as (_ & _ & Hsub & _). cbn [fst].
    constructor; prj; auto. apply Forall_forall. intros y Hy. rewrite Forall_forall in H3. exact (H3 y (Hsub y Hy)).
  - destruct (live_handle s h); [apply Inv_access|]; exact HI.
  - destruct (live_handle s h); [apply Inv_access|]; exact HI.
  - destruct (live_handle s h); [apply Inv_access, Inv_kill|]; exact HI.
  - destruct (prov_of s v); try exact HI. destruct (getN (cells s) v); [|exact HI].
    cbn [fst]. apply Inv_cells_upd; auto.
  - destruct (prov_of s v); try exact HI. destruct (getN (cells s) v); [|exact HI].
    cbn [fst]. apply Inv_cells_upd; auto.
  - destruct (find (fun t => t_id t =? i) (tasks s)) as [t|] eqn:Ef; [|exact HI].
    destruct (task_enabled s t); [|exact HI]. cbn [fst].
    apply find_some in Ef. destruct Ef as [Ht Hti]. apply N.eqb_eq in Hti.
    constructor; prj; auto.
    + apply Forall_forall. intros en Hen. apply filter_In in Hen. destruct Hen as [Hen Hns].
      rewrite Forall_forall in H1. destruct (H1 en Hen) as (Ha & Hb & Hc). repeat split; auto.
      apply filter_In. split; [exact Hc|]. prj. apply negb_true_iff. apply N.eqb_neq. intros E.
      assert (mk_task (s_conn en) (s_ep en) (s_id en) (s_cell en) = t).
      { eapply NoDup_map_inj; eauto. prj. congruence. }
      subst t. prj. apply negb_true_iff in Hns. rewrite <- not_true_iff_false in Hns. apply Hns.
      apply at_site_spec. auto.
    + now apply NoDup_filter_map.
    + now apply Forall_filter.
Qed.

Lemma Inv_run acts : forall s, Inv s -> Inv (fst (hrun acts s)).
Proof.
  induction acts as [|a r IH]; intros s HI; cbn [hrun]; [exact HI|].
  pose proof (Inv_step s a HI) as H1. destruct (step s a) as [s1 o]. cbn [fst] in H1.
  specialize (IH s1 H1). destruct (hrun r s1) as [s2 os]. exact IH.
Qed.

Lemma Inv_reach s : reach s -> Inv s.
Proof. intros [acts <-]. apply Inv_run, Inv_init. Qed.

Definition is_access (a : action) (h : N) : Prop := a = AAsRef h \/ a = AAsMut h \/ a = AIntoInner h.

Lemma access_val s hd take x : snd (access s hd take) = RVal x ->
  st_cell (h_st hd) = Some x /\
  exists cl, getN (cells s) x = Some cl /\ c_taken cl = false /\ c_tag cl = h_tag hd.
Proof.
  unfold access. destruct (st_cell (h_st hd)) as [v|]; [|discriminate].
  destruct (getN (cells s) v) as [cl|] eqn:Eg; [|discriminate].
  destruct (c_taken cl) eqn:Et; [discriminate|]. cbn [snd].
  destruct (c_tag cl =? h_tag hd) eqn:Ec; [|discriminate]. intros [= <-].
  split; [reflexivity|]. exists cl. apply N.eqb_eq in Ec. auto.
Qed.

Lemma access_step s a h : is_access a h ->
  snd (step s a) = match live_handle s h with
                   | Some hd => snd (access s hd false)
                   | None => RNone
                   end.
Proof.
  intros [->|[->| ->]]; cbn [step]; destruct (live_handle s h) as [hd|]; try reflexivity.
  unfold access. prj. destruct (st_cell (h_st hd)); [|reflexivity].
  destruct (getN (cells s) n); [|reflexivity]. destruct (c_taken c); reflexivity.
Qed.

Theorem confined s a h x :
  Inv s -> is_access a h -> snd (step s a) = RVal x ->
  exists hd cl, live_handle s h = Some hd /\ getN (cells s) x = Some cl /\
    c_owner cl = h_ep hd /\ c_tag cl = h_tag hd /\ c_taken cl = false /\
    (forall v0, h_org hd = Some v0 -> v0 = x).
Proof.
  intros HI Ha Hr. rewrite (access_step s a h Ha) in Hr.
  destruct (live_handle s h) as [hd|] eqn:El; [|discriminate].
  apply access_val in Hr. destruct Hr as (Hc & cl & Hg & Ht & Hty).
  destruct (live_handle_ok s h hd HI El) as [Hcell Horg].
  destruct (Hcell x Hc) as (cl' & Hg' & Hown). rewrite Hg in Hg'. injection Hg' as <-.
  exists hd, cl. repeat split; auto.
  intros v0 E. specialize (Horg v0 E). destruct (h_st hd); cbn [st_cell] in Hc; try discriminate;
    injection Hc as <-; [auto|destruct Horg; auto].
Qed.

Theorem access_outcomes s a h : is_access a h ->
  match snd (step s a) with
  | RVal _ | RUnknown | RMismatch => live_handle s h <> None
  | RNone => live_handle s h = None
  | _ => False
  end.
Proof.
  intros Ha. rewrite (access_step s a h Ha). destruct (live_handle s h) as [hd|]; [|reflexivity].
  unfold access. destruct (st_cell (h_st hd)); [|discriminate].
  destruct (getN (cells s) n); [|discriminate]. destruct (c_taken c); [discriminate|]. cbn [snd].
  destruct (c_tag c =? h_tag hd); discriminate.
Qed.

Lemma only_access_yields_values s a x : snd (step s a) = RVal x -> exists h, is_access a h.
Proof.
  destruct a; cbn [step]; unfold is_access; eauto;
    repeat match goal with
           | |- context [match ?e with _ => _ end] => destruct e
           end; cbn [snd]; try discriminate.
Qed.

Theorem foreign_unknown s a h hd v0 cl0 :
  Inv s -> is_access a h -> live_handle s h = Some hd ->
  h_org hd = Some v0 -> getN (cells s) v0 = Some cl0 -> c_owner cl0 <> h_ep hd ->
  snd (step s a) = RUnknown.
Proof.
  intros HI Ha El Eo Eg Hne. rewrite (access_step s a h Ha), El.
  destruct (live_handle_ok s h hd HI El) as [Hcell Horg]. specialize (Horg v0 Eo).
  unfold access. destruct (h_st hd) as [v|v j|j]; cbn [st_cell]; [| |reflexivity].
  - subst v. destruct (Hcell v0 eq_refl) as (cl & Hg & Ho). congruence.
  - destruct Horg as [-> _]. destruct (Hcell v0 eq_refl) as (cl & Hg & Ho). congruence.
Qed.

Theorem wrong_type_error s a h hd v0 cl0 :
  Inv s -> is_access a h -> live_handle s h = Some hd ->
  h_org hd = Some v0 -> getN (cells s) v0 = Some cl0 -> c_tag cl0 <> h_tag hd ->
  snd (step s a) = RUnknown \/ snd (step s a) = RMismatch.
Proof.
  intros HI Ha El Eo Eg Hne. pose proof (confined s a h) as Hc. pose proof (access_outcomes s a h Ha) as Ho.
  destruct (snd (step s a)) eqn:Er; try tauto; [|rewrite El in Ho; discriminate].
  destruct (Hc v HI Ha eq_refl) as (hd' & cl & El' & Hg & _ & Hty & _ & Horg).
  rewrite El in El'. injection El' as <-. specialize (Horg v0 Eo). subst v. congruence.
Qed.

Lemma step_cells_ext s a : cells_ext (cells s) (cells (fst (step s a))).
Proof.
  assert (Hacc : forall s0 hd take, cells s0 = cells s -> cells_ext (cells s) (cells (fst (access s0 hd take)))).
  { intros s0 hd take E. destruct (access_state s0 hd take) as [->|[v ->]]; prj; rewrite E;
      [apply cells_ext_refl|apply cells_ext_upd; auto]. }
  destruct a; cbn [step];
    repeat match goal with
           | |- context [access ?s0 ?hd ?tk] => apply Hacc; reflexivity
           | |- context [match ?e with _ => _ end] => destruct e
           end; prj; try apply cells_ext_refl; try (apply cells_ext_upd; auto).
  all: apply cells_ext_app.
Qed.

Lemma taken_step s a x cl : getN (cells s) x = Some cl -> c_taken cl = true ->
  exists cl', getN (cells (fst (step s a))) x = Some cl' /\ c_taken cl' = true.
Proof. intros Hg Ht. destruct (step_cells_ext s a x cl Hg) as (cl' & A & _ & _ & B). eauto. Qed.

Theorem taken_forever acts : forall s x cl,
  Inv s -> getN (cells s) x = Some cl -> c_taken cl = true -> ~ In (RVal x) (snd (hrun acts s)).
Proof.
  induction acts as [|a r IH]; intros s x cl HI Hg Ht; cbn [hrun]; [cbn; tauto|].
  pose proof (Inv_step s a HI) as HI1. destruct (taken_step s a x cl Hg Ht) as (cl1 & Hg1 & Ht1).
  destruct (step s a) as [s1 o] eqn:Es. cbn [fst] in *. specialize (IH s1 x cl1 HI1 Hg1 Ht1).
  destruct (hrun r s1) as [s2 os]. cbn [snd] in *. intros [E|Hin]; [|auto]. subst o.
  assert (Hr : snd (step s a) = RVal x) by now rewrite Es.
  destruct (only_access_yields_values s a x Hr) as [h Ha].
  destruct (confined s a h x HI Ha Hr) as (_ & cl' & _ & Hg' & _ & _ & Ht' & _). congruence.
Qed.

Theorem into_inner_takes s h x :
  (snd (step s (AIntoInner h)) = RVal x \/ snd (step s (AIntoInner h)) = RMismatch) ->
  exists hd v cl, live_handle s h = Some hd /\ st_cell (h_st hd) = Some v /\
    getN (cells (fst (step s (AIntoInner h)))) v = Some cl /\ c_taken cl = true /\
    (snd (step s (AIntoInner h)) = RVal x -> v = x).
Proof.
  cbn [step]. destruct (live_handle s h) as [hd|]; [|intros [H|H]; discriminate].
  unfold access. prj. destruct (st_cell (h_st hd)) as [v|] eqn:Ec; [|intros [H|H]; discriminate].
  destruct (getN (cells s) v) as [cl|] eqn:Eg; [|intros [H|H]; discriminate].
  destruct (c_taken cl); [intros [H|H]; discriminate|]. prj. intros H.
  exists hd, v, (cl <| c_taken := true |>). repeat split; auto.
  - rewrite getN_updN, N.eqb_refl, Eg. reflexivity.
  - destruct (c_tag cl =? h_tag hd); [intros [= <-]; reflexivity|discriminate].
Qed.

Lemma find_In_some {A} (p : A -> bool) (l : list A) x : In x l -> p x = true -> exists y, find p l = Some y.
Proof.
  intros Hin Hp. destruct (find p l) eqn:E; [eauto|]. exfalso.
  pose proof (find_none p l E x Hin). congruence.
Qed.

Lemma find_task s i t : Inv s -> In t (tasks s) -> t_id t = i -> find (fun x => t_id x =? i) (tasks s) = Some t.
Proof.
  intros HI Hin Hid. destruct (find_In_some (fun x => t_id x =? i) (tasks s) t Hin) as [y Hy]; [now apply N.eqb_eq|].
  rewrite Hy. f_equal. apply find_some in Hy. destruct Hy as [Hy Hyi]. apply N.eqb_eq in Hyi.
  eapply NoDup_map_inj; eauto using inv_tid. congruence.
Qed.

Lemma task_enabled_iff s t :
  task_enabled s t = true <-> holders s (t_id t) = 0 \/ prov_of s (t_cell t) = PDropped.
Proof.
  unfold task_enabled. destruct (prov_of s (t_cell t)); rewrite ?N.eqb_eq; split; auto;
    intros [H|H]; auto; discriminate.
Qed.

Lemma entry_task s en : Inv s -> In en (storage s) ->
  In (mk_task (s_conn en) (s_ep en) (s_id en) (s_cell en)) (tasks s).
Proof. intros HI Hen. pose proof (inv_sto s HI) as H. rewrite Forall_forall in H. apply (H en Hen). Qed.

Theorem release_enabled s en :
  Inv s -> In en (storage s) ->
  (holders s (s_id en) = 0 \/ prov_of s (s_cell en) = PDropped) ->
  exists s', step s (ARelease (s_id en)) = (s', RUnit) /\ ~ In en (storage s') /\ incl (storage s') (storage s).
Proof.
  intros HI Hen Hc. pose proof (entry_task s en HI Hen) as Ht.
  set (t := mk_task (s_conn en) (s_ep en) (s_id en) (s_cell en)) in *.
  cbn [step]. rewrite (find_task s (s_id en) t HI Ht eq_refl).
  assert (He : task_enabled s t = true) by (now apply task_enabled_iff).
  rewrite He. eexists. split; [reflexivity|]. prj. split.
  - intros Hin. apply filter_In in Hin. destruct Hin as [_ Hn]. apply negb_true_iff in Hn.
    subst t. prj. assert (at_site (s_conn en) (s_ep en) (s_id en) en = true) by (apply at_site_spec; auto). congruence.
  - intros x Hx. apply filter_In in Hx. tauto.
Qed.

Theorem quiescent_released s en :
  Inv s -> quiescent s -> In en (storage s) ->
  holders s (s_id en) <> 0 /\ prov_of s (s_cell en) <> PDropped.
Proof.
  intros HI Hq Hen. specialize (Hq _ (entry_task s en HI Hen)).
  apply not_true_iff_false in Hq. rewrite task_enabled_iff in Hq. cbn [t_id t_cell] in Hq. tauto.
Qed.

(** a live handle or a message in flight that descends from the handle made for cell [v] *)
Definition descends (v : N) (o : option N) : bool := match o with Some w => w =? v | None => false end.

Lemma filter_nil_iff {A} (p : A -> bool) l : len (filter p l) = 0 <-> forall x, In x l -> p x = false.
Proof.
  induction l as [|y l IH]; cbn [filter]; [split; [intros _ x []|reflexivity]|].
  destruct (p y) eqn:E.
  - rewrite len_cons. split; [lia|]. intros H. specialize (H y (or_introl eq_refl)). congruence.
  - rewrite IH. split; intros H x; [intros [<-|Hx]; auto|intros Hx; apply H; now right].
Qed.

Theorem value_released s v :
  Inv s -> quiescent s ->
  (forall hd, In hd (handles s) -> h_live hd = true -> st_cell (h_st hd) <> Some v) ->
  (prov_of s v = PDropped \/
   (forall hd, In hd (handles s) -> h_live hd = true -> descends v (h_org hd) = false) /\
   (forall m, In m (flight s) -> descends v (m_org m) = false)) ->
  value_alive s v = false.
Proof.
  intros HI Hq Hloc Hc. unfold value_alive. destruct (getN (cells s) v) as [cl|]; [|reflexivity].
  apply andb_false_iff. right. unfold referenced. apply orb_false_iff. split.
  - apply not_true_iff_false. intros Hex. apply existsb_exists in Hex. destruct Hex as (hd & Hin & Hr).
    unfold refs_cell in Hr. apply andb_true_iff in Hr. destruct Hr as [Hl Hr].
    destruct (st_cell (h_st hd)) as [w|] eqn:Ec; [|discriminate]. apply N.eqb_eq in Hr. subst w.
    exact (Hloc hd Hin Hl Ec).
  - apply not_true_iff_false. intros Hex. apply existsb_exists in Hex. destruct Hex as (en & Hin & Hr).
    unfold stored_cell in Hr. apply N.eqb_eq in Hr.
    destruct (quiescent_released s en HI Hq Hin) as [Hh Hp]. rewrite Hr in Hp.
    destruct Hc as [Hc|[Hhd Hfl]]; [contradiction|]. apply Hh. unfold holders.
    pose proof (inv_sto s HI) as H1. rewrite Forall_forall in H1. destruct (H1 en Hin) as (_ & Hiss & _). rewrite Hr in Hiss.
    assert (E1 : len (filter (holds (s_id en)) (handles s)) = 0).
    { apply filter_nil_iff. intros hd Hhin. unfold holds. destruct (h_live hd) eqn:El; [|reflexivity].
      specialize (Hhd hd Hhin El). destruct (h_org hd) as [w|] eqn:Eo; [|reflexivity]. cbn [genuine andb].
      destruct (st_id (h_st hd)) as [j|] eqn:Ej; [|reflexivity]. apply N.eqb_neq. intros ->.
      pose proof (inv_han s HI) as H2. rewrite Forall_forall in H2. destruct (H2 hd Hhin) as [_ Ho].
      specialize (Ho w Eo). cbn [descends] in Hhd. apply N.eqb_neq in Hhd. apply Hhd.
      destruct (h_st hd); cbn [st_id] in Ej; try discriminate; injection Ej as ->;
        [destruct Ho as [_ Ho]|]; eapply (inv_fun s HI); eauto. }
    assert (E2 : len (filter (carries (s_id en)) (flight s)) = 0).
    { apply filter_nil_iff. intros m Hmin. unfold carries. specialize (Hfl m Hmin).
      destruct (m_org m) as [w|] eqn:Eo; [|reflexivity]. cbn [genuine andb]. apply N.eqb_neq. intros E.
      pose proof (inv_fly s HI) as H3. rewrite Forall_forall in H3. specialize (H3 m Hmin w Eo). rewrite E in H3.
      cbn [descends] in Hfl. apply N.eqb_neq in Hfl. apply Hfl. eapply (inv_fun s HI); eauto. }
    lia.
Qed.

Definition same_env (s s' : sys) : Prop := cells s' = cells s /\ handles s' = handles s /\ flight s' = flight s.

Lemma task_enabled_env s s' t : same_env s s' -> task_enabled s' t = task_enabled s t.
Proof. intros (E1 & E2 & E3). unfold task_enabled, prov_of, holders. now rewrite E1, E2, E3. Qed.

Lemma release_step s i :
  Inv s ->
  let s' := fst (step s (ARelease i)) in
  same_env s s' /\ incl (tasks s') (tasks s) /\
  (forall t, In t (tasks s') -> t_id t = i -> task_enabled s t = false).
Proof.
  intros HI. cbn [step]. destruct (find (fun t => t_id t =? i) (tasks s)) as [t|] eqn:Ef.
  - pose proof (find_some _ _ Ef) as [Hin Hid]. apply N.eqb_eq in Hid.
    destruct (task_enabled s t) eqn:Ee; prj.
    + split; [repeat split|split].
      * intros x Hx. apply filter_In in Hx. tauto.
      * intros t' Ht' E. apply filter_In in Ht'. destruct Ht' as [_ Hn]. apply negb_true_iff, N.eqb_neq in Hn. contradiction.
    + split; [repeat split|split; [apply incl_refl|]].
      intros t' Ht' E. assert (t' = t) by (eapply NoDup_map_inj; eauto using inv_tid; congruence). now subst.
  - prj. split; [repeat split|split; [apply incl_refl|]].
    intros t' Ht' E. pose proof (find_none _ _ Ef t' Ht') as Hn. apply N.eqb_neq in Hn. contradiction.
Qed.

Lemma release_all l : forall s0 s,
  Inv s -> same_env s0 s -> incl (tasks s) (tasks s0) ->
  let s' := fst (hrun (map ARelease l) s) in
  Inv s' /\ same_env s0 s' /\ incl (tasks s') (tasks s) /\
  (forall i t, In i l -> In t (tasks s') -> t_id t = i -> task_enabled s0 t = false).
Proof.
  induction l as [|i l IH]; intros s0 s HI He Hs; cbn [map hrun].
  - cbn [fst]. split; [exact HI|split; [exact He|split; [apply incl_refl|]]]. intros i t [].
  - destruct (release_step s i HI) as (He1 & Hs1 & Hp1). pose proof (Inv_step s (ARelease i) HI) as HI1.
    destruct (step s (ARelease i)) as [s1 o]. cbn [fst] in *.
    assert (He01 : same_env s0 s1).
    { destruct He as (A1 & A2 & A3), He1 as (B1 & B2 & B3). repeat split; congruence. }
    destruct (IH s0 s1 HI1 He01 (incl_tran Hs1 Hs)) as (HI2 & He2 & Hs2 & Hp2).
    destruct (hrun (map ARelease l) s1) as [s2 os]. cbn [fst] in *.
    split; [exact HI2|split; [exact He2|split]].
    + eapply incl_tran; eauto.
    + intros j t [<-|Hj] Ht E.
      * rewrite <- (task_enabled_env s0 s t He). apply Hp1; auto.
      * eapply Hp2; eauto.
Qed.

Theorem big_step_quiescent s a : Inv s -> quiescent (fst (big_step s a)) /\ Inv (fst (big_step s a)).
Proof.
  intros HI. unfold big_step, big_acts. cbn [hrun]. pose proof (Inv_step s a HI) as HI1.
  destruct (step s a) as [s1 o]. cbn [fst] in *.
  assert (He : same_env s1 s1) by (repeat split).
  destruct (release_all (enabled_ids s1) s1 s1 HI1 He (incl_refl _)) as (HI2 & He2 & Hs2 & Hp2).
  destruct (hrun (map ARelease (enabled_ids s1)) s1) as [s2 os]. cbn [fst] in *. split; [|exact HI2].
  intros t Ht. rewrite (task_enabled_env s1 s2 t He2). destruct (task_enabled s1 t) eqn:Ee; [|reflexivity].
  rewrite <- Ee. apply (Hp2 (t_id t) t); auto. unfold enabled_ids. apply in_map. apply filter_In. split; auto.
Qed.

Lemma big_step_is_run s a : fst (big_step s a) = fst (hrun (big_acts s a) s).
Proof. unfold big_step. destruct (hrun (big_acts s a) s). reflexivity. Qed.

Lemma hrun_app a1 : forall a2 s, fst (hrun (a1 ++ a2) s) = fst (hrun a2 (fst (hrun a1 s))).
Proof.
  induction a1 as [|x a1 IH]; intros a2 s; cbn [app hrun]; [reflexivity|].
  destruct (step s x) as [s1 o]. specialize (IH a2 s1). destruct (hrun (a1 ++ a2) s1) as [s2 os].
  destruct (hrun a1 s1) as [s3 os3]. exact IH.
Qed.

Lemma big_step_reach s a : reach s -> quiescent (fst (big_step s a)) /\ reach (fst (big_step s a)).
Proof.
  intros Hr. split; [apply big_step_quiescent, Inv_reach, Hr|]. destruct Hr as [acts <-].
  rewrite big_step_is_run. eexists. apply hrun_app.
Qed.
