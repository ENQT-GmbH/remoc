(** Fidelity of lazily transferred values: whatever the number of forwarders, their limits and
    chunk sizes, and wherever connections are cut, a fetch yields exactly the provided bytes or no
    value at all.  The "never truncated" part is the parser theorem of C01
    ([RecvProofs.recv_refines_parse]: a consumer following the receive protocol obtains exactly
    the complete messages of a frame sequence) applied to every forwarder and to the fetcher. *)
From Remoc Require Import Lib.Base Chmux.Parse Chmux.Recv Chmux.RecvProofs Robj.Lazy.

(** [RecvProofs.prj] with the fields of a forwarder added *)
Ltac fprj := cbn [rcving finished restarted max_data max_ports set_rcving set_finished set_restarted
                 fw_alive fw_m fw_r f_ck f_md f_mp fst snd] in *.

(** a chunk has at least one byte ([N.max 1 ck] in [Lazy.chunks]), so [length data] rounds of fuel suffice *)
Lemma chunks_concat fuel ck : forall data, (length data <= fuel)%nat -> concat (chunks fuel ck data) = data.
Proof.
  induction fuel as [|fuel IH]; intros data Hl.
  - destruct data; [reflexivity|cbn in Hl; lia].
  - destruct data as [|x d]; [reflexivity|]. cbn [chunks concat].
    set (k := N.to_nat (N.min (len (x :: d)) (N.max 1 ck))).
    assert (Hk : (1 <= k <= length (x :: d))%nat) by (subst k; unfold len; cbn [length]; lia).
    rewrite IH; [apply firstn_skipn|]. rewrite skipn_length. cbn [length] in *. lia.
Qed.

Lemma chunks_nonempty (fuel : nat) (ck x : N) (d : list N) : chunks (S fuel) ck (x :: d) <> [].
Proof. cbn [chunks]. discriminate. Qed.

Lemma parse_step_data (st : pst) (first last : bool) (b acc : list N) :
  st <> PFin -> (if first then PData [] else st) = PData acc ->
  parse_step st (FData first last b) = if last then (PNone, [MData (acc ++ b)]) else (PData (acc ++ b), []).
Proof. intros Hs E. destruct st; try contradiction; cbn [parse_step]; rewrite E; reflexivity. Qed.

(** any chunking [cs] of the data, flagged as the senders flag it *)
Lemma flag_frames_parse (fin : bool) : forall (cs : list (list N)) (first : bool) (st : pst) (acc : list N),
  cs <> [] -> st <> PFin -> (if first then PData [] else st) = PData acc ->
  parse_from st (flag_frames first fin cs) =
  if fin then (PNone, [MData (acc ++ concat cs)]) else (PData (acc ++ concat cs), []).
Proof.
  induction cs as [|c r IH]; intros first st acc Hne Hs E; [contradiction|].
  destruct r as [|c' r].
  - cbn [flag_frames parse_from concat]. rewrite (parse_step_data st first fin c acc Hs E), app_nil_r.
    destruct fin; reflexivity.
  - change (flag_frames first fin (c :: c' :: r)) with (FData first false c :: flag_frames false fin (c' :: r)).
    cbn [parse_from]. rewrite (parse_step_data st first false c acc Hs E).
    rewrite (IH false (PData (acc ++ c)) (acc ++ c)); [|discriminate|discriminate|reflexivity].
    cbn [concat]. rewrite <- app_assoc. destruct fin; reflexivity.
Qed.

Lemma send_int_parse (ck : N) (first fin : bool) (data : list N) (st : pst) (acc : list N) :
  st <> PFin -> (if first then PData [] else st) = PData acc ->
  parse_from st (send_int ck first fin data) =
  if fin then (PNone, [MData (acc ++ data)]) else (PData (acc ++ data), []).
Proof.
  intros Hs E. destruct data as [|x d].
  - cbn [send_int parse_from]. rewrite (parse_step_data st first fin [] acc Hs E). destruct fin; reflexivity.
  - unfold send_int. rewrite (flag_frames_parse fin _ first st acc); auto.
    + rewrite chunks_concat; [reflexivity|lia].
    + apply chunks_nonempty.
Qed.

Lemma stream_frames_cont ck : forall q acc,
  parse_from (PData acc) (stream_frames ck false q) = (PData (acc ++ concat q), []).
Proof.
  induction q as [|c r IH]; intros acc; cbn [stream_frames concat parse_from].
  - now rewrite app_nil_r.
  - rewrite parse_from_app. rewrite (send_int_parse ck false false c (PData acc) acc); [|discriminate|reflexivity].
    rewrite IH. now rewrite app_assoc.
Qed.

Lemma stream_frames_first ck q st :
  q <> [] -> st <> PFin -> parse_from st (stream_frames ck true q) = (PData (concat q), []).
Proof.
  intros Hq Hs. destruct q as [|c r]; [contradiction|]. cbn [stream_frames concat].
  rewrite parse_from_app. rewrite (send_int_parse ck true false c st []); [|exact Hs|reflexivity].
  rewrite stream_frames_cont. reflexivity.
Qed.

Lemma parse_from_fin st : snd (parse_from st [FFin]) = [].
Proof. destruct st; reflexivity. Qed.

(** the parser state of what the forwarder has sent so far: inside its chunk loop it is in the middle of a
    message with exactly the bytes forwarded; otherwise the port has not ended *)
Definition down_ok (m : cmode) (sd : pst) : Prop :=
  match m with CAny => sd <> PFin | CStream acc => sd = PData acc end.

Lemma data_of_ports ps : data_of [MPorts ps] = [].
Proof. reflexivity. Qed.

Ltac simp_out :=
  fprj; cbn [app concat delivered_msgs flat_map dmsg_msg data_of filter is_data nilb andb];
  rewrite ?app_nil_r, ?drain_q_concat; cbn [app concat]; rewrite ?app_nil_r.

Lemma whole_out ck sd x : sd <> PFin ->
  parse_from sd (send_int ck true true x) = (PNone, [MData x]).
Proof. intros H. now rewrite (send_int_parse ck true true x sd []). Qed.

Lemma drain_out ck sd (r : rstate) q cpl :
  sd <> PFin -> q <> [] -> rcving r = RChunks q cpl ->
  let '(m', r', o) := drain [] r in
  let '(sd', po) := parse_from sd (fdrain ck true r) in
  data_of po = data_of (delivered_msgs o) /\ down_ok m' sd'.
Proof.
  intros Hs Hq Er. unfold drain, fdrain. rewrite Er. destruct cpl.
  - rewrite parse_from_app, (stream_frames_first ck q sd Hq Hs).
    destruct q as [|c q']; [contradiction|]. simp_out. cbn [parse_from parse_step]. simp_out.
    split; [reflexivity|discriminate].
  - rewrite (stream_frames_first ck q sd Hq Hs). simp_out. split; reflexivity.
Qed.

Lemma out_any c r f sd :
  sd <> PFin ->
  let '(m', r', o) := feed_any r f in
  let '(outs, dies) := fwd_any c r f in
  let '(sd', po) := parse_from sd outs in
  data_of po = data_of (delivered_msgs o) /\
  (dies = false -> finished r' = false -> down_ok m' sd').
Proof.
  intros Hs. unfold feed_any, fwd_any. pose proof (handle_any_out r f) as Hx.
  destruct (handle_any r f) as [r0 x]. specialize (Hx r0 x eq_refl).
  destruct x as [[]|]; try (cbn [parse_from]; simp_out; split; [reflexivity|intros _ _; exact Hs]).
  - rewrite (whole_out (f_ck c) sd _ Hs). simp_out. split; [reflexivity|]. intros _ _. discriminate.
  - destruct Hx as (_ & q & cpl & Hq & Er). pose proof (drain_out (f_ck c) sd r0 q cpl Hs Hq Er) as H.
    destruct (drain [] r0) as [[m' r'] o]. destruct (parse_from sd (fdrain (f_ck c) true r0)) as [sd' po].
    destruct H; split; auto.
  - destruct sd; try contradiction; cbn [parse_from parse_step]; simp_out; (split; [reflexivity|intros _ _; discriminate]).
  - destruct sd; try contradiction; cbn [parse_from parse_step]; simp_out; (split; [reflexivity|destruct Hx; congruence]).
  - destruct sd; try contradiction; cbn [parse_from parse_step]; simp_out; (split; [reflexivity|discriminate]).
Qed.

Lemma out_stream c r f acc :
  finished r = false -> rcving r = RChunks [] false -> restarted r = None ->
  let '(m', r', o) := feed (CStream acc) r f in
  let '(outs, dies) := fwd_stream c r f in
  let '(sd', po) := parse_from (PData acc) outs in
  data_of po = data_of (delivered_msgs o) /\
  (dies = false -> finished r' = false -> down_ok m' sd').
Proof.
  intros Hf Er Hre. unfold feed, fwd_stream. rewrite Hf. unfold handle_chunk. rewrite Er.
  destruct f as [first last b|first last ps|].
  - destruct first.
    + fprj. apply out_any. discriminate.
    + unfold drain, fdrain. fprj. rewrite parse_from_app.
      rewrite (send_int_parse (f_ck c) false false b (PData acc) acc); [|discriminate|reflexivity].
      destruct last; cbn [stream_frames app parse_from parse_step]; simp_out.
      * split; [reflexivity|]. intros _ _. discriminate.
      * split; reflexivity.
  - fprj. rewrite Hre, Hf. cbn [parse_from]. simp_out. split; [reflexivity|]. intros _ _. discriminate.
  - fprj. rewrite Hre. cbn [parse_from parse_step]. simp_out. split; [reflexivity|]. intros _ H. discriminate.
Qed.

(** what the invariant of a running forwarder is: it follows the receive protocol ([sim], from the
    proof of C01) and the parser state of what it has sent mirrors its position *)
Definition FInv (st : fstate) (sd : pst) : Prop :=
  fw_alive st = true /\ finished (fw_r st) = false /\
  (exists su, sim (fw_m st) (fw_r st) su) /\ down_ok (fw_m st) sd.

Lemma sim_facts m r su : sim m r su -> finished r = false ->
  restarted r = None /\ match m with CAny => True | CStream _ => rcving r = RChunks [] false end.
Proof.
  intros (Hre & _ & Hst) Hf. specialize (Hst Hf). split; [exact Hre|]. destruct m; [exact I|apply Hst].
Qed.

Lemma any_fin c r f :
  finished r = false ->
  let '(m', r', o) := feed_any r f in
  let '(outs, dies) := fwd_any c r f in
  ((dies = true \/ finished r' = true) -> In FFin outs) /\ (f = FFin -> finished r' = true).
Proof.
  intros Hf. unfold feed_any, fwd_any. pose proof (handle_any_out r f) as Hx.
  destruct (handle_any r f) as [r0 x]. specialize (Hx r0 x eq_refl).
  destruct x as [[]|]; try contradiction;
    try (destruct Hx as [Hne Hf0]; split; [intros [H|H]; congruence|congruence]).
  - destruct Hx as ((Hne & Hf0) & q & cpl & _ & Er). unfold drain, fdrain. rewrite Er.
    destruct cpl; fprj; (split; [intros [H|H]; congruence|congruence]).
  - destruct Hx as [-> Hf0]. split; [intros _; now left|auto].
  - split; [intros _; now left|destruct Hx; congruence].
Qed.

Lemma stream_fin c r f acc :
  finished r = false -> rcving r = RChunks [] false -> restarted r = None ->
  let '(m', r', o) := feed (CStream acc) r f in
  let '(outs, dies) := fwd_stream c r f in
  ((dies = true \/ finished r' = true) -> In FFin outs) /\ (f = FFin -> finished r' = true).
Proof.
  intros Hf Er Hre. unfold feed, fwd_stream. rewrite Hf. unfold handle_chunk. rewrite Er.
  destruct f as [first last b|first last ps|].
  - destruct first.
    + fprj. apply any_fin. fprj. exact Hf.
    + unfold drain, fdrain. fprj. destruct last; fprj; (split; [intros [H|H]; congruence|discriminate]).
  - fprj. rewrite Hre, Hf. fprj. split; [intros [H|H]; fprj; congruence|discriminate].
  - fprj. rewrite Hre. fprj. split; [intros _; now left|reflexivity].
Qed.

Lemma fwd_step_ok c st sd f :
  FInv st sd ->
  let '(st', outs) := fwd_step c st f in
  let '(m', r', o) := feed (fw_m st) (fw_r st) f in
  let '(sd', po) := parse_from sd outs in
  fw_m st' = m' /\ fw_r st' = r' /\ data_of po = data_of (delivered_msgs o) /\
  (FInv st' sd' \/ ((fw_alive st' = false \/ finished (fw_r st') = true) /\ In FFin outs)) /\
  (f = FFin -> finished (fw_r st') = true).
Proof.
  intros (Ha & Hf & (su & Hsim) & Hd). unfold fwd_step. rewrite Ha, Hf. cbn [negb orb].
  destruct (sim_facts _ _ _ Hsim Hf) as [Hre Hm].
  pose proof (feed_sim (fw_m st) (fw_r st) su f Hsim) as Hnext.
  assert (Hgen : forall m' r' o outs dies,
            sim m' r' (fst (parse_step su f)) ->
            (let '(sd', po) := parse_from sd outs in
             data_of po = data_of (delivered_msgs o) /\ (dies = false -> finished r' = false -> down_ok m' sd')) ->
            ((dies = true \/ finished r' = true) -> In FFin outs) /\ (f = FFin -> finished r' = true) ->
            let st' := mk_fstate (negb dies) m' r' in
            let '(sd', po) := parse_from sd outs in
            fw_m st' = m' /\ fw_r st' = r' /\ data_of po = data_of (delivered_msgs o) /\
            (FInv st' sd' \/ ((fw_alive st' = false \/ finished (fw_r st') = true) /\ In FFin outs)) /\
            (f = FFin -> finished (fw_r st') = true)).
  { intros m' r' o outs dies Hs H [F1 F2]. cbv zeta. destruct (parse_from sd outs) as [sd' po]. destruct H as [H1 H2]. fprj.
    repeat split; auto. destruct dies; [right; auto|]. destruct (finished r') eqn:Ef'; [right; auto|].
    left. repeat split; fprj; auto. eauto. }
  destruct (fw_m st) as [|acc] eqn:Em.
  - pose proof (out_any c (fw_r st) f sd Hd) as H. pose proof (any_fin c (fw_r st) f Hf) as F.
    assert (Efeed : feed CAny (fw_r st) f = feed_any (fw_r st) f) by (unfold feed; now rewrite Hf).
    rewrite Efeed in *. destruct (feed_any (fw_r st) f) as [[m' r'] o].
    destruct (fwd_any c (fw_r st) f) as [outs dies]. apply Hgen; auto.
    destruct (parse_step su f). apply Hnext.
  - cbn [down_ok] in Hd. subst sd.
    pose proof (out_stream c (fw_r st) f acc Hf Hm Hre) as H. pose proof (stream_fin c (fw_r st) f acc Hf Hm Hre) as F.
    destruct (feed (CStream acc) (fw_r st) f) as [[m' r'] o].
    destruct (fwd_stream c (fw_r st) f) as [outs dies]. apply Hgen; auto.
    destruct (parse_step su f). apply Hnext.
Qed.

Lemma fwd_all_stopped c st fs : fw_alive st = false \/ finished (fw_r st) = true -> fwd_all c st fs = (st, []).
Proof.
  intros H. induction fs as [|f fs IH]; [reflexivity|]. cbn [fwd_all]. unfold fwd_step.
  replace (negb (fw_alive st) || finished (fw_r st)) with true by (destruct H as [-> | ->]; [reflexivity|now rewrite orb_true_r]).
  now rewrite IH.
Qed.

Lemma prefix_app_both {A} (a b c : list A) : prefix b c -> prefix (a ++ b) (a ++ c).
Proof. intros [r ->]. exists r. now rewrite app_assoc. Qed.

Lemma delivered_app a b : delivered_msgs (a ++ b) = delivered_msgs a ++ delivered_msgs b.
Proof. unfold delivered_msgs. apply flat_map_app. Qed.

Lemma fwd_all_ok c fs : forall st sd,
  FInv st sd ->
  let '(_, outs) := fwd_all c st fs in
  let '(_, _, o) := feed_all (fw_m st) (fw_r st) fs in
  prefix (data_of (snd (parse_from sd outs))) (data_of (delivered_msgs o)).
Proof.
  induction fs as [|f fs IH]; intros st sd HI; cbn [fwd_all feed_all].
  - cbn. apply prefix_nil.
  - pose proof (fwd_step_ok c st sd f HI) as H.
    destruct (fwd_step c st f) as [st1 o1]. destruct (feed (fw_m st) (fw_r st) f) as [[m1 r1] d1].
    destruct (parse_from sd o1) as [sd1 po1] eqn:Ep1. destruct H as (Em & Er & Hd & Hnext & _).
    destruct Hnext as [HI1|[Hstop _]].
    + specialize (IH st1 sd1 HI1). rewrite Em, Er in IH. destruct (fwd_all c st1 fs) as [st2 o2].
      destruct (feed_all m1 r1 fs) as [[m2 r2] d2]. rewrite parse_from_app, Ep1.
      destruct (parse_from sd1 o2) as [sd2 po2]. cbn [snd] in *.
      rewrite data_of_app, delivered_app, data_of_app, Hd. now apply prefix_app_both.
    + rewrite (fwd_all_stopped c st1 fs Hstop). destruct (feed_all m1 r1 fs) as [[m2 r2] d2].
      rewrite app_nil_r, Ep1. cbn [snd]. rewrite delivered_app, data_of_app, Hd. apply prefix_app_r, prefix_refl.
Qed.

Lemma FInv_init c : FInv (finit c) PNone.
Proof.
  unfold FInv, finit. fprj. repeat split; auto; [|discriminate]. exists PNone. apply sim_init.
Qed.

Lemma parse_snoc_fin fs : data_of (parse (fs ++ [FFin])) = data_of (parse fs).
Proof.
  unfold parse. rewrite parse_from_app. destruct (parse_from PNone fs) as [s o].
  pose proof (parse_from_fin s) as H. destruct (parse_from s [FFin]) as [s' o']. cbn [snd] in *. subst o'.
  now rewrite app_nil_r.
Qed.

Theorem node_prefix c arrived failed :
  prefix (data_of (parse (node_out c arrived failed))) (data_of (parse arrived)).
Proof.
  unfold node_out. pose proof (fwd_all_ok c arrived (finit c) PNone (FInv_init c)) as H.
  pose proof (recv_refines_parse (f_md c) (f_mp c) arrived) as Hp.
  destruct (fwd_all c (finit c) arrived) as [st outs]. unfold finit in H. fprj.
  destruct (feed_all CAny (rinit (f_md c) (f_mp c)) arrived) as [[m r] o]. rewrite <- Hp.
  destruct (failed && fw_alive st && negb (finished (fw_r st))); [rewrite parse_snoc_fin|rewrite app_nil_r]; exact H.
Qed.

Lemma handle_any_goes_on r f r1 x : handle_any r f = (r1, x) -> x <> Some OEnd -> finished r1 = finished r.
Proof.
  intros H Hx. apply handle_any_out in H. destruct x as [[]|]; try contradiction; apply H.
Qed.

Lemma recv_loop_first : forall q r r' q' b,
  finished r = false -> recv_loop r q = (r', q', OData b) ->
  exists pre o, q = pre ++ q' /\ feed_all CAny r pre = (CAny, r', o) /\ data_of (delivered_msgs o) = [MData b].
Proof.
  induction q as [|f q IH]; intros r r' q' b Hf H; cbn [recv_loop] in H; [discriminate|].
  destruct (handle_any r f) as [r1 x] eqn:Eh.
  assert (Efeed : forall o1, (match x with
                              | Some (OData b0) => o1 = [DData b0]
                              | Some (OReq ps) => o1 = [DPorts ps]
                              | None => o1 = []
                              | _ => False
                              end) -> feed CAny r f = (CAny, r1, o1)).
  { intros o1 Ho. unfold feed, feed_any. rewrite Hf, Eh. destruct x as [[]|]; try contradiction; now subst. }
  destruct x as [o|].
  - destruct o; try discriminate.
    + injection H as <- <- <-. exists [f], [DData b0]. repeat split.
      cbn [feed_all]. rewrite (Efeed [DData b0] eq_refl). reflexivity.
    + assert (Hf1 : finished r1 = false) by (rewrite (handle_any_goes_on r f r1 _ Eh); [exact Hf|discriminate]).
      destruct (IH r1 r' q' b Hf1 H) as (pre & o & -> & Hfa & Hd).
      exists (f :: pre), ([DPorts ps] ++ o). repeat split.
      * cbn [feed_all]. rewrite (Efeed [DPorts ps] eq_refl), Hfa. reflexivity.
      * rewrite delivered_app, data_of_app, Hd. reflexivity.
  - assert (Hf1 : finished r1 = false) by (rewrite (handle_any_goes_on r f r1 _ Eh); [exact Hf|discriminate]).
    destruct (IH r1 r' q' b Hf1 H) as (pre & o & -> & Hfa & Hd).
    exists (f :: pre), o. repeat split; auto.
    cbn [feed_all]. rewrite (Efeed [] eq_refl), Hfa. reflexivity.
Qed.

Theorem recv_first md mp q r' q' b :
  recv (rinit md mp) q = (r', q', OData b) -> exists pre, prefix pre q /\ data_of (parse pre) = [MData b].
Proof.
  unfold recv. cbn [rinit finished restarted]. intros H.
  destruct (recv_loop_first q (rinit md mp) r' q' b eq_refl H) as (pre & o & -> & Hfa & Hd).
  exists pre. split; [now exists q'|]. pose proof (recv_refines_parse md mp pre) as Hp.
  rewrite Hfa in Hp. congruence.
Qed.

Definition good (bytes : list N) (fs : list frame) : Prop := prefix (data_of (parse fs)) [MData bytes].

Lemma parse_mono pre fs : prefix pre fs -> prefix (data_of (parse pre)) (data_of (parse fs)).
Proof. intros [r ->]. apply filter_prefix, parse_prefix. Qed.

Lemma good_prefix bytes pre fs : prefix pre fs -> good bytes fs -> good bytes pre.
Proof. intros Hp Hg. eapply prefix_trans; [apply parse_mono; eauto|exact Hg]. Qed.

Lemma deliver_prefix cut fs : prefix (fst (deliver cut fs)) fs.
Proof. destruct cut as [d|]; cbn; [exists (skipn d fs); now rewrite firstn_skipn|apply prefix_refl]. Qed.

Lemma stage_prefix x fs : prefix (data_of (parse (stage x fs))) (data_of (parse fs)).
Proof.
  unfold stage. pose proof (deliver_prefix (fst x) fs) as Hp. destruct (deliver (fst x) fs) as [arr failed]. cbn [fst] in Hp.
  eapply prefix_trans; [apply node_prefix|now apply parse_mono].
Qed.

Lemma relay_prefix hops : forall fs, prefix (data_of (parse (relay hops fs))) (data_of (parse fs)).
Proof.
  induction hops as [|x rest IH]; intros fs; cbn [relay]; [apply prefix_refl|].
  eapply prefix_trans; [apply IH|apply stage_prefix].
Qed.

Lemma provider_parse ck bytes : data_of (parse (send_int ck true true bytes ++ [FFin])) = [MData bytes].
Proof.
  rewrite parse_snoc_fin. unfold parse. rewrite (whole_out ck PNone bytes); [reflexivity|discriminate].
Qed.

Lemma good_provider answers ck bytes : good bytes (provider_frames answers ck bytes).
Proof.
  unfold good, provider_frames. destruct answers; [rewrite provider_parse; apply prefix_refl|apply prefix_nil].
Qed.

Theorem fidelity answers ck0 bytes hops mp lastcut b :
  lazy_fetch answers ck0 bytes hops mp lastcut = FOk b -> b = bytes.
Proof.
  unfold lazy_fetch, fetch. set (fs := relay hops (provider_frames answers ck0 bytes)).
  assert (Hg : good bytes fs).
  { unfold good. eapply prefix_trans; [apply relay_prefix|apply good_provider]. }
  pose proof (deliver_prefix lastcut fs) as Hp. destruct (deliver lastcut fs) as [arr failed]. cbn [fst] in Hp.
  destruct (recv (rinit (len bytes) mp) arr) as [[r' q'] o] eqn:Er.
  destruct o; try discriminate; [|destruct failed; discriminate]. intros [= <-].
  destruct (recv_first _ _ _ _ _ _ Er) as (pre & Hpre & Hd).
  assert (Hgp : good bytes pre) by (eapply good_prefix; [eapply prefix_trans; eauto|exact Hg]).
  unfold good in Hgp. rewrite Hd in Hgp. destruct Hgp as [r E]. cbn [app] in E. congruence.
Qed.

Lemma fwd_all_ends c fs : forall st sd,
  FInv st sd ->
  let '(st', outs) := fwd_all c st fs in
  In FFin outs \/ (fw_alive st' = true /\ finished (fw_r st') = false /\ ~ In FFin fs).
Proof.
  induction fs as [|f fs IH]; intros st sd HI; cbn [fwd_all].
  - right. destruct HI as (Ha & Hf & _). repeat split; auto.
  - pose proof (fwd_step_ok c st sd f HI) as Hok.
    destruct (fwd_step c st f) as [st1 o1]. destruct (feed (fw_m st) (fw_r st) f) as [[m1 r1] d1].
    destruct (parse_from sd o1) as [sd1 po1]. destruct Hok as (_ & _ & _ & Hnext & Hf2).
    destruct Hnext as [HI1|[Hstop Hin]].
    + specialize (IH st1 sd1 HI1). destruct (fwd_all c st1 fs) as [st2 o2].
      destruct IH as [Hin|(Ha & Hf & Hn)]; [left; apply in_or_app; now right|].
      right. repeat split; auto. intros [->|Hin]; [|contradiction].
      destruct HI1 as (_ & Hc & _). rewrite (Hf2 eq_refl) in Hc. discriminate.
    + rewrite (fwd_all_stopped c st1 fs Hstop). left. now rewrite app_nil_r.
Qed.

Lemma node_ends c arrived failed : failed = true \/ In FFin arrived -> In FFin (node_out c arrived failed).
Proof.
  intros H. unfold node_out. pose proof (fwd_all_ends c arrived (finit c) PNone (FInv_init c)) as He.
  destruct (fwd_all c (finit c) arrived) as [st outs]. apply in_or_app.
  destruct He as [Hin|(Ha & Hf & Hn)]; [now left|]. right. rewrite Ha, Hf.
  destruct H as [->|Hin]; [now left|contradiction].
Qed.

Lemma stage_ends x fs : In FFin fs -> In FFin (stage x fs).
Proof.
  intros Hin. unfold stage. destruct x as [[d|] c]; cbn [fst snd deliver]; apply node_ends; auto.
Qed.

Lemma relay_ends hops : forall fs, In FFin fs -> In FFin (relay hops fs).
Proof. induction hops as [|x rest IH]; intros fs H; cbn [relay]; auto using stage_ends. Qed.

Lemma provider_ends answers ck bytes : In FFin (provider_frames answers ck bytes).
Proof. unfold provider_frames. destruct answers; [apply in_or_app; right|]; now left. Qed.

Lemma recv_loop_ends : forall q r, In FFin q -> finished r = false -> snd (recv_loop r q) <> OBlock.
Proof.
  induction q as [|f q IH]; intros r Hin Hf; [contradiction|]. cbn [recv_loop].
  destruct (handle_any r f) as [r1 x] eqn:Eh.
  destruct Hin as [->|Hin].
  - cbn [handle_any] in Eh. injection Eh as <- <-. cbn. discriminate.
  - assert (Hx : x <> Some OEnd -> finished r1 = false).
    { intros Hne. rewrite (handle_any_goes_on r f r1 x Eh Hne). exact Hf. }
    assert (Hnb : x <> Some OBlock) by (intros ->; exact (handle_any_out _ _ _ _ Eh)).
    destruct x as [o|]; [|apply IH; auto; apply Hx; discriminate].
    destruct o; cbn [snd]; try discriminate; try (apply IH; auto; apply Hx; discriminate). congruence.
Qed.

Lemma prefix_nil_inv {A} (l : list A) : prefix l [] -> l = [].
Proof. intros [r E]. destruct l; [reflexivity|discriminate]. Qed.

Lemma fetch_nodata length_ mp cut fs :
  data_of (parse (fst (deliver cut fs))) = [] -> In FFin fs -> fetch length_ mp cut fs = FErr.
Proof.
  intros Hd Hin. unfold fetch. destruct (deliver cut fs) as [arr failed] eqn:Ed. cbn [fst] in Hd.
  destruct (recv (rinit length_ mp) arr) as [[r' q'] o] eqn:Er.
  destruct o; try reflexivity.
  - exfalso. destruct (recv_first _ _ _ _ _ _ Er) as (pre & Hpre & Hp).
    pose proof (parse_mono pre arr Hpre) as Hm. rewrite Hd, Hp in Hm. apply prefix_nil_inv in Hm. discriminate.
  - destruct failed; [reflexivity|]. exfalso. destruct cut as [d|]; cbn [deliver] in Ed; [congruence|].
    injection Ed as <-. unfold recv in Er. cbn [rinit finished restarted] in Er.
    apply (recv_loop_ends fs (rinit length_ mp) Hin eq_refl). rewrite Er. reflexivity.
Qed.

Lemma relay_app h1 h2 fs : relay (h1 ++ h2) fs = relay h2 (relay h1 fs).
Proof. revert fs. induction h1 as [|x r IH]; intros fs; cbn [relay app]; auto. Qed.

Theorem interrupted_last answers ck0 bytes hops mp lastcut :
  data_of (parse (fst (deliver lastcut (relay hops (provider_frames answers ck0 bytes))))) = [] ->
  lazy_fetch answers ck0 bytes hops mp lastcut = FErr.
Proof.
  intros H. unfold lazy_fetch. apply fetch_nodata; [exact H|]. apply relay_ends, provider_ends.
Qed.

Theorem interrupted_inner answers ck0 bytes hops1 x hops2 mp lastcut :
  data_of (parse (fst (deliver (fst x) (relay hops1 (provider_frames answers ck0 bytes))))) = [] ->
  lazy_fetch answers ck0 bytes (hops1 ++ x :: hops2) mp lastcut = FErr.
Proof.
  intros H. unfold lazy_fetch. rewrite relay_app. cbn [relay].
  set (fs := relay hops1 (provider_frames answers ck0 bytes)) in *.
  assert (Hs : data_of (parse (stage x fs)) = []).
  { apply prefix_nil_inv. rewrite <- H. unfold stage. destruct (deliver (fst x) fs) as [arr failed]. apply node_prefix. }
  apply fetch_nodata.
  - apply prefix_nil_inv. eapply prefix_trans; [apply parse_mono, deliver_prefix|]. rewrite <- Hs. apply relay_prefix.
  - apply relay_ends, stage_ends, relay_ends, provider_ends.
Qed.
