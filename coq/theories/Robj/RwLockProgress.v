(** Deadlock freedom of the remote read/write lock with the repair of F5 (the cached entry is dropped
    after the cache write lock is taken): from the invariant of [RwLockProofs], which ties the pc of
    every client and monitor to where its name stands in the lock and request queues, the case
    analysis that finds an enabled internal action in every state with a pending request and no user
    guard. *)
From Remoc Require Import Lib.Base Robj.RwLock Robj.RwLockProofs.

Lemma fix_entry_clear k : fix_entry FixClear k = None.
Proof. reflexivity. Qed.

Definition Enabled (fx : fixmode) (s : state) : Prop :=
  exists a, internal a = true /\ step fx s a <> None.
Definition UserGuard (s : state) : Prop :=
  exists c cl, nth_error (clients s) c = Some cl /\ user_guard cl = true.

Lemma cli_enabled fx s c cl :
  Inv fx s -> nth_error (clients s) c = Some cl ->
  match c_pc cl with RHasR | RHasW | RSending | RGot _ _ _ | WSending | WGot _ _ | WConfirmed => True | _ => False end ->
  Enabled fx s.
Proof.
  intros HI Ecl Hp. exists (ACli c). split; [reflexivity|]. cbn [step]. unfold step_cli. rewrite Ecl.
  pose proof (cli_cache _ _ _ _ HI Ecl) as Hk.
  destruct (c_pc cl) eqn:Epc; try contradiction; try discriminate;
    (destruct Hk as [k0 Ek0]; [discriminate|]; rewrite Ek0); [|discriminate..].
  destruct (k_entry k0) as [e|]; [destruct (ent_valid k0 e)|]; discriminate.
Qed.

(** a holder of a cache lock can move, or is a user's read guard, or is a fetch waiting for the owner *)
Definition fetching (s : state) (k : nat) (k0 : cache) : Prop :=
  exists c cl, k_wr k0 = Some (HC c) /\ nth_error (clients s) c = Some cl /\ c_cache cl = k /\ c_pc cl = RWaitVal.

Lemma holder_progress fx s k k0 h :
  Inv fx s -> nth_error (caches s) k = Some k0 ->
  (In h (k_rd k0) \/ k_wr k0 = Some h) -> Enabled fx s \/ UserGuard s \/ fetching s k k0.
Proof.
  intros HI Ek0 Hh. destruct (inv_lock _ _ HI _ _ Ek0) as (L0 & _).
  assert (Hp : exists p, holder_place (clients s) k (k_mons k0) h = Some p /\ (p = PR \/ p = PW /\ k_wr k0 = Some h)).
  { destruct Hh as [Hr|Hw]; [exists PR|exists PW]; (split; [now apply L0|auto]). }
  destruct Hp as (p & Hp & Hpp). destruct h as [c|m]; cbn [holder_place] in Hp.
  - unfold client_place in Hp. destruct (nth_error (clients s) c) as [cl|] eqn:Ecl; [|discriminate].
    destruct (Nat.eqb_spec (c_cache cl) k) as [Ec|]; [|discriminate].
    destruct (c_pc cl) eqn:Epc; try discriminate;
      try (left; apply (cli_enabled fx s c cl HI Ecl); rewrite Epc; exact I);
      injection Hp as <-; destruct Hpp as [Hpp|[Hpp Hw]]; try discriminate.
    + right. right. exists c, cl. auto.
    + right. left. exists c, cl. split; [exact Ecl|]. unfold user_guard. now rewrite Epc.
  - unfold mon_place in Hp. destruct (nth_error (k_mons k0) m) as [mo|] eqn:Emo; [|discriminate].
    destruct (m_pc mo) eqn:Empc; try discriminate; [injection Hp as <-; destruct Hpp as [[=]|[[=] _]]|].
    left. exists (AMon k m). split; [reflexivity|]. cbn [step]. unfold step_mon. rewrite Ek0, Emo, Empc. discriminate.
Qed.

Lemma queue_progress fx s k k0 :
  Inv fx s -> nth_error (caches s) k = Some k0 -> k_q k0 <> [] ->
  Enabled fx s \/ UserGuard s \/ fetching s k k0.
Proof.
  intros HI Ek0 Hq. destruct (k_q k0) as [|[w h] q'] eqn:Eq; [congruence|].
  destruct (grant k0) as [[[k' w'] h']|] eqn:Eg.
  - left. exists (AGrant k). split; [reflexivity|]. cbn [step]. unfold step_grant. rewrite Ek0, Eg.
    destruct h'; discriminate.
  - unfold grant in Eg. rewrite Eq in Eg. destruct w.
    + destruct (k_wr k0) as [hw|] eqn:Ewr.
      * apply (holder_progress fx s k k0 hw HI Ek0). now right.
      * destruct (k_rd k0) as [|hr rd'] eqn:Erd; [discriminate|].
        apply (holder_progress fx s k k0 hr HI Ek0). left. rewrite Erd. now left.
    + destruct (k_wr k0) as [hw|] eqn:Ewr; [|discriminate].
      apply (holder_progress fx s k k0 hw HI Ek0). now right.
Qed.

Lemma forallb_false {A} (f : A -> bool) : forall l, forallb f l = false ->
  exists n x, nth_error l n = Some x /\ f x = false.
Proof.
  induction l as [|y l IH]; cbn [forallb]; [discriminate|]. destruct (f y) eqn:E.
  - intros H. destruct (IH H) as (n & x & Hn & Hx). now exists (S n), x.
  - intros _. now exists O, y.
Qed.

Lemma no_copies_false s :
  no_copies s = false ->
  (exists c cl g v i, nth_error (clients s) c = Some cl /\ c_pc cl = RGot g v i) \/
  (exists k k0 e, nth_error (caches s) k = Some k0 /\ k_entry k0 = Some e /\ e_gen e = o_gen s).
Proof.
  unfold no_copies. intros H. apply andb_false_iff in H.
  destruct H as [H|H]; apply forallb_false in H; destruct H as (n & x & A & B); [left|right].
  - unfold cl_no_copy in B. destruct (c_pc x) eqn:E; try discriminate. eauto 10.
  - unfold k_no_copy in B. destruct (k_entry x) as [e|] eqn:E; [|discriminate].
    apply negb_false_iff, N.eqb_eq in B. eauto 8.
Qed.

Lemma owner_progress s :
  Inv FixClear s -> (o_rq s <> [] \/ o_wq s <> [] \/ o_pc s <> OIdle) ->
  Enabled FixClear s \/ UserGuard s.
Proof.
  intros HI Hw. destruct (inv_glob _ _ HI) as (_ & _ & _ & G8).
  assert (Hown : step_own s <> None -> Enabled FixClear s).
  { intros H. exists AOwn. split; [reflexivity|exact H]. }
  destruct (o_pc s) as [|w|w] eqn:Eop.
  - left. apply Hown. unfold step_own. rewrite Eop.
    destruct (o_wq s) as [|w wq']; [|discriminate]. destruct (o_rq s) as [|c rq']; [|discriminate].
    destruct Hw as [Hw|[Hw|Hw]]; congruence.
  - destruct (no_copies s) eqn:Enc.
    + left. apply Hown. unfold step_own. rewrite Eop, Enc. discriminate.
    + apply no_copies_false in Enc. destruct Enc as [(c & cl & g & v & i & Ecl & Epc)|(k & k0 & e & Ek0 & Ee & Eg)].
      * left. apply (cli_enabled FixClear s c cl HI Ecl). rewrite Epc; exact I.
      * (* a cached copy of the current generation: its monitor moves, or waits for the cache lock *)
        destruct (inv_lock _ _ HI _ _ Ek0) as (L0 & _).
        destruct (proj1 (inv_ent _ _ HI _ _ Ek0) _ Ee) as (_ & mo & Emo & Egen & Hnd).
        destruct (m_seen mo) eqn:Es.
        -- destruct (m_pc mo) eqn:Epc; [| | |congruence].
           ++ left. exists (AMon k (e_mon e)). split; [reflexivity|]. cbn [step]. unfold step_mon.
              rewrite Ek0, Emo, Epc, Es. discriminate.
           ++ assert (Hq : k_q k0 <> []).
              { intros E. pose proof (proj2 (L0 (HM (e_mon e)) (PQ true))) as M0. cbn in M0. unfold mon_place in M0.
                rewrite Emo, Epc, E in M0. destruct (M0 eq_refl). }
              destruct (queue_progress FixClear s k k0 HI Ek0 Hq) as [H|[H|H]]; [now left|now right|].
              (* the lock is not held by a fetch waiting for the owner: such a fetch has cleared the entry *)
              exfalso. destruct H as (c & cl & Hwr & Ecl & Ec & Epc').
              destruct (inv_cli _ _ HI _ _ Ecl) as [_ Pc]. rewrite Epc', (kc_at _ _ _ _ Ek0 Ec) in Pc.
              destruct Pc as (_ & Pc). rewrite Pc in Ee by reflexivity. discriminate.
           ++ left. exists (AMon k (e_mon e)). split; [reflexivity|]. cbn [step]. unfold step_mon.
              rewrite Ek0, Emo, Epc. discriminate.
        -- left. exists (ASee k (e_mon e)). split; [reflexivity|]. cbn [step]. unfold step_see.
           rewrite Ek0, Emo, Es. unfold invalidated. rewrite Egen, Eg, N.eqb_refl, (inv_drop _ _ HI w Eop).
           rewrite orb_true_r. discriminate.
  - destruct (o_sig s) eqn:Es.
    + destruct G8 as (cl & Ecl & Hg). unfold write_guard in Hg. destruct (c_pc cl) eqn:Epc; try discriminate.
      * left. apply (cli_enabled FixClear s w cl HI Ecl). rewrite Epc; exact I.
      * right. exists w, cl. split; [exact Ecl|]. unfold user_guard. now rewrite Epc.
    + left. apply Hown. unfold step_own. rewrite Eop, Es. discriminate.
    + left. apply Hown. unfold step_own. rewrite Eop, Es. discriminate.
Qed.

Theorem progress_fixed s c cl :
  Inv FixClear s -> nth_error (clients s) c = Some cl -> pending cl = true ->
  Enabled FixClear s \/ UserGuard s.
Proof.
  intros HI Ecl Hp. destruct (inv_cli _ _ HI _ _ Ecl) as [_ Ic].
  assert (Hq : forall w, c_pc cl = qpc w -> Enabled FixClear s \/ UserGuard s).
  { intros w Epc. destruct (cli_cache _ _ _ _ HI Ecl) as [k0 Ek0]. { rewrite Epc. now destruct w. }
    pose proof (proj2 (cli_place _ _ _ _ _ (PQ w) HI Ecl Ek0)) as Hin. rewrite Epc in Hin.
    assert (Hne : k_q k0 <> []). { intros E. cbn in Hin. rewrite E in Hin. destruct Hin. now destruct w. }
    destruct (queue_progress FixClear s _ k0 HI Ek0 Hne) as [H|[H|H]]; [now left|now right|].
    destruct H as (c' & cl' & _ & Ecl' & _ & Epc').
    destruct (inv_cli _ _ HI _ _ Ecl') as [_ Pc']. rewrite Epc' in Pc'. destruct Pc' as (Pc' & _).
    apply (owner_progress s HI). left. intros E. rewrite E in Pc'. destruct Pc'. }
  unfold pending in Hp. destruct (c_pc cl) eqn:Epc; try discriminate;
    try (left; apply (cli_enabled FixClear s c cl HI Ecl); rewrite Epc; exact I).
  - exact (Hq false eq_refl).
  - exact (Hq true eq_refl).
  - apply (owner_progress s HI). left. intros E. destruct Ic as (Ic & _). rewrite E in Ic. destruct Ic.
  - apply (owner_progress s HI). destruct Ic as [Ic|Ic].
    + right. left. intros E. rewrite E in Ic. destruct Ic.
    + right. right. congruence.
  - apply (owner_progress s HI). right. right. destruct Ic as [Ic _]. congruence.
Qed.

Theorem progress_fixed_reach v0 nk cof acts :
  let s := run FixClear acts (init v0 nk cof) in
  (forall c cl, nth_error (clients s) c = Some cl -> user_guard cl = false) ->
  (exists c cl, nth_error (clients s) c = Some cl /\ pending cl = true) ->
  exists a, internal a = true /\ step FixClear s a <> None.
Proof.
  intros s Hng (c & cl & Ecl & Hp).
  destruct (progress_fixed s c cl (reach_inv _ _ _ _ _) Ecl Hp) as [H|(c' & cl' & A & B)]; [exact H|].
  rewrite (Hng _ _ A) in B. discriminate.
Qed.

(** a run of internal actions, each enabled when taken, has at most [mu s] steps *)
Fixpoint run_strict (fx : fixmode) (acts : list action) (s : state) : option state :=
  match acts with
  | [] => Some s
  | a :: rest => match step fx s a with Some s' => run_strict fx rest s' | None => None end
  end.

Theorem internal_run_bounded fx acts : forall s s',
  Inv fx s -> forallb internal acts = true -> run_strict fx acts s = Some s' ->
  len acts + mu s' <= mu s.
Proof.
  induction acts as [|a acts IH]; intros s s' HI Hint H; cbn [run_strict] in H.
  - inversion H; subst. rewrite len_nil. lia.
  - cbn [forallb] in Hint. apply andb_prop in Hint. destruct Hint as [Ha Hint].
    destruct (step fx s a) as [s1|] eqn:E; [|discriminate].
    pose proof (mu_decreases fx s a s1 HI Ha E) as Hmu.
    specialize (IH s1 s' (step_inv _ _ _ _ HI E) Hint H). rewrite len_cons. clear - Hmu IH. lia.
Qed.

Definition nonvac_acts : list action :=
  expand FixNone [AInvRead 0; AInvRead 1; AInvWrite 2; ARelease 0; ARelease 1; ACommit 2 9; AInvRead 0]%nat
         (init 5 2 [0; 1; 0]%nat).
Lemma nonvacuous_run :
  let s := run FixNone nonvac_acts (init 5 2 [0; 1; 0]%nat) in
  map c_pc (clients s) = [RHold; CIdle; CIdle] /\
  option_map (guard_value s) (nth_error (clients s) 0) = Some (Some (9, 1)) /\
  o_log s = [9] /\ deadlocked FixNone s = false.
Proof. vm_compute. repeat split; reflexivity. Qed.
