(** One invariant over all action lists: the lock of every cache holds exactly the clients and
    monitors whose pc names that place, the other pcs agree with the owner's request queues, every
    copy of the value is of the owner's current generation.  From it, for every variant [fx] of
    [fetch]: exclusion, freshness, durability (here).  Deadlock freedom holds for [FixClear], the
    [fetch] of /repo ([RwLockProgress]); it is refuted for [FixNone], the [fetch] before the repair
    of finding F5, and for the candidate [FixStale]. *)
From Remoc Require Import Lib.Base Robj.RwLock.

(** ** lists with point updates *)
Lemma nth_error_upd {A} (f : A -> A) : forall l n m,
  nth_error (upd n f l) m = if Nat.eqb n m then option_map f (nth_error l m) else nth_error l m.
Proof.
  induction l as [|x l IH]; intros [|n] [|m]; cbn [upd nth_error Nat.eqb option_map]; auto;
    try (destruct (Nat.eqb _ _); reflexivity).
Qed.

Lemma nth_error_upd_at {A} (f : A -> A) l n x m : nth_error l n = Some x ->
  nth_error (upd n f l) m = if Nat.eqb n m then Some (f x) else nth_error l m.
Proof. intros E. rewrite nth_error_upd. destruct (Nat.eqb_spec n m) as [<-|]; [now rewrite E|reflexivity]. Qed.

Lemma upd_length {A} (f : A -> A) : forall l n, length (upd n f l) = length l.
Proof. induction l as [|x l IH]; intros [|n]; cbn [upd length]; auto. Qed.

Lemma upd_none {A} (g : A -> A) : forall l n, nth_error l n = None -> upd n g l = l.
Proof.
  induction l as [|y l IH]; intros [|n] H; cbn [nth_error upd] in *; try discriminate; auto.
  now rewrite IH.
Qed.

Lemma nth_error_app_old {A} (l : list A) x n y :
  nth_error l n = Some y -> nth_error (l ++ [x]) n = Some y.
Proof. intros H. rewrite nth_error_app1; [exact H|]. apply nth_error_Some. congruence. Qed.

Lemma sum_map_upd {A} (f : A -> N) (g : A -> A) : forall l n x,
  nth_error l n = Some x -> sum (map f (upd n g l)) + f x = sum (map f l) + f (g x).
Proof.
  induction l as [|y l IH]; intros [|n] x H; cbn [nth_error upd map sum] in *; try discriminate.
  - inversion H; subst. lia.
  - specialize (IH _ _ H). lia.
Qed.

Lemma sum_map_snoc {A} (f : A -> N) l x : sum (map f (l ++ [x])) = sum (map f l) + f x.
Proof. rewrite map_app, sum_app. cbn [map sum]. lia. Qed.

Lemma holder_eqb_eq a b : holder_eqb a b = true <-> a = b.
Proof.
  destruct a, b; cbn [holder_eqb]; rewrite ?Nat.eqb_eq; split; intros H;
    try discriminate; try (inversion H; reflexivity); congruence.
Qed.

Lemma in_unread h h' l :
  In h (filter (fun x => negb (holder_eqb x h')) l) <-> In h l /\ h <> h'.
Proof.
  rewrite filter_In. split; intros [H1 H2]; split; auto.
  - intros ->. rewrite (proj2 (holder_eqb_eq h' h')) in H2 by reflexivity. discriminate.
  - destruct (holder_eqb h h') eqn:E; [|reflexivity]. apply holder_eqb_eq in E. contradiction.
Qed.

Definition kc (s : state) (cl : client) : cache := nth (c_cache cl) (caches s) empty_cache.

Lemma kc_at s kk k0 cl : nth_error (caches s) kk = Some k0 -> c_cache cl = kk -> kc s cl = k0.
Proof. intros E <-. now apply nth_error_nth. Qed.

Lemma kc_upd s s' kk k0 f cl :
  nth_error (caches s) kk = Some k0 -> caches s' = upd kk f (caches s) ->
  kc s' cl = if Nat.eqb kk (c_cache cl) then f k0 else kc s cl.
Proof.
  intros Ek0 Eca. unfold kc. rewrite Eca. destruct (Nat.eqb_spec kk (c_cache cl)) as [<-|Hne].
  - apply nth_error_nth. now rewrite (nth_error_upd_at _ _ _ _ _ Ek0), Nat.eqb_refl.
  - destruct (nth_error (caches s) (c_cache cl)) as [ka|] eqn:E.
    + rewrite (nth_error_nth _ _ _ E). apply nth_error_nth. rewrite nth_error_upd.
      destruct (Nat.eqb_spec kk (c_cache cl)); [contradiction|exact E].
    + apply nth_error_None in E. rewrite !nth_overflow; rewrite ?upd_length; auto.
Qed.

Definition copy_ok (s : state) (g v i : N) : Prop :=
  g = o_gen s /\ v = o_val s /\ i = idx s /\ (forall w, o_pc s <> OWaitNew w).

(** the place of a holder (client or monitor) in the lock of a cache, and the place a pc names *)
Inductive place := PQ (w : bool) | PR | PW.
Definition at_place (ka : cache) (h : holder) (p : place) : Prop :=
  match p with PQ w => In (w, h) (k_q ka) | PR => In h (k_rd ka) | PW => k_wr ka = Some h end.

Definition cpc_place (p : cpc) : option place :=
  match p with
  | RQueuedR => Some (PQ false) | RQueuedW => Some (PQ true) | RHasR | RHold => Some PR
  | RHasW | RSending | RWaitVal | RGot _ _ _ => Some PW
  | _ => None
  end.
Definition mpc_place (p : mpc) : option place :=
  match p with MQueued => Some (PQ true) | MHold => Some PW | _ => None end.
Definition mon_place (l : list mon) (m : nat) : option place :=
  match nth_error l m with Some mo => mpc_place (m_pc mo) | None => None end.
Definition client_place (cls : list client) (k c : nat) : option place :=
  match nth_error cls c with
  | Some cl => if Nat.eqb (c_cache cl) k then cpc_place (c_pc cl) else None
  | None => None
  end.
Definition holder_place (cls : list client) (k : nat) (mons : list mon) (h : holder) : option place :=
  match h with HC c => client_place cls k c | HM m => mon_place mons m end.

(** an iff, over clients and monitors alike: a step then only has to say where the one holder that moves
    stood and stands ([inv_local]) *)
Definition lock_ok (s : state) (k : nat) (ka : cache) : Prop :=
  (forall h p, at_place ka h p <-> holder_place (clients s) k (k_mons ka) h = Some p) /\
  NoDup (k_q ka) /\ (k_wr ka <> None -> k_rd ka = []).

Definition ent_ok (s : state) (ka : cache) : Prop :=
  (forall e, k_entry ka = Some e -> copy_ok s (e_gen e) (e_val e) (e_idx e) /\
     exists mo, nth_error (k_mons ka) (e_mon e) = Some mo /\ m_gen mo = e_gen e /\ m_pc mo <> MDone) /\
  (forall m mo, nth_error (k_mons ka) m = Some mo -> m_pc mo <> MWatch -> m_seen mo = true).

Definition cli_ok_ent (fx : fixmode) (s : state) (oe : option ent) (c : nat) (cl : client) : Prop :=
  c_start cl <= idx s /\
  match c_pc cl with
  | RHold => oe <> None
  | RSending => fx = FixClear -> oe = None
  | RWaitVal => In c (o_rq s) /\ (fx = FixClear -> oe = None)
  | RGot g v i => copy_ok s g v i
  | WWait => In c (o_wq s) \/ o_pc s = OWaitDrop c
  | WGot v i | WHold v i => o_pc s = OWaitNew c /\ o_sig s = SNone /\ v = o_val s /\ i = idx s
  | WCommitWait v => o_pc s = OWaitNew c /\ o_sig s = SCommit v
  | _ => True
  end.
Definition cli_ok (fx : fixmode) (s : state) (c : nat) (cl : client) : Prop := cli_ok_ent fx s (k_entry (kc s cl)) c cl.

Definition has_pc (cls : list client) (c : nat) (p : cpc) : Prop :=
  exists cl, nth_error cls c = Some cl /\ c_pc cl = p.

Definition in_flight (s : state) : N := match o_sig s with SCommit _ => 1 | _ => 0 end.

Definition vals_ok (s : state) : Prop :=
  o_val s = hd (o_init s) (o_log s) /\
  g_commits s = len (o_log s) + in_flight s /\
  ((forall w, o_pc s <> OWaitNew w) -> o_sig s = SNone).

Definition queue_ok (cls : list client) (q : list nat) (p : cpc) : Prop :=
  NoDup q /\ forall c, In c q -> has_pc cls c p.

Definition opc_ok (cls : list client) (p : opc) (sg : wsig) (wq : list nat) : Prop :=
  match p with
  | OIdle => True
  | OWaitDrop w => has_pc cls w WWait /\ ~ In w wq
  | OWaitNew w =>
      match sg with
      | SNone => exists cl, nth_error cls w = Some cl /\ write_guard cl = true
      | SCommit v => has_pc cls w (WCommitWait v)
      | SDrop => True
      end
  end.

Definition glob_ok (s : state) : Prop :=
  vals_ok s /\ queue_ok (clients s) (o_rq s) RWaitVal /\ queue_ok (clients s) (o_wq s) WWait /\
  opc_ok (clients s) (o_pc s) (o_sig s) (o_wq s).

Record Inv (fx : fixmode) (s : state) : Prop := mkInv {
  inv_cli : forall c cl, nth_error (clients s) c = Some cl -> cli_ok fx s c cl;
  inv_range : forall c cl, nth_error (clients s) c = Some cl -> cpc_place (c_pc cl) <> None ->
                nth_error (caches s) (c_cache cl) <> None;
  inv_lock : forall k ka, nth_error (caches s) k = Some ka -> lock_ok s k ka;
  inv_ent : forall k ka, nth_error (caches s) k = Some ka -> ent_ok s ka;
  inv_glob : glob_ok s;
  inv_drop : forall w, o_pc s = OWaitDrop w -> o_inv s = true;
}.

Ltac sprjg := cbn [o_val o_gen o_inv o_pc o_sig o_wq o_rq clients caches o_init o_log g_commits
   set_clients set_caches set_opc set_sig set_wq set_rq set_inv next_gen store count_commit set_pc set_cache
   c_cache c_pc c_start cl_pc k_entry k_rd k_wr k_q k_mons k_set_entry k_set_rd k_set_wr k_set_q k_set_mons
   k_enq k_unread m_gen m_seen m_pc m_set_pc m_set_seen e_gen e_val e_idx e_mon].

(** [same_core]: the owner-side fields that [cli_ok_ent] and [copy_ok] read *)
Definition same_core (s s' : state) : Prop :=
  o_val s' = o_val s /\ o_gen s' = o_gen s /\ o_pc s' = o_pc s /\ o_sig s' = o_sig s /\
  o_log s' = o_log s.
Definition same_owner (s s' : state) : Prop :=
  same_core s s' /\ o_init s' = o_init s /\ g_commits s' = g_commits s /\
  o_rq s' = o_rq s /\ o_wq s' = o_wq s /\ o_inv s' = o_inv s.
Ltac sc := repeat split; reflexivity.

Lemma copy_ok_same s s' g v i : same_core s s' -> copy_ok s g v i -> copy_ok s' g v i.
Proof.
  intros (H1 & H2 & H3 & H4 & H5) H. unfold copy_ok, idx in *. rewrite H1, H2, H3, H5. exact H.
Qed.

Lemma cli_ok_ent_mono fx s s' oe c cl :
  same_core s s' -> incl (o_rq s) (o_rq s') -> incl (o_wq s) (o_wq s') ->
  cli_ok_ent fx s oe c cl -> cli_ok_ent fx s' oe c cl.
Proof.
  intros (S1 & S2 & S3 & S4 & S5) Hr Hw. unfold cli_ok_ent, copy_ok, idx. rewrite S1, S2, S3, S4, S5.
  intros [H1 H2]. split; [exact H1|]. destruct (c_pc cl); auto; destruct H2; auto.
Qed.

Lemma cli_ok_mono fx s s' c cl :
  same_core s s' -> incl (o_rq s) (o_rq s') -> incl (o_wq s) (o_wq s') -> caches s' = caches s ->
  cli_ok fx s c cl -> cli_ok fx s' c cl.
Proof. intros Hs Hr Hw Eca. unfold cli_ok, kc. rewrite Eca. now apply cli_ok_ent_mono. Qed.

Lemma has_pc_at cls c cl p : nth_error cls c = Some cl -> has_pc cls c p -> c_pc cl = p.
Proof. intros E (cl0 & A & B). congruence. Qed.

Lemma has_pc_self cls c cl g : nth_error cls c = Some cl -> has_pc (upd c g cls) c (c_pc (g cl)).
Proof. intros E. exists (g cl). now rewrite (nth_error_upd_at _ _ _ _ _ E), Nat.eqb_refl. Qed.

Lemma has_pc_other cls c g c0 p : c0 <> c -> has_pc cls c0 p -> has_pc (upd c g cls) c0 p.
Proof.
  intros Hne (cl & A & B). exists cl. rewrite nth_error_upd.
  destruct (Nat.eqb_spec c c0); [congruence|tauto].
Qed.

(** the client that moves was at another pc than [p]: whoever is at [p] is someone else *)
Lemma has_pc_upd cls c cl g c0 p :
  nth_error cls c = Some cl -> c_pc cl <> p -> has_pc cls c0 p -> has_pc (upd c g cls) c0 p.
Proof. intros E Hne H. apply has_pc_other; [|exact H]. intros ->. apply Hne, (has_pc_at _ _ _ _ E H). Qed.

Lemma queue_ok_notin cls q p c g : ~ In c q -> queue_ok cls q p -> queue_ok (upd c g cls) q p.
Proof. intros Hn [Hd Hq]. split; [exact Hd|]. intros c0 Hin. apply has_pc_other; [congruence|auto]. Qed.

Lemma queue_ok_upd cls q p c cl g :
  nth_error cls c = Some cl -> c_pc cl <> p -> queue_ok cls q p -> queue_ok (upd c g cls) q p.
Proof. intros E Hne H. apply queue_ok_notin; [|exact H]. intros Hin. apply Hne, (has_pc_at _ _ _ _ E), H, Hin. Qed.

Lemma queue_ok_snoc cls q c cl g :
  nth_error cls c = Some cl -> c_pc cl <> c_pc (g cl) -> queue_ok cls q (c_pc (g cl)) ->
  queue_ok (upd c g cls) (q ++ [c]) (c_pc (g cl)).
Proof.
  intros E Hne H. assert (Hn : ~ In c q) by (intros Hin; apply Hne, (has_pc_at _ _ _ _ E), H, Hin).
  split; [apply NoDup_snoc; [apply H|exact Hn]|]. intros c0 Hin. apply in_app_or in Hin.
  destruct Hin as [Hin|[<-|[]]]; [|now apply has_pc_self]. apply (queue_ok_notin _ _ _ _ _ Hn H), Hin.
Qed.

Lemma queue_ok_tail cls c q p : queue_ok cls (c :: q) p -> has_pc cls c p /\ ~ In c q /\ queue_ok cls q p.
Proof.
  intros [Hd Hq]. inversion Hd; subst. split; [apply Hq; now left|]. split; [assumption|].
  split; [assumption|]. intros c0 Hin. apply Hq. now right.
Qed.

Definition glob_pc (p : cpc) : bool :=
  match p with RWaitVal | WWait | WCommitWait _ | WGot _ _ | WHold _ _ => true | _ => false end.

Lemma opc_ok_upd cls p sg wq wq' c cl g :
  nth_error cls c = Some cl -> glob_pc (c_pc cl) = false -> (forall w, In w wq' -> In w wq \/ w = c) ->
  opc_ok cls p sg wq -> opc_ok (upd c g cls) p sg wq'.
Proof.
  intros E Hp Hw. assert (Hh : forall c0 p0, glob_pc p0 = true -> has_pc cls c0 p0 -> has_pc (upd c g cls) c0 p0).
  { intros c0 p0 H0. apply (has_pc_upd _ _ _ _ _ _ E). congruence. }
  destruct p as [|w|w]; cbn [opc_ok]; [auto| |].
  - intros [A B]. split; [now apply Hh|]. intros Hin. destruct (Hw _ Hin) as [Hin'| ->]; [auto|].
    rewrite (has_pc_at _ _ _ _ E A) in Hp. discriminate.
  - destruct sg; [|now apply Hh|auto]. intros (cl0 & A & B). exists cl0. split; [|exact B].
    rewrite nth_error_upd. destruct (Nat.eqb_spec c w) as [<-|]; [|exact A].
    rewrite E in A. inversion A; subst. unfold write_guard in B. destruct (c_pc cl0); discriminate.
Qed.

Lemma glob_ok_upd s s' c cl g :
  nth_error (clients s) c = Some cl -> glob_pc (c_pc cl) = false ->
  same_owner s s' -> clients s' = upd c g (clients s) -> glob_ok s -> glob_ok s'.
Proof.
  intros E Hp ((S1 & S2 & S3 & S4 & S5) & S6 & S7 & S8 & S9 & _) Ecl (Gv & Gr & Gw & Go).
  unfold glob_ok, vals_ok, in_flight in *. rewrite S1, S3, S4, S5, S6, S7, S8, S9, Ecl.
  split; [exact Gv|]. destruct (c_pc cl) eqn:Epc; try discriminate;
    (split; [apply (queue_ok_upd _ _ _ _ _ _ E); [congruence|exact Gr]|];
     split; [apply (queue_ok_upd _ _ _ _ _ _ E); [congruence|exact Gw]|];
     apply (opc_ok_upd _ _ _ (o_wq s) _ _ _ _ E); [now rewrite Epc|auto|exact Go]).
Qed.

Lemma glob_ok_same s s' : same_owner s s' -> clients s' = clients s -> glob_ok s -> glob_ok s'.
Proof.
  intros ((S1 & S2 & S3 & S4 & S5) & S6 & S7 & S8 & S9 & _) Ecl H.
  unfold glob_ok, vals_ok, in_flight in *. now rewrite S1, S3, S4, S5, S6, S7, S8, S9, Ecl.
Qed.

Lemma client_place_at cls k c cl : nth_error cls c = Some cl -> c_cache cl = k -> client_place cls k c = cpc_place (c_pc cl).
Proof. intros E <-. unfold client_place. now rewrite E, Nat.eqb_refl. Qed.

Lemma client_place_off cls k c cl : nth_error cls c = Some cl -> c_cache cl <> k -> client_place cls k c = None.
Proof. intros E Hne. unfold client_place. rewrite E. destruct (Nat.eqb_spec (c_cache cl) k); [contradiction|reflexivity]. Qed.

Lemma holder_eq_dec (h h' : holder) : {h = h'} + {h <> h'}.
Proof. decide equality; apply Nat.eq_dec. Qed.

(** who moves in a step on a cache: a client (cl -> g cl) or a monitor *)
Inductive mover := MC (c : nat) (cl : client) (g : client -> client) | MM (m : nat).

(** A step on one cache [kk] (k0 -> f k0) that leaves the owner alone: the mover has left the place
    its old pc names and stands at the place its new pc names.  Last premise: the entry stays, or
    the cache has no reader and an entry is left only by the mover as its writer -- so what
    [cli_ok_ent] says of the other clients of the cache stays true. *)
Lemma inv_local fx s s' kk k0 f mv :
  Inv fx s -> same_owner s s' ->
  nth_error (caches s) kk = Some k0 -> caches s' = upd kk f (caches s) ->
  match mv with
  | MC c cl g =>
      nth_error (clients s) c = Some cl /\ c_cache cl = kk /\ c_cache (g cl) = kk /\ glob_pc (c_pc cl) = false /\
      clients s' = upd c g (clients s) /\ cli_ok_ent fx s (k_entry (f k0)) c (g cl)
  | MM m => clients s' = clients s
  end ->
  let k1 := f k0 in
  let h0 := match mv with MC c _ _ => HC c | MM m => HM m end in
  let oldp := match mv with MC c cl g => cpc_place (c_pc cl) | MM m => mon_place (k_mons k0) m end in
  let newp := match mv with MC c cl g => cpc_place (c_pc (g cl)) | MM m => mon_place (k_mons k1) m end in
  (forall h p, at_place k1 h p <-> (at_place k0 h p /\ ~ (h = h0 /\ oldp = Some p)) \/ (h = h0 /\ newp = Some p)) ->
  (forall m, HM m <> h0 -> mon_place (k_mons k1) m = mon_place (k_mons k0) m) ->
  NoDup (k_q k1) -> (k_wr k1 <> None -> k_rd k1 = []) -> ent_ok s k1 ->
  (k_entry k1 = k_entry k0 \/ (k_rd k0 = [] /\ (k_entry k1 <> None -> k_wr k0 = Some h0))) ->
  Inv fx s'.
Proof.
  intros [Hc Hr Hl He Hg Hd] Hso Ek0 Eca Hmv k1 h0 oldp newp L LM K4 K1 KE PE. subst k1.
  assert (Hcl : forall c', HC c' <> h0 -> nth_error (clients s') c' = nth_error (clients s) c').
  { intros c' Ho. destruct mv as [c cl g|m]; [|now rewrite Hmv].
    destruct Hmv as (_ & _ & _ & _ & -> & _). rewrite nth_error_upd.
    destruct (Nat.eqb_spec c c'); [subst; now destruct Ho|reflexivity]. }
  assert (Hself : forall c cl g, mv = MC c cl g ->
            nth_error (clients s) c = Some cl /\ nth_error (clients s') c = Some (g cl) /\ c_cache cl = kk /\ c_cache (g cl) = kk).
  { intros c cl g ->. destruct Hmv as (A & B & C & _ & -> & _). now rewrite (nth_error_upd_at _ _ _ _ _ A), Nat.eqb_refl. }
  assert (Hmono : forall oe c cl, cli_ok_ent fx s oe c cl -> cli_ok_ent fx s' oe c cl).
  { intros oe c cl. destruct Hso as (Hs & _ & _ & Er & Ew & _).
    apply cli_ok_ent_mono; [exact Hs|rewrite Er; apply incl_refl|rewrite Ew; apply incl_refl]. }
  assert (Hca : forall k, nth_error (caches s') k = if Nat.eqb kk k then Some (f k0) else nth_error (caches s) k).
  { intros k. rewrite Eca. now apply nth_error_upd_at. }
  destruct (Hl _ _ Ek0) as (L0 & _ & X0).
  assert (Hold : holder_place (clients s) kk (k_mons k0) h0 = oldp).
  { destruct mv as [c cl g|m]; [|reflexivity]. destruct (Hself _ _ _ eq_refl) as (A & _ & B & _). now apply client_place_at. }
  split.
  - intros c' cl0 Hn. unfold cli_ok. rewrite (kc_upd _ _ _ _ _ _ Ek0 Eca). apply Hmono.
    destruct (holder_eq_dec (HC c') h0) as [E|Ho].
    + destruct mv as [c cl g|m]; [injection E as ->|discriminate]. destruct (Hself _ _ _ eq_refl) as (_ & A & _ & B).
      rewrite A in Hn. injection Hn as <-. rewrite B, Nat.eqb_refl. apply Hmv.
    + rewrite (Hcl _ Ho) in Hn.
      specialize (Hc _ _ Hn). destruct (Nat.eqb_spec kk (c_cache cl0)) as [E|_]; [|exact Hc].
      unfold cli_ok in Hc. rewrite (kc_at _ _ _ _ Ek0 (eq_sym E)) in Hc.
      destruct PE as [->|[Erd Hw]]; [exact Hc|]. destruct Hc as [Hs Hc]. split; [exact Hs|].
      assert (Hat : forall p, cpc_place (c_pc cl0) = Some p -> at_place k0 (HC c') p).
      { intros p Hp. apply L0. cbn [holder_place]. now rewrite (client_place_at _ _ _ _ Hn (eq_sym E)). }
      destruct (c_pc cl0); auto.
      * specialize (Hat PW eq_refl). cbn in Hat. intros Hf. destruct (k_entry (f k0)); [|reflexivity].
        rewrite Hw in Hat by discriminate. congruence.
      * specialize (Hat PW eq_refl). cbn in Hat. split; [apply Hc|]. intros Hf. destruct (k_entry (f k0)); [|reflexivity].
        rewrite Hw in Hat by discriminate. congruence.
      * specialize (Hat PR eq_refl). cbn in Hat. rewrite Erd in Hat. destruct Hat.
  - intros c' cl0 Hn Hp. rewrite Hca.
    destruct (Nat.eqb_spec kk (c_cache cl0)); [discriminate|].
    assert (exists cl1, nth_error (clients s) c' = Some cl1 /\ c_cache cl1 = c_cache cl0 /\ (cpc_place (c_pc cl1) <> None \/ c_cache cl1 = kk)) as (cl1 & A & B & C).
    { destruct mv as [c cl g|m]; [|rewrite Hmv in Hn; eauto].
      destruct (Nat.eq_dec c' c) as [->|Hne]; [|rewrite Hcl in Hn by (unfold h0; congruence); eauto].
      destruct (Hself _ _ _ eq_refl) as (A & B & C & D). rewrite B in Hn. injection Hn as <-. exists cl. rewrite C, D. auto. }
    destruct C as [C|C]; [rewrite <- B; now apply (Hr _ _ A)|congruence].
  - intros k ka Hn. rewrite Hca in Hn. destruct (Nat.eqb_spec kk k) as [<-|Hne].
    + injection Hn as <-. split; [|split; [exact K4|exact K1]]. intros h p. rewrite L, L0.
      destruct (holder_eq_dec h h0) as [->|Hh].
      * rewrite Hold. assert (holder_place (clients s') kk (k_mons (f k0)) h0 = newp) as ->.
        { destruct mv as [c cl g|m]; [|reflexivity]. destruct (Hself _ _ _ eq_refl) as (_ & A & _ & B). now apply client_place_at. }
        split; [intros [[A B]|[_ A]]; [destruct B; auto|exact A]|auto].
      * assert (holder_place (clients s') kk (k_mons (f k0)) h = holder_place (clients s) kk (k_mons k0) h) as ->.
        { destruct h as [c'|m']; cbn [holder_place]; [unfold client_place; now rewrite Hcl|now apply LM]. }
        split; [intros [[A _]|[E _]]; [exact A|contradiction]|intros A; left; split; [exact A|now intros [E _]]].
    + destruct (Hl _ _ Hn) as (L1 & N1 & X1). split; [|split; assumption]. intros h p. rewrite L1.
      destruct h as [c'|m']; cbn [holder_place]; [|reflexivity].
      destruct (holder_eq_dec (HC c') h0) as [E|Ho]; [|unfold client_place; now rewrite Hcl].
      destruct mv as [c cl g|m]; [injection E as ->|discriminate]. destruct (Hself _ _ _ eq_refl) as (A & B & C & D).
      rewrite (client_place_off _ _ _ _ A), (client_place_off _ _ _ _ B) by congruence. reflexivity.
  - intros k ka Hn. rewrite Hca in Hn.
    assert (Hcp : forall g v i, copy_ok s g v i -> copy_ok s' g v i) by (intros g v i; apply copy_ok_same, Hso).
    destruct (Nat.eqb_spec kk k) as [<-|Hne]; [injection Hn as <-; destruct KE as [A B]|destruct (He _ _ Hn) as [A B]];
      (split; [intros e E; destruct (A e E); auto|exact B]).
  - destruct mv as [c cl g|m]; [|now apply (glob_ok_same s)].
    destruct Hmv as (Ecl & _ & _ & Hgp & Hcl' & _). now apply (glob_ok_upd s s' c cl g).
  - destruct Hso as ((_ & _ & -> & _) & _ & _ & _ & _ & ->). exact Hd.
Qed.

Lemma inv_global fx s s' (oc : option (nat * client * (client -> client))) :
  Inv fx s -> caches s' = caches s ->
  match oc with
  | Some (c, cl, g) =>
      nth_error (clients s) c = Some cl /\ c_cache (g cl) = c_cache cl /\ cpc_place (c_pc (g cl)) = cpc_place (c_pc cl) /\
      clients s' = upd c g (clients s) /\ cli_ok_ent fx s' (k_entry (kc s cl)) c (g cl)
  | None => clients s' = clients s
  end ->
  (forall c' cl0, match oc with Some (c, _, _) => c' <> c | None => True end ->
     nth_error (clients s) c' = Some cl0 -> cli_ok fx s c' cl0 -> cli_ok fx s' c' cl0) ->
  (forall g v i, copy_ok s g v i ->
     (exists k ka e, nth_error (caches s) k = Some ka /\ k_entry ka = Some e /\
                     g = e_gen e /\ v = e_val e /\ i = e_idx e) -> copy_ok s' g v i) ->
  glob_ok s' -> (forall w, o_pc s' = OWaitDrop w -> o_inv s' = true) -> Inv fx s'.
Proof.
  intros [Hc Hr Hl He Hg Hd] Eca Hoc Hoth Hcopy Hg' Hd'.
  assert (Hex : forall c' cl1, nth_error (clients s') c' = Some cl1 ->
            exists cl0, nth_error (clients s) c' = Some cl0 /\ c_cache cl1 = c_cache cl0 /\ cpc_place (c_pc cl1) = cpc_place (c_pc cl0) /\
                        (match oc with Some (c, _, _) => c' <> c | None => True end -> cl1 = cl0)).
  { intros c' cl1 Hn. destruct oc as [[[c cl] g]|]; [|rewrite Hoc in Hn; eauto 6].
    destruct Hoc as (Ecl & Ec & Hp & Hcl' & _). rewrite Hcl', nth_error_upd in Hn.
    destruct (Nat.eqb_spec c c') as [<-|]; [|eauto 6]. rewrite Ecl in Hn. injection Hn as <-. exists cl. tauto. }
  assert (Hpl : forall k mons h, holder_place (clients s') k mons h = holder_place (clients s) k mons h).
  { intros k mons [c'|m]; [|reflexivity]. cbn. unfold client_place. destruct (nth_error (clients s') c') as [cl1|] eqn:E.
    - destruct (Hex _ _ E) as (cl0 & A & B & C & _). now rewrite A, B, C.
    - destruct oc as [[[c cl] g]|]; [|now rewrite <- Hoc, E]. destruct Hoc as (Ecl & _ & _ & Hcl' & _).
      rewrite Hcl', nth_error_upd in E. destruct (Nat.eqb c c'); [|now rewrite E]. now destruct (nth_error (clients s) c'). }
  split; [| | | |exact Hg'|exact Hd'].
  - intros c' cl1 Hn. destruct (Hex _ _ Hn) as (cl0 & A & _ & _ & D).
    destruct oc as [[[c cl] g]|]; [|rewrite (D I); auto].
    destruct (Nat.eq_dec c' c) as [->|Hne]; [|rewrite (D Hne); auto].
    destruct Hoc as (Ecl & Ec & _ & Hcl' & Hok). rewrite Hcl', (nth_error_upd_at _ _ _ _ _ Ecl), Nat.eqb_refl in Hn.
    injection Hn as <-. unfold cli_ok, kc. rewrite Eca, Ec. exact Hok.
  - intros c' cl1 Hn Hp. destruct (Hex _ _ Hn) as (cl0 & A & B & C & _). rewrite Eca, B. apply (Hr _ _ A). congruence.
  - intros k ka Hn. rewrite Eca in Hn. destruct (Hl _ _ Hn) as (L & N & X). split; [|auto]. intros h p. now rewrite Hpl.
  - intros k ka Hn. rewrite Eca in Hn. destruct (He _ _ Hn) as [A B]. split; [|exact B].
    intros e E. destruct (A e E) as [C D]. split; [|exact D]. apply Hcopy; [exact C|]. exists k, ka, e. tauto.
Qed.

Lemma inv_client fx s s' c cl g :
  Inv fx s -> nth_error (clients s) c = Some cl -> caches s' = caches s -> clients s' = upd c g (clients s) ->
  same_core s s' -> incl (o_rq s) (o_rq s') -> incl (o_wq s) (o_wq s') -> o_inv s' = o_inv s ->
  c_cache (g cl) = c_cache cl -> cpc_place (c_pc (g cl)) = cpc_place (c_pc cl) ->
  cli_ok_ent fx s' (k_entry (kc s cl)) c (g cl) -> glob_ok s' -> Inv fx s'.
Proof.
  intros HI Ecl Eca Ecls Hs Hr Hw Ei Ec Hp Hok Hg.
  apply (inv_global fx s _ (Some (c, cl, g))); [exact HI|exact Eca|tauto| | |exact Hg|].
  - intros c' cl0 _ _. now apply cli_ok_mono.
  - intros g0 v i Hcp _. revert Hcp. now apply copy_ok_same.
  - intros w Hw'. rewrite Ei. apply (inv_drop _ _ HI w). destruct Hs as (_ & _ & <- & _). exact Hw'.
Qed.

Lemma inv_pc_only fx s c cl p :
  Inv fx s -> nth_error (clients s) c = Some cl -> glob_pc (c_pc cl) = false -> cpc_place p = cpc_place (c_pc cl) ->
  cli_ok_ent fx s (k_entry (kc s cl)) c (cl_pc p cl) -> Inv fx (set_pc c p s).
Proof.
  intros HI Ecl Hg Hp Hok.
  apply (inv_client fx s _ c cl (cl_pc p) HI Ecl);
    [reflexivity|reflexivity|sc|apply incl_refl|apply incl_refl|reflexivity|reflexivity|exact Hp|exact Hok|].
  apply (glob_ok_upd s _ c cl (cl_pc p)); [exact Ecl|exact Hg|sc|reflexivity|apply HI].
Qed.

Lemma at_enq w h k h' p : at_place (k_enq w h k) h' p <-> at_place k h' p \/ (h' = h /\ p = PQ w).
Proof.
  destruct p as [w'| |]; cbn; [|intuition congruence..]. rewrite in_app_iff. cbn. intuition congruence.
Qed.

Lemma at_unread h k h' p : at_place (k_unread h k) h' p <-> at_place k h' p /\ ~ (h' = h /\ p = PR).
Proof. destruct p as [w'| |]; cbn; [intuition congruence| |intuition congruence]. rewrite in_unread. intuition congruence. Qed.

(** the lock operations as moves of one holder [h0]: it queues; a reader gives up its read lock and queues
    for the write lock; the writer gives the lock back (a fetching client takes a read lock instead); the
    front waiter is granted the lock *)
Lemma at_enq_new w h0 k h p :
  at_place (k_enq w h0 k) h p <-> (at_place k h p /\ ~ (h = h0 /\ None = Some p)) \/ (h = h0 /\ Some (PQ w) = Some p).
Proof. rewrite at_enq. intuition congruence. Qed.

Lemma at_requeue h0 k h p :
  at_place (k_enq true h0 (k_unread h0 k)) h p <->
  (at_place k h p /\ ~ (h = h0 /\ Some PR = Some p)) \/ (h = h0 /\ Some (PQ true) = Some p).
Proof. rewrite at_enq, at_unread. intuition congruence. Qed.

Lemma at_unwrite k0 k1 h0 (rd : bool) h p :
  k_wr k0 = Some h0 -> k_rd k0 = [] -> k_q k1 = k_q k0 -> k_wr k1 = None -> k_rd k1 = (if rd then [h0] else []) ->
  at_place k1 h p <->
  (at_place k0 h p /\ ~ (h = h0 /\ Some PW = Some p)) \/ (h = h0 /\ (if rd then Some PR else None) = Some p).
Proof.
  intros Hw Hr E1 E2 E3. destruct p; cbn; rewrite ?E1, ?E2, ?E3, ?Hw, ?Hr; destruct rd; cbn; try (intuition congruence);
    (split; [discriminate|]; intros [[[= <-] Hn]|[_ [=]]]; destruct Hn; auto).
Qed.

Lemma cli_place fx s c cl k0 p : Inv fx s -> nth_error (clients s) c = Some cl ->
  nth_error (caches s) (c_cache cl) = Some k0 -> at_place k0 (HC c) p <-> cpc_place (c_pc cl) = Some p.
Proof. intros HI Ecl Ek0. destruct (inv_lock _ _ HI _ _ Ek0) as (L & _). rewrite L. cbn. now rewrite (client_place_at _ _ _ _ Ecl eq_refl). Qed.

Lemma cli_cache fx s c cl : Inv fx s -> nth_error (clients s) c = Some cl -> cpc_place (c_pc cl) <> None ->
  exists k0, nth_error (caches s) (c_cache cl) = Some k0.
Proof. intros HI Ecl Hp. pose proof (inv_range _ _ HI _ _ Ecl Hp). destruct (nth_error (caches s) (c_cache cl)); [eauto|contradiction]. Qed.

Lemma step_invread fx s s' c : Inv fx s -> step_user (AInvRead c) s = Some s' -> Inv fx s'.
Proof.
  intros HI H. cbn [step_user] in H.
  destruct (nth_error (clients s) c) as [cl|] eqn:Ecl; [|discriminate].
  destruct (c_pc cl) eqn:Epc; try discriminate.
  destruct (nth_error (caches s) (c_cache cl)) as [k0|] eqn:Ek0; [|discriminate].
  inversion H; subst s'; clear H.
  destruct (inv_lock _ _ HI _ _ Ek0) as (L0 & Q4 & X0).
  pose proof (cli_place _ _ _ _ _ (PQ false) HI Ecl Ek0) as Hc. rewrite Epc in Hc.
  apply (inv_local fx s _ (c_cache cl) k0 (k_enq false (HC c)) (MC c cl (fun cl => mkCl (c_cache cl) RQueuedR (idx s))));
    [exact HI|sc|exact Ek0|reflexivity| | |reflexivity| |exact X0|exact (inv_ent _ _ HI _ _ Ek0)|now left].
  - refine (conj Ecl (conj eq_refl (conj eq_refl (conj _ (conj eq_refl (conj _ I)))))); [now rewrite Epc|cbn [c_start]; lia].
  - intros h p. rewrite Epc. apply at_enq_new.
  - apply NoDup_snoc; [exact Q4|]. intros Hin. apply Hc in Hin. discriminate.
Qed.

Lemma step_release fx s s' c : Inv fx s -> step_user (ARelease c) s = Some s' -> Inv fx s'.
Proof.
  intros HI H. cbn [step_user] in H.
  destruct (nth_error (clients s) c) as [cl|] eqn:Ecl; [|discriminate].
  destruct (c_pc cl) eqn:Epc; try discriminate.
  inversion H; subst s'; clear H.
  destruct (inv_cli _ _ HI _ _ Ecl) as [Hst _].
  destruct (cli_cache _ _ _ _ HI Ecl) as [k0 Ek0]. { now rewrite Epc. }
  destruct (inv_lock _ _ HI _ _ Ek0) as (L0 & Q4 & X0).
  apply (inv_local fx s _ (c_cache cl) k0 (k_unread (HC c)) (MC c cl (cl_pc CIdle)));
    [exact HI|sc|exact Ek0|reflexivity| | |reflexivity|exact Q4| |exact (inv_ent _ _ HI _ _ Ek0)|now left].
  - refine (conj Ecl (conj eq_refl (conj eq_refl (conj _ (conj eq_refl (conj Hst I)))))). now rewrite Epc.
  - intros h p. rewrite at_unread, Epc. cbn. intuition congruence.
  - intros Hw. cbn. now rewrite (X0 Hw).
Qed.

Lemma at_grant k k1 w h h' p q' :
  k_q k = (w, h) :: q' -> NoDup (k_q k) -> k_wr k = None -> k_q k1 = q' ->
  k_rd k1 = (if w then k_rd k else k_rd k ++ [h]) -> k_wr k1 = (if w then Some h else None) ->
  at_place k1 h' p <->
  (at_place k h' p /\ ~ (h' = h /\ Some (PQ w) = Some p)) \/ (h' = h /\ Some (if w then PW else PR) = Some p).
Proof.
  intros Eq Hnd Ewr E1 E2 E3. rewrite Eq in Hnd. inversion Hnd as [|x l Hnin _]; subst x l.
  destruct p as [w'| |]; cbn; rewrite ?E1, ?E2, ?E3, ?Eq, ?Ewr.
  - split.
    + intros Hin. left. split; [now right|]. intros [-> [= ->]]. contradiction.
    + intros [[[[= -> ->]|Hin] Hn]|[_ E]]; [destruct Hn; auto|exact Hin|destruct w; discriminate E].
  - destruct w; [|rewrite in_app_iff; cbn]; split.
    + intros Hin. left. split; [exact Hin|]. now intros [_ [=]].
    + now intros [[Hin _]|[_ [=]]].
    + intros [Hin|[<-|[]]]; [left; split; [exact Hin|now intros [_ [=]]]|right; auto].
    + intros [[Hin _]|[-> _]]; auto.
  - destruct w; split; try discriminate.
    + intros [= ->]. right. auto.
    + now intros [[[=] _]|[-> _]].
    + now intros [[[=] _]|[_ [=]]].
Qed.

Lemma mon_place_upd_other (l : list mon) m f m' : m' <> m -> mon_place (upd m f l) m' = mon_place l m'.
Proof. intros Hne. unfold mon_place. rewrite nth_error_upd. destruct (Nat.eqb_spec m m'); [congruence|reflexivity]. Qed.

Lemma mon_place_upd_self (l : list mon) m f mo : nth_error l m = Some mo -> mon_place (upd m f l) m = mpc_place (m_pc (f mo)).
Proof. intros E. unfold mon_place. now rewrite (nth_error_upd_at _ _ _ _ _ E), Nat.eqb_refl. Qed.

Lemma ent_ok_upd s k0 k1 m mo g :
  ent_ok s k0 -> nth_error (k_mons k0) m = Some mo -> k_entry k1 = k_entry k0 -> k_mons k1 = upd m g (k_mons k0) ->
  m_gen (g mo) = m_gen mo -> (m_pc mo <> MDone -> m_pc (g mo) <> MDone) ->
  (m_pc (g mo) <> MWatch -> m_seen (g mo) = true) -> ent_ok s k1.
Proof.
  intros [A B] Emo Ee Em Hg Hd Hs. unfold ent_ok. rewrite Ee, Em. split.
  - intros e He. destruct (A e He) as (C & mo' & D & E & F). split; [exact C|]. rewrite nth_error_upd, D.
    destruct (Nat.eqb_spec m (e_mon e)) as [Ee'|]; [|eauto]. rewrite <- Ee', Emo in D. injection D as <-.
    exists (g mo). repeat split; auto. congruence.
  - intros m' mo' Hm. rewrite nth_error_upd in Hm. destruct (Nat.eqb_spec m m') as [<-|]; [|eauto].
    rewrite Emo in Hm. injection Hm as <-. exact Hs.
Qed.

(** [mu] is a sum of ranks (clients, monitors, queued requests, the owner's pc): updating one of them
    changes [mu] by the difference of its ranks.  The ranks of [RwLock.crank] are such that every
    hand-over still pays: a request enters a queue (7 > 5 + 1, 6 > 2 + 3), a fetched value spawns a
    monitor of rank 4 (5 > 0 + 4), the owner takes a write request (3 > 2) -- see [step_cli_inv],
    [step_own_inv]. *)
Definition cs (l : list client) : N := sum (map (fun cl => crank (c_pc cl)) l).
Definition ks (l : list cache) : N := sum (map krank l).

Lemma mu_eq s : mu s = 3 * len (o_wq s) + len (o_rq s) + orank (o_pc s) + cs (clients s) + ks (caches s).
Proof. reflexivity. Qed.

Lemma cs_upd l c cl g : nth_error l c = Some cl -> cs (upd c g l) + crank (c_pc cl) = cs l + crank (c_pc (g cl)).
Proof. exact (sum_map_upd (fun cl => crank (c_pc cl)) g l c cl). Qed.

Lemma cs_upd_le l c p : cs (upd c (cl_pc p) l) <= cs l + crank p.
Proof.
  destruct (nth_error l c) as [cl|] eqn:E.
  - pose proof (cs_upd l c cl (cl_pc p) E). cbn [c_pc cl_pc] in *. lia.
  - rewrite upd_none by exact E. lia.
Qed.

Lemma ks_upd l k k0 f : nth_error l k = Some k0 -> ks (upd k f l) + krank k0 = ks l + krank (f k0).
Proof. exact (sum_map_upd krank f l k k0). Qed.

Lemma ks_upd_same l k k0 f : nth_error l k = Some k0 -> k_mons (f k0) = k_mons k0 -> ks (upd k f l) = ks l.
Proof. intros H E. pose proof (ks_upd l k k0 f H). unfold krank in *. rewrite E in *. lia. Qed.

Lemma ks_upd_mon l k k0 f m mo g :
  nth_error l k = Some k0 -> nth_error (k_mons k0) m = Some mo -> k_mons (f k0) = upd m g (k_mons k0) ->
  ks (upd k f l) + mrank mo = ks l + mrank (g mo).
Proof.
  intros H Hm E. pose proof (ks_upd l k k0 f H). pose proof (sum_map_upd mrank g _ _ _ Hm).
  unfold krank in *. rewrite E in *. lia.
Qed.

Ltac munf := rewrite !mu_eq; sprjg.

Lemma mu_cli s s0 c cl p :
  nth_error (clients s) c = Some cl -> crank p < crank (c_pc cl) -> clients s0 = clients s ->
  o_wq s0 = o_wq s -> o_rq s0 = o_rq s -> o_pc s0 = o_pc s -> ks (caches s0) = ks (caches s) ->
  mu (set_pc c p s0) < mu s.
Proof.
  intros E Hp E1 E2 E3 E4 E5. munf. rewrite E1, E2, E3, E4, E5.
  pose proof (cs_upd _ _ _ (cl_pc p) E). cbn [c_pc cl_pc] in *. lia.
Qed.

Lemma mu_mon s kk k0 f m mo g :
  nth_error (caches s) kk = Some k0 -> nth_error (k_mons k0) m = Some mo ->
  k_mons (f k0) = upd m g (k_mons k0) -> mrank (g mo) < mrank mo -> mu (set_cache kk f s) < mu s.
Proof. intros E Em Ef Hp. munf. pose proof (ks_upd_mon _ _ _ f _ _ g E Em Ef). lia. Qed.

Definition qpc (w : bool) : cpc := if w then RQueuedW else RQueuedR.

(** Tokio's lock grants the front waiter: the write lock if nobody holds the lock, a read lock if no
    writer does *)
Lemma grant_spec k k' w h : grant k = Some (k', w, h) ->
  exists q', k_q k = (w, h) :: q' /\ k_wr k = None /\ (w = true -> k_rd k = []) /\
             k' = (if w then k_set_wr (Some h) else k_set_rd (k_rd k ++ [h])) (k_set_q q' k).
Proof.
  unfold grant. destruct (k_q k) as [|[[] h0] q']; [discriminate| |];
    destruct (k_wr k); try discriminate; [destruct (k_rd k); [|discriminate]|];
    intros [= <- <- <-]; exists q'; repeat split; auto; discriminate.
Qed.

Lemma step_grant_inv fx s s' kk : Inv fx s -> step_grant kk s = Some s' -> Inv fx s' /\ mu s' < mu s.
Proof.
  intros HI H. unfold step_grant in H.
  destruct (nth_error (caches s) kk) as [k0|] eqn:Ek0; [|discriminate].
  destruct (grant k0) as [[[k' w] h]|] eqn:Eg; [|discriminate].
  destruct (grant_spec _ _ _ _ Eg) as (q' & Eq & Ewr & Erd & ->).
  destruct (inv_lock _ _ HI _ _ Ek0) as (L0 & Q4 & X0). pose proof (inv_ent _ _ HI _ _ Ek0) as E0.
  pose proof (proj1 (L0 h (PQ w))) as Hf. cbn in Hf. rewrite Eq in Hf. specialize (Hf (or_introl eq_refl)).
  assert (Hnd : NoDup q') by (rewrite Eq in Q4; now inversion Q4).
  assert (X1 : forall k1, k_rd k1 = (if w then k_rd k0 else k_rd k0 ++ [h]) -> k_wr k1 = (if w then Some h else None) ->
            k_wr k1 <> None -> k_rd k1 = []).
  { intros k1 -> ->. destruct w; [auto|congruence]. }
  destruct h as [c|m]; cbn [holder_place] in Hf.
  - unfold client_place in Hf. destruct (nth_error (clients s) c) as [cl|] eqn:Ecl; [|discriminate Hf].
    destruct (Nat.eqb_spec (c_cache cl) kk) as [Ecache|]; [|discriminate Hf].
    destruct (inv_cli _ _ HI _ _ Ecl) as [Hst Hcl].
    assert (Epc : c_pc cl = qpc w) by (destruct (c_pc cl), w; try discriminate; reflexivity).
    rewrite Epc in Hcl.
    assert (Hmu : forall p f, crank p < crank (qpc w) -> (k_mons (f k0) = k_mons k0) ->
              mu (set_pc c p (set_cache kk f s)) < mu s).
    { intros p f Hp Ef. apply (mu_cli s _ c cl); try reflexivity; [exact Ecl|rewrite Epc; exact Hp|]. now apply (ks_upd_same _ _ _ _ Ek0). }
    destruct w; inversion H; subst s'; clear H; (split; [|now apply Hmu]);
      (eapply (inv_local fx s _ kk k0 _ (MC c cl (cl_pc _)));
         [exact HI|sc|exact Ek0|reflexivity| | |reflexivity|exact Hnd|now apply X1|exact E0|now left]).
    1,3: refine (conj Ecl (conj Ecache (conj Ecache (conj _ (conj eq_refl (conj Hst I)))))); now rewrite Epc.
    all: intros h p; rewrite Epc; now apply (at_grant k0 _ _ (HC c) h p q' Eq Q4 Ewr).
  - unfold mon_place in Hf. destruct (nth_error (k_mons k0) m) as [mo|] eqn:Emo; [|discriminate Hf].
    assert (Empc : m_pc mo = MQueued /\ w = true) by (destruct (m_pc mo), w; try discriminate; auto).
    destruct Empc as [Empc ->]. inversion H; subst s'; clear H.
    split; [|eapply mu_mon; [exact Ek0|exact Emo|reflexivity|unfold mrank; cbn [m_pc m_seen m_set_pc]; rewrite Empc; clear; lia]].
    eapply (inv_local fx s _ kk k0 _ (MM m));
      [exact HI|sc|exact Ek0|reflexivity|reflexivity| | |exact Hnd|now apply X1| |now left].
    + intros h p. cbn. rewrite (mon_place_upd_self _ _ _ _ Emo). unfold mon_place at 1. rewrite Emo, Empc.
      apply (at_grant k0 _ true (HM m) h p q' Eq Q4 Ewr); reflexivity.
    + intros m' Hne. apply mon_place_upd_other. congruence.
    + eapply (ent_ok_upd s k0 _ m mo (m_set_pc MHold) E0 Emo); try reflexivity; try discriminate.
      intros _. apply (proj2 E0 _ _ Emo). congruence.
Qed.

Lemma step_invwrite fx s s' c : Inv fx s -> step_user (AInvWrite c) s = Some s' -> Inv fx s'.
Proof.
  intros HI H. cbn [step_user] in H.
  destruct (nth_error (clients s) c) as [cl|] eqn:Ecl; [|discriminate].
  destruct (c_pc cl) eqn:Epc; try discriminate.
  inversion H; subst s'; clear H.
  apply (inv_client fx s _ c cl (fun cl => mkCl (c_cache cl) WSending (idx s)) HI Ecl);
    [reflexivity|reflexivity|sc|apply incl_refl|apply incl_refl|reflexivity|reflexivity|now rewrite Epc| |].
  - split; [unfold idx; sprjg; lia|exact I].
  - eapply glob_ok_upd; [exact Ecl|now rewrite Epc|sc|reflexivity|apply HI].
Qed.

Lemma glob_ok_move s s' c cl g :
  nth_error (clients s) c = Some cl -> c_pc cl <> RWaitVal -> c_pc cl <> WWait ->
  clients s' = upd c g (clients s) -> o_rq s' = o_rq s -> o_wq s' = o_wq s ->
  glob_ok s -> vals_ok s' -> opc_ok (clients s') (o_pc s') (o_sig s') (o_wq s') -> glob_ok s'.
Proof.
  intros E H1 H2 Ecl Er Ew (_ & Gr & Gw & _) Hv Ho. split; [exact Hv|]. rewrite Ecl, Er, Ew in *.
  split; [|split; [|exact Ho]]; now apply (queue_ok_upd _ _ _ _ _ _ E).
Qed.

Lemma cli_ok_sig fx s s' c c0 cl0 :
  o_pc s = OWaitNew c -> c0 <> c ->
  o_val s' = o_val s -> o_gen s' = o_gen s -> o_pc s' = o_pc s -> o_log s' = o_log s -> caches s' = caches s ->
  o_rq s' = o_rq s -> o_wq s' = o_wq s ->
  cli_ok fx s c0 cl0 -> cli_ok fx s' c0 cl0.
Proof.
  intros Hp Hne S1 S2 S3 S5 Eca Er Ew. unfold cli_ok, cli_ok_ent, copy_ok, idx, kc. rewrite S1, S2, S3, S5, Eca, Er, Ew, Hp.
  intros [H1 H2]. split; [exact H1|]. destruct (c_pc cl0); auto; destruct H2 as [H2 _]; congruence.
Qed.

Lemma step_commit fx s s' c v : Inv fx s -> step_user (ACommit c v) s = Some s' -> Inv fx s'.
Proof.
  intros HI H. cbn [step_user] in H.
  destruct (nth_error (clients s) c) as [cl|] eqn:Ecl; [|discriminate].
  destruct (c_pc cl) eqn:Epc; try discriminate.
  inversion H; subst s'; clear H.
  destruct (inv_cli _ _ HI _ _ Ecl) as [Hst Hcl]. rewrite Epc in Hcl. destruct Hcl as (Hop & Hsig & _).
  destruct (inv_glob _ _ HI) as ((G1 & G2 & G3) & _). unfold in_flight in G2. rewrite Hsig in G2.
  apply (inv_global fx s _ (Some (c, cl, cl_pc (WCommitWait v)))); [exact HI|reflexivity| | | | |exact (inv_drop _ _ HI)].
  - rewrite Epc. exact (conj Ecl (conj eq_refl (conj eq_refl (conj eq_refl (conj Hst (conj Hop eq_refl)))))).
  - intros c' cl0 Hne _. apply (cli_ok_sig fx s _ c); auto.
  - intros g0 v1 i1 (_ & _ & _ & A4) _. exfalso. exact (A4 _ Hop).
  - apply (glob_ok_move s _ c cl (cl_pc (WCommitWait v)) Ecl); try (rewrite Epc; discriminate); try reflexivity; [apply HI| |].
    + split; [exact G1|]. split; [clear - G2; unfold in_flight; sprjg; lia|]. sprjg. intros Hw. exfalso. exact (Hw _ Hop).
    + sprjg. rewrite Hop. exact (has_pc_self _ _ _ _ Ecl).
Qed.

Lemma step_dropw fx s s' c : Inv fx s -> step_user (ADropW c) s = Some s' -> Inv fx s'.
Proof.
  intros HI H. cbn [step_user] in H.
  destruct (nth_error (clients s) c) as [cl|] eqn:Ecl; [|discriminate].
  destruct (c_pc cl) eqn:Epc; try discriminate.
  inversion H; subst s'; clear H.
  destruct (inv_cli _ _ HI _ _ Ecl) as [Hst Hcl]. rewrite Epc in Hcl. destruct Hcl as (Hop & Hsig & _).
  destruct (inv_glob _ _ HI) as ((G1 & G2 & G3) & _). unfold in_flight in G2. rewrite Hsig in G2.
  apply (inv_global fx s _ (Some (c, cl, cl_pc CIdle))); [exact HI|reflexivity| | | | |exact (inv_drop _ _ HI)].
  - rewrite Epc. exact (conj Ecl (conj eq_refl (conj eq_refl (conj eq_refl (conj Hst I))))).
  - intros c' cl0 Hne _. apply (cli_ok_sig fx s _ c); auto.
  - intros g0 v1 i1 (_ & _ & _ & A4) _. exfalso. exact (A4 _ Hop).
  - apply (glob_ok_move s _ c cl (cl_pc CIdle) Ecl); try (rewrite Epc; discriminate); try reflexivity; [apply HI| |].
    + split; [exact G1|]. split; [clear - G2; unfold in_flight; sprjg; lia|]. sprjg. intros Hw. exfalso. exact (Hw _ Hop).
    + sprjg. rewrite Hop. exact I.
Qed.

Lemma place_eq_dec (p p' : place) : {p = p'} + {p <> p'}.
Proof. decide equality. apply Bool.bool_dec. Qed.

Lemma at_same k0 k1 h0 op :
  (forall h p, at_place k1 h p <-> at_place k0 h p) -> (forall p, op = Some p -> at_place k0 h0 p) ->
  forall h p, at_place k1 h p <-> (at_place k0 h p /\ ~ (h = h0 /\ op = Some p)) \/ (h = h0 /\ op = Some p).
Proof.
  intros E H0 h p. rewrite E. destruct (holder_eq_dec h h0) as [->|]; [|tauto].
  destruct op as [p0|]; [|intuition congruence]. destruct (place_eq_dec p0 p) as [->|]; [|intuition congruence].
  specialize (H0 p eq_refl). tauto.
Qed.

Lemma fix_entry_cases fx k : fix_entry fx k = k_entry k \/ fix_entry fx k = None.
Proof.
  destruct fx; cbn [fix_entry]; auto. destruct (k_entry k) as [e|]; auto. destruct (ent_valid k e); auto.
Qed.

Lemma step_cli_inv fx s s' c : Inv fx s -> step_cli fx c s = Some s' -> Inv fx s' /\ mu s' < mu s.
Proof.
  intros HI H. unfold step_cli in H.
  destruct (nth_error (clients s) c) as [cl|] eqn:Ecl; [|discriminate].
  destruct (inv_cli _ _ HI _ _ Ecl) as [Hst Hcl].
  destruct (inv_glob _ _ HI) as (Gv & Gr & Gw & Go).
  assert (Hmu : forall p s0, crank p < crank (c_pc cl) -> clients s0 = clients s -> o_wq s0 = o_wq s -> o_rq s0 = o_rq s ->
            o_pc s0 = o_pc s -> ks (caches s0) = ks (caches s) -> mu (set_pc c p s0) < mu s).
  { intros p s0. now apply mu_cli. }
  assert (Hat : forall k0 p, nth_error (caches s) (c_cache cl) = Some k0 -> at_place k0 (HC c) p <-> cpc_place (c_pc cl) = Some p).
  { intros k0 p Ek0. now apply (cli_place fx s). }
  destruct (c_pc cl) eqn:Epc; try discriminate.
  - destruct (nth_error (caches s) (c_cache cl)) as [k0|] eqn:Ek0; [|discriminate].
    destruct (inv_lock _ _ HI _ _ Ek0) as (L0 & Q4 & X0).
    assert (Hslow : let s1 := set_pc c RQueuedW (set_cache (c_cache cl) (fun k => k_enq true (HC c) (k_unread (HC c) k)) s) in
                    Inv fx s1 /\ mu s1 < mu s).
    { split; [|apply Hmu; try reflexivity; now apply (ks_upd_same _ _ _ _ Ek0)].
      eapply (inv_local fx s _ (c_cache cl) k0 _ (MC c cl (cl_pc RQueuedW)));
        [exact HI|sc|exact Ek0|reflexivity| | |reflexivity| | |exact (inv_ent _ _ HI _ _ Ek0)|now left].
      - refine (conj Ecl (conj eq_refl (conj eq_refl (conj _ (conj eq_refl (conj Hst I)))))). now rewrite Epc.
      - intros h p. rewrite Epc. apply at_requeue.
      - apply NoDup_snoc; [exact Q4|]. intros Hin. apply (Hat k0 (PQ true) eq_refl) in Hin. discriminate.
      - intros Hw. cbn. now rewrite (X0 Hw). }
    destruct (k_entry k0) as [e|] eqn:Ee; [|inversion H; subst s'; exact Hslow].
    destruct (ent_valid k0 e); [|inversion H; subst s'; exact Hslow].
    inversion H; subst s'; clear H. split; [|now apply Hmu].
    apply (inv_pc_only fx s c cl RHold HI Ecl); try (now rewrite Epc).
    rewrite (kc_at _ _ _ _ Ek0 eq_refl), Ee. split; [exact Hst|discriminate].
  - destruct (nth_error (caches s) (c_cache cl)) as [k0|] eqn:Ek0; [|discriminate].
    destruct (inv_lock _ _ HI _ _ Ek0) as (L0 & Q4 & X0). destruct (inv_ent _ _ HI _ _ Ek0) as [E1 E2].
    pose proof (proj2 (Hat k0 PW eq_refl) eq_refl) as Hwr. cbn in Hwr.
    inversion H; subst s'; clear H. split; [|apply Hmu; try reflexivity; now apply (ks_upd_same _ _ _ _ Ek0)].
    eapply (inv_local fx s _ (c_cache cl) k0 _ (MC c cl (cl_pc RSending)));
      [exact HI|sc|exact Ek0|reflexivity| | |reflexivity|exact Q4|exact X0| |].
    + refine (conj Ecl (conj eq_refl (conj eq_refl (conj _ (conj eq_refl (conj Hst _)))))); [now rewrite Epc|].
      intros ->. reflexivity.
    + rewrite Epc. apply at_same; [reflexivity|]. intros p [= <-]. exact Hwr.
    + split; [|exact E2]. cbn. intros e He. destruct (fix_entry_cases fx k0) as [E|E]; rewrite E in He; [auto|discriminate].
    + right. split; [apply X0; congruence|auto].
  - inversion H; subst s'; clear H.
    split; [|munf; pose proof (cs_upd _ _ _ (cl_pc RWaitVal) Ecl) as E1; rewrite Epc in E1; rewrite len_app; cbn in E1; change (len [c]) with 1; clear - E1; lia].
    apply (inv_client fx s _ c cl (cl_pc RWaitVal) HI Ecl);
      [reflexivity|reflexivity|sc|apply incl_appl, incl_refl|apply incl_refl|reflexivity|reflexivity|now rewrite Epc| |].
    + split; [exact Hst|]. split; [apply in_or_app; right; now left|exact Hcl].
    + split; [exact Gv|]. split; [|split].
      * apply (queue_ok_snoc _ _ _ _ (cl_pc RWaitVal) Ecl); [rewrite Epc; discriminate|exact Gr].
      * apply (queue_ok_upd _ _ _ _ _ _ Ecl); [rewrite Epc; discriminate|exact Gw].
      * apply (opc_ok_upd _ _ _ (o_wq s) _ _ _ _ Ecl); [now rewrite Epc|auto|exact Go].
  - destruct (nth_error (caches s) (c_cache cl)) as [k0|] eqn:Ek0; [|discriminate].
    destruct (inv_lock _ _ HI _ _ Ek0) as (L0 & Q4 & X0). destruct (inv_ent _ _ HI _ _ Ek0) as [E1 E2].
    pose proof (proj2 (Hat k0 PW eq_refl) eq_refl) as Hwr. cbn in Hwr.
    assert (Erd : k_rd k0 = []) by (apply X0; congruence).
    inversion H; subst s'; clear H. split.
    2:{ munf. pose proof (cs_upd _ _ _ (cl_pc RHold) Ecl) as E3. rewrite Epc in E3. cbn in E3.
        match goal with |- context [upd (c_cache cl) ?F] => pose proof (ks_upd _ _ _ F Ek0) as E4 end.
        unfold krank in E4. cbn [k_mons k_set_rd k_set_wr k_set_entry k_set_mons] in E4. rewrite sum_map_snoc in E4.
        change (mrank (mkM g false MWatch)) with 4 in E4. clear - E3 E4. lia. }
    eapply (inv_local fx s _ (c_cache cl) k0 _ (MC c cl (cl_pc RHold)));
      [exact HI|sc|exact Ek0|reflexivity| | | |exact Q4|intros Hw; now destruct Hw| |].
    + refine (conj Ecl (conj eq_refl (conj eq_refl (conj _ (conj eq_refl (conj Hst _)))))); [now rewrite Epc|discriminate].
    + intros h p. rewrite Epc. apply (at_unwrite k0 _ (HC c) true h p Hwr Erd); cbn; now rewrite ?Erd.
    + intros m _. cbn. unfold mon_place. destruct (nth_error (k_mons k0) m) as [mo|] eqn:Em; [now rewrite (nth_error_app_old _ _ _ _ Em)|].
      destruct (nth_error (k_mons k0 ++ [mkM g false MWatch]) m) as [mo|] eqn:Em'; [|reflexivity].
      apply nth_snoc in Em'. destruct Em' as [Em'|[_ ->]]; [congruence|reflexivity].
    + split; cbn.
      * intros e [= <-]. split; [exact Hcl|]. exists (mkM g false MWatch). sprjg. rewrite nth_error_snoc.
        repeat split. discriminate.
      * intros m mo Hm Hp. apply nth_snoc in Hm. destruct Hm as [Hm|[_ ->]]; [eauto|now destruct Hp].
    + right. split; [exact Erd|auto].
  - inversion H; subst s'; clear H.
    split; [|munf; pose proof (cs_upd _ _ _ (cl_pc WWait) Ecl) as E1; rewrite Epc in E1; rewrite len_app; cbn in E1; change (len [c]) with 1; clear - E1; lia].
    apply (inv_client fx s _ c cl (cl_pc WWait) HI Ecl);
      [reflexivity|reflexivity|sc|apply incl_refl|apply incl_appl, incl_refl|reflexivity|reflexivity|now rewrite Epc| |].
    + split; [exact Hst|]. left. apply in_or_app. right. now left.
    + split; [exact Gv|]. split; [|split].
      * apply (queue_ok_upd _ _ _ _ _ _ Ecl); [rewrite Epc; discriminate|exact Gr].
      * apply (queue_ok_snoc _ _ _ _ (cl_pc WWait) Ecl); [rewrite Epc; discriminate|exact Gw].
      * apply (opc_ok_upd _ _ _ (o_wq s) _ _ _ _ Ecl); [now rewrite Epc| |exact Go].
        intros w Hin. apply in_app_or in Hin. destruct Hin as [Hin|[<-|[]]]; auto.
  - inversion H; subst s'; clear H. split; [|now apply Hmu].
    apply (inv_client fx s _ c cl (cl_pc (WHold v i)) HI Ecl);
      [reflexivity|reflexivity|sc|apply incl_refl|apply incl_refl|reflexivity|reflexivity|now rewrite Epc|exact (conj Hst Hcl)|].
    + destruct Hcl as (Hop & Hsig & _).
      apply (glob_ok_move s _ c cl (cl_pc (WHold v i)) Ecl); try (rewrite Epc; discriminate); try reflexivity;
        [apply HI|exact Gv|].
      sprjg. rewrite Hop, Hsig. exists (cl_pc (WHold v i) cl). now rewrite (nth_error_upd_at _ _ _ _ _ Ecl), Nat.eqb_refl.
  - inversion H; subst s'; clear H. split; [|now apply Hmu].
    apply (inv_pc_only fx s c cl CIdle HI Ecl); try (now rewrite Epc). split; [exact Hst|exact I].
Qed.

Lemma step_mon_inv fx s s' kk m : Inv fx s -> step_mon kk m s = Some s' -> Inv fx s' /\ mu s' < mu s.
Proof.
  intros HI H. unfold step_mon in H.
  destruct (nth_error (caches s) kk) as [k0|] eqn:Ek0; [|discriminate].
  destruct (nth_error (k_mons k0) m) as [mo|] eqn:Emo; [|discriminate].
  destruct (inv_lock _ _ HI _ _ Ek0) as (L0 & Q4 & X0). pose proof (inv_ent _ _ HI _ _ Ek0) as E0.
  assert (Hat : forall p, at_place k0 (HM m) p <-> mpc_place (m_pc mo) = Some p).
  { intros p. rewrite L0. cbn. unfold mon_place. now rewrite Emo. }
  assert (LM : forall f m', HM m' <> HM m -> mon_place (upd m f (k_mons k0)) m' = mon_place (k_mons k0) m').
  { intros f m' Hne. apply mon_place_upd_other. congruence. }
  destruct (m_pc mo) eqn:Epc; try discriminate.
  - destruct (m_seen mo) eqn:Es; [|discriminate]. inversion H; subst s'; clear H.
    split; [|eapply mu_mon; [exact Ek0|exact Emo|reflexivity|unfold mrank; cbn [m_pc m_seen m_set_pc]; rewrite Epc; clear; lia]].
    eapply (inv_local fx s _ kk k0 _ (MM m));
      [exact HI|sc|exact Ek0|reflexivity|reflexivity| |apply LM| |exact X0| |now left].
    + intros h p. cbn. rewrite (mon_place_upd_self _ _ _ _ Emo). unfold mon_place. rewrite Emo, Epc.
      apply (at_enq_new true (HM m) (k_set_mons _ k0)).
    + apply NoDup_snoc; [exact Q4|]. intros Hin. apply (Hat (PQ true)) in Hin. discriminate.
    + eapply (ent_ok_upd s k0 _ m mo (m_set_pc MQueued) E0 Emo); try reflexivity; [discriminate|auto].
  - inversion H; subst s'; clear H. pose proof (proj2 (Hat PW) eq_refl) as Hwr. cbn in Hwr.
    assert (Hseen : m_seen mo = true) by (apply (proj2 E0 _ _ Emo); congruence).
    assert (Erd : k_rd k0 = []) by (apply X0; congruence).
    split; [|eapply mu_mon; [exact Ek0|exact Emo|reflexivity|unfold mrank; cbn [m_pc m_seen m_set_pc]; rewrite Epc; clear; lia]].
    eapply (inv_local fx s _ kk k0 _ (MM m));
      [exact HI|sc|exact Ek0|reflexivity|reflexivity| |apply LM|exact Q4|intros Hw; now destruct Hw| |].
    + intros h p. cbn. rewrite (mon_place_upd_self _ _ _ _ Emo). unfold mon_place. rewrite Emo, Epc.
      now apply (at_unwrite k0 _ (HM m) false h p Hwr Erd).
    + destruct E0 as [A B]. split; cbn.
      * intros e He. destruct (k_entry k0) as [e0|] eqn:Ee; [|discriminate].
        destruct (ent_valid k0 e0) eqn:Ev; [|discriminate]. injection He as <-.
        destruct (A _ eq_refl) as (C & mo' & D & E & F). split; [exact C|]. exists mo'. split; [|auto].
        rewrite nth_error_upd. destruct (Nat.eqb_spec m (e_mon e0)) as [Em|]; [|exact D].
        unfold ent_valid in Ev. rewrite <- Em, Emo, Hseen in Ev. discriminate.
      * intros m' mo' Hm. rewrite nth_error_upd in Hm. destruct (Nat.eqb_spec m m') as [<-|]; [|eauto].
        rewrite Emo in Hm. injection Hm as <-. auto.
    + right. split; [exact Erd|auto].
Qed.

Lemma step_see_inv fx s s' kk m : Inv fx s -> step_see kk m s = Some s' -> Inv fx s' /\ mu s' < mu s.
Proof.
  intros HI H. unfold step_see in H.
  destruct (nth_error (caches s) kk) as [k0|] eqn:Ek0; [|discriminate].
  destruct (nth_error (k_mons k0) m) as [mo|] eqn:Emo; [|discriminate].
  destruct (inv_lock _ _ HI _ _ Ek0) as (L0 & Q4 & X0). pose proof (inv_ent _ _ HI _ _ Ek0) as E0.
  destruct (m_seen mo) eqn:Es; [discriminate|]. destruct (invalidated s (m_gen mo)); [|discriminate].
  inversion H; subst s'; clear H.
  split; [|eapply mu_mon; [exact Ek0|exact Emo|reflexivity|unfold mrank; cbn [m_pc m_seen m_set_seen]; rewrite Es; clear; lia]].
  eapply (inv_local fx s _ kk k0 _ (MM m));
    [exact HI|sc|exact Ek0|reflexivity|reflexivity| | |exact Q4|exact X0| |now left].
  - cbn. rewrite (mon_place_upd_self _ _ _ _ Emo). unfold mon_place. rewrite Emo. apply at_same; [reflexivity|].
    intros p Hp. apply L0. cbn. unfold mon_place. now rewrite Emo.
  - intros m' Hne. apply mon_place_upd_other. congruence.
  - eapply (ent_ok_upd s k0 _ m mo m_set_seen E0 Emo); try reflexivity; auto.
Qed.

Lemma step_own_inv fx s s' : Inv fx s -> step_own s = Some s' -> Inv fx s' /\ mu s' < mu s.
Proof.
  intros HI H. unfold step_own in H.
  destruct (inv_glob _ _ HI) as (Gv & Gr & Gw & Go).
  destruct (o_pc s) as [|w|w] eqn:Eop; cbn [opc_ok] in Go; pose proof Gv as (G1 & G2 & G3); rewrite Eop in G3.
  - destruct (o_wq s) as [|w wq'] eqn:Ewq.
    + destruct (o_rq s) as [|c rq'] eqn:Erq; [discriminate|]. inversion H; subst s'; clear H.
      destruct (queue_ok_tail _ _ _ _ Gr) as ((cl & Ecl & Epc) & Hnin & Gr').
      destruct (inv_cli _ _ HI _ _ Ecl) as [Hst _].
      split; [|munf; pose proof (cs_upd _ _ _ (cl_pc (RGot (o_gen s) (o_val s) (idx s))) Ecl) as E1;
               rewrite Epc in E1; cbn in E1; rewrite Eop, Ewq, Erq, len_cons; cbn [orank]; clear - E1; lia].
      apply (inv_global fx s _ (Some (c, cl, cl_pc (RGot (o_gen s) (o_val s) (idx s))))); [exact HI|reflexivity| | | | |].
      * rewrite Epc. refine (conj Ecl (conj eq_refl (conj eq_refl (conj eq_refl (conj Hst _))))).
        unfold copy_ok. sprjg. rewrite Eop. repeat split; discriminate.
      * intros c' cl0 Hne _. unfold cli_ok, cli_ok_ent, copy_ok, idx, kc. sprjg. rewrite Erq. intros [A B].
        split; [exact A|]. destruct (c_pc cl0); auto. destruct B as ([B|B] & B'); [congruence|auto].
      * intros g v i Hcp _. revert Hcp. apply copy_ok_same. sc.
      * split; [exact Gv|]. sprjg. rewrite Eop, Ewq.
        split; [now apply queue_ok_notin|]. split; [|exact I]. split; [constructor|intros c0 []].
      * sprjg. rewrite Eop. discriminate.
    + inversion H; subst s'; clear H. destruct (queue_ok_tail _ _ _ _ Gw) as (Hw & Hnin & Gw').
      split; [|munf; rewrite Eop, Ewq, len_cons; cbn [orank]; clear; lia].
      apply (inv_global fx s _ None); [exact HI|reflexivity|reflexivity| | | |reflexivity].
      * intros c' cl0 _ _. unfold cli_ok, cli_ok_ent, copy_ok, idx, kc. sprjg. rewrite Eop, Ewq. intros [A B].
        split; [exact A|]. destruct (c_pc cl0); auto; try (destruct B as [B _]; discriminate).
        -- destruct B as (B1 & B2 & B3 & B4). repeat split; auto; discriminate.
        -- destruct B as [[<-|B]|B]; [now right|now left|discriminate].
      * intros g v i (A1 & A2 & A3 & A4) _. unfold copy_ok, idx. sprjg. repeat split; auto; discriminate.
      * split; [split; [exact G1|split; [exact G2|intros _; apply G3; intros w0; discriminate]]|].
        sprjg. exact (conj Gr (conj Gw' (conj Hw Hnin))).
  - destruct (no_copies s) eqn:Enc; [|discriminate]. inversion H; subst s'; clear H.
    destruct Go as [(cl & Ecl & Epc) Hnw].
    destruct (inv_cli _ _ HI _ _ Ecl) as [Hst _].
    assert (Hsig : o_sig s = SNone). { apply G3. intros w0. discriminate. }
    unfold no_copies in Enc. apply andb_prop in Enc. destruct Enc as [Enc1 Enc2].
    rewrite forallb_forall in Enc1, Enc2.
    split; [|munf; pose proof (cs_upd _ _ _ (cl_pc (WGot (o_val s) (idx s))) Ecl) as E1;
             rewrite Epc in E1; cbn in E1; rewrite Eop; cbn [orank]; clear - E1; lia].
    apply (inv_global fx s _ (Some (w, cl, cl_pc (WGot (o_val s) (idx s))))); [exact HI|reflexivity| | | | |discriminate].
    + rewrite Epc. refine (conj Ecl (conj eq_refl (conj eq_refl (conj eq_refl (conj Hst _))))). cbn. auto.
    + intros c' cl0 Hne Hn. unfold cli_ok, cli_ok_ent, copy_ok, idx, kc. sprjg. rewrite Eop. intros [A B]. split; [exact A|].
      destruct (c_pc cl0) eqn:Epc0; auto; try (destruct B as [B _]; congruence).
      * exfalso. destruct B as (B1 & _). specialize (Enc1 _ (nth_error_In _ _ Hn)).
        unfold cl_no_copy in Enc1. rewrite Epc0, B1, N.eqb_refl in Enc1. discriminate.
      * destruct B as [B|[= B]]; [now left|congruence].
    + intros g v i (A1 & _) (k & ka & e & B1 & B2 & B3 & _). exfalso.
      specialize (Enc2 _ (nth_error_In _ _ B1)). unfold k_no_copy in Enc2.
      rewrite B2, <- B3, A1, N.eqb_refl in Enc2. discriminate.
    + split; [split; [exact G1|split; [exact G2|intros Hw; destruct (Hw _ eq_refl)]]|]. sprjg. rewrite Hsig.
      split; [apply (queue_ok_upd _ _ _ _ _ _ Ecl); [rewrite Epc; discriminate|exact Gr]|].
      split; [now apply queue_ok_notin|]. exists (cl_pc (WGot (o_val s) (idx s)) cl).
      now rewrite (nth_error_upd_at _ _ _ _ _ Ecl), Nat.eqb_refl.
  - unfold in_flight in G2. destruct (o_sig s) as [|v|] eqn:Esig; [discriminate| |]; inversion H; subst s'; clear H.
    + destruct Go as (cl & Ecl & Epc). destruct (inv_cli _ _ HI _ _ Ecl) as [Hst _].
      split; [|munf; pose proof (cs_upd _ _ _ (cl_pc WConfirmed) Ecl) as E1; rewrite Epc in E1; cbn in E1; rewrite Eop; cbn [orank]; clear - E1; lia].
      apply (inv_global fx s _ (Some (w, cl, cl_pc WConfirmed))); [exact HI|reflexivity| | | | |discriminate].
      * rewrite Epc. refine (conj Ecl (conj eq_refl (conj eq_refl (conj eq_refl (conj _ I))))).
        unfold idx in Hst |- *. sprjg. rewrite len_cons. clear - Hst. lia.
      * intros c' cl0 Hne Hn. unfold cli_ok, cli_ok_ent, copy_ok, idx, kc. sprjg. rewrite Eop, len_cons. intros [A B].
        split; [clear - A; lia|]. destruct (c_pc cl0); auto; try (destruct B as [B _]; congruence).
        -- exfalso. destruct B as (_ & _ & _ & B4). exact (B4 _ eq_refl).
        -- destruct B as [B|B]; [now left|discriminate].
      * intros g v0 i (_ & _ & _ & A4) _. exfalso. exact (A4 _ Eop).
      * apply (glob_ok_move s _ w cl (cl_pc WConfirmed) Ecl); try (rewrite Epc; discriminate); try reflexivity;
          [apply HI|].
        unfold vals_ok, in_flight. sprjg. rewrite len_cons. clear - G2. repeat split; lia.
    + split; [|munf; rewrite Eop; cbn [orank]; clear; lia].
      apply (inv_global fx s _ None); [exact HI|reflexivity|reflexivity| | | |discriminate].
      * intros c' cl0 _ _. unfold cli_ok, cli_ok_ent, copy_ok, idx, kc. sprjg. rewrite Eop, Esig. intros [A B].
        split; [exact A|]. destruct (c_pc cl0); auto; try (destruct B as (_ & B & _); discriminate);
          try (destruct B as (_ & B); discriminate).
        -- exfalso. destruct B as (_ & _ & _ & B4). exact (B4 _ eq_refl).
        -- destruct B as [B|B]; [now left|discriminate].
      * intros g v i (_ & _ & _ & A4) _. exfalso. exact (A4 _ Eop).
      * split; [split; [exact G1|split; [exact G2|reflexivity]]|]. exact (conj Gr (conj Gw I)).
Qed.

Theorem step_inv fx s a s' : Inv fx s -> step fx s a = Some s' -> Inv fx s'.
Proof.
  intros HI H. destruct a; cbn [step] in H;
    [eapply step_invread|eapply step_invwrite|eapply step_release|eapply step_commit|eapply step_dropw
    |eapply step_grant_inv|eapply step_cli_inv|eapply step_mon_inv|eapply step_see_inv|eapply step_own_inv];
    eassumption.
Qed.

Lemma init_inv fx v0 nk cof : Inv fx (init v0 nk cof).
Proof.
  assert (Hcl : forall c cl, nth_error (clients (init v0 nk cof)) c = Some cl -> c_pc cl = CIdle /\ c_start cl = 0).
  { intros c cl Hn. cbn [init clients] in Hn. rewrite nth_error_map in Hn.
    destruct (nth_error cof c); [|discriminate]. now injection Hn as <-. }
  assert (Hk : forall k ka, nth_error (caches (init v0 nk cof)) k = Some ka -> ka = empty_cache).
  { intros k ka Hn. now apply nth_error_In, repeat_spec in Hn. }
  split.
  - intros c cl Hn. destruct (Hcl _ _ Hn) as [A B]. split; [rewrite B; apply N.le_0_l|now rewrite A].
  - intros c cl Hn. destruct (Hcl _ _ Hn) as [A _]. now rewrite A.
  - intros k ka Hn. rewrite (Hk _ _ Hn). split; [|split; [constructor|reflexivity]].
    intros h p. assert (holder_place (clients (init v0 nk cof)) k (k_mons empty_cache) h = None) as ->.
    { destruct h as [c|[|m]]; [|reflexivity..]. cbn. unfold client_place. destruct (nth_error _ c) as [cl|] eqn:E; [|reflexivity].
      destruct (Hcl _ _ E) as [A _]. rewrite A. now destruct (Nat.eqb _ _). }
    destruct p; cbn; intuition discriminate.
  - intros k ka Hn. rewrite (Hk _ _ Hn). split; [intros e [=]|intros [|m] mo [=]].
  - repeat split; try constructor; intros c [].
  - intros w Hw. discriminate.
Qed.

Lemma step'_inv fx s a : Inv fx s -> Inv fx (step' fx s a).
Proof.
  intros HI. unfold step'. destruct (step fx s a) as [s'|] eqn:E; [|exact HI]. eapply step_inv; eauto.
Qed.

Theorem reach_inv fx v0 nk cof acts : Inv fx (run fx acts (init v0 nk cof)).
Proof. apply (fold_left_inv (step' fx) (Inv fx)); [intros s a; apply step'_inv|apply init_inv]. Qed.

Lemma held_entry fx s c cl :
  Inv fx s -> nth_error (clients s) c = Some cl -> read_guard cl = true ->
  exists k0 e, nth_error (caches s) (c_cache cl) = Some k0 /\ k_entry k0 = Some e /\
               copy_ok s (e_gen e) (e_val e) (e_idx e).
Proof.
  intros HI Ecl Hr. destruct (inv_cli _ _ HI _ _ Ecl) as [_ Hc]. unfold read_guard in Hr.
  destruct (cli_cache _ _ _ _ HI Ecl) as [k0 Ek0]. { destruct (c_pc cl); discriminate. }
  rewrite (kc_at _ _ _ _ Ek0 eq_refl) in Hc. destruct (c_pc cl); try discriminate.
  destruct (k_entry k0) as [e|] eqn:Ee; [|congruence].
  exists k0, e. split; [exact Ek0|]. split; [exact Ee|]. now apply (inv_ent _ _ HI _ _ Ek0).
Qed.

Lemma exclusion_inv fx s c1 cl1 c2 cl2 :
  Inv fx s -> nth_error (clients s) c1 = Some cl1 -> nth_error (clients s) c2 = Some cl2 ->
  write_guard cl1 = true ->
  read_guard cl2 = false /\ (write_guard cl2 = true -> c1 = c2).
Proof.
  intros HI E1 E2 Hw.
  assert (Hop : o_pc s = OWaitNew c1).
  { destruct (inv_cli _ _ HI _ _ E1) as [_ Hc]. unfold write_guard in Hw.
    destruct (c_pc cl1); try discriminate; tauto. }
  split.
  - destruct (read_guard cl2) eqn:Hr; [|reflexivity]. exfalso.
    destruct (held_entry _ _ _ _ HI E2 Hr) as (k0 & e & _ & _ & (_ & _ & _ & Hn)). exact (Hn _ Hop).
  - intros Hw2. destruct (inv_cli _ _ HI _ _ E2) as [_ Hc]. unfold write_guard in Hw2.
    destruct (c_pc cl2); try discriminate; destruct Hc as [Hc _]; congruence.
Qed.

Lemma commit_at_idx s : o_val s = hd (o_init s) (o_log s) -> commit_at s (idx s) = Some (o_val s).
Proof.
  intros H. unfold commit_at, idx. destruct (o_log s) as [|v l] eqn:El.
  - cbn. now rewrite H.
  - cbn [hd] in H. rewrite len_cons. destruct (N.eqb_spec (1 + len l) 0) as [E|_]; [lia|].
    cbn [rev]. replace (N.to_nat (1 + len l - 1)) with (length (rev l)).
    + rewrite nth_error_snoc. now rewrite H.
    + rewrite rev_length. unfold len. lia.
Qed.

Lemma fresh_inv fx s c cl :
  Inv fx s -> nth_error (clients s) c = Some cl -> read_guard cl = true ->
  exists v i, guard_value s cl = Some (v, i) /\ c_start cl <= i /\ i = idx s /\ v = o_val s /\
              commit_at s i = Some v.
Proof.
  intros HI Ecl Hr. destruct (held_entry _ _ _ _ HI Ecl Hr) as (k0 & e & Ek0 & Ee & (C1 & C2 & C3 & C4)).
  exists (e_val e), (e_idx e). unfold guard_value. rewrite Ek0, Ee.
  destruct (inv_cli _ _ HI _ _ Ecl) as [Hst _]. destruct (inv_glob _ _ HI) as ((G1 & _) & _).
  split; [reflexivity|]. split; [lia|]. split; [exact C3|]. split; [exact C2|].
  rewrite C2, C3. now apply commit_at_idx.
Qed.

Lemma write_guard_inv fx s c cl v i :
  Inv fx s -> nth_error (clients s) c = Some cl -> (c_pc cl = WGot v i \/ c_pc cl = WHold v i) ->
  v = o_val s /\ i = idx s /\ commit_at s i = Some v.
Proof.
  intros HI Ecl Hp. destruct (inv_cli _ _ HI _ _ Ecl) as [_ Hc]. destruct (inv_glob _ _ HI) as ((G1 & _) & _).
  assert (H : v = o_val s /\ i = idx s) by (destruct Hp as [Hp|Hp]; rewrite Hp in Hc; tauto).
  destruct H as [-> ->]. split; [reflexivity|]. split; [reflexivity|]. now apply commit_at_idx.
Qed.

Lemma durable_inv fx s :
  Inv fx s -> o_val s = hd (o_init s) (o_log s) /\ g_commits s = len (o_log s) + in_flight s.
Proof. intros HI. destruct (inv_glob _ _ HI) as ((G1 & G2 & _) & _). split; assumption. Qed.

(** of the state updates the steps are made of only [store] touches value and log, and only the
    owner's storing step uses it: a sweep over the steps *)
Lemma log_step fx s a s' :
  step fx s a = Some s' ->
  (o_log s' = o_log s /\ o_val s' = o_val s) \/
  (exists v w, a = AOwn /\ o_pc s = OWaitNew w /\ o_sig s = SCommit v /\
               o_log s' = v :: o_log s /\ o_val s' = v).
Proof.
  intros H.
  destruct a; cbn [step step_user] in H; unfold step_grant, step_cli, step_mon, step_see, step_own in H.
  (* goal 10 is the owner's step; after its split, goal 12 is the storing case *)
  10: destruct (o_pc s) as [|w|w] eqn:Eop; [| |destruct (o_sig s) as [|v|] eqn:Es; [discriminate| |]].
  12: injection H as <-; right; eauto 8.
  all: repeat match type of H with
              | context [match ?e with _ => _ end] => destruct e
              end; try discriminate; injection H as <-; left; split; reflexivity.
Qed.

Theorem mu_decreases fx s a s' :
  Inv fx s -> internal a = true -> step fx s a = Some s' -> mu s' < mu s.
Proof.
  intros HI Hint H. destruct a; try discriminate; cbn [step] in H;
    [eapply step_grant_inv|eapply step_cli_inv|eapply step_mon_inv|eapply step_see_inv|eapply step_own_inv];
    eassumption.
Qed.

(** ** F5: deadlock witnesses for [FixNone] and for the "clear if stale" candidate [FixStale] *)

Fixpoint quiesce_acts (fx : fixmode) (fuel : nat) (s : state) : list action :=
  match fuel with
  | O => []
  | S f => match find (enabled fx s) (internal_actions s) with
           | Some a => a :: quiesce_acts fx f (step' fx s a)
           | None => []
           end
  end.

(** fuel 200 only has to do for the scripts below: that a run ended quiescent is part of what
    [deadlocked] computes ([stuck]) *)
Fixpoint expand (fx : fixmode) (script : list action) (s : state) : list action :=
  match script with
  | [] => []
  | a :: rest =>
      let s1 := step' fx s a in
      let q := quiesce_acts fx 200 s1 in
      a :: q ++ expand fx rest (run fx q s1)
  end.

Definition no_user_guards (s : state) : bool := forallb (fun cl => negb (user_guard cl)) (clients s).
Definition some_pending (s : state) : bool := existsb pending (clients s).

(** the state is a deadlock: requests pending, no guard held by any user, no internal action enabled *)
Definition deadlocked (fx : fixmode) (s : state) : bool :=
  no_user_guards s && some_pending s && stuck fx s.

(** C = 0, W = 1, A = 2, B = 3 on one cache.  C holds a read guard when W requests write; A and B
    queue behind C's monitor, find the cache cleared and queue for its write lock, A first; A fetches
    the committed 7 and holds it while B still waits; W's second request invalidates A's copy, whose
    monitor queues BEHIND B; A releases: B takes the write lock with the invalidated copy still
    cached and asks the owner, which waits for that copy. *)
Definition f5_script : list action :=
  [AInvRead 0; AInvWrite 1; AInvRead 2; AInvRead 3; ARelease 0; ACommit 1 7; AInvWrite 1; ARelease 2]%nat.
Definition f5_init : state := init 5 1 [0; 0; 0; 0]%nat.
Definition f5_acts : list action := Eval vm_compute in expand FixNone f5_script f5_init.

(** same prefix; then A releases and W's second write request overtakes B's read request: B took the
    write lock while the copy was still valid (so "clear if stale" keeps it); the owner serves the
    write first (biased select), invalidates and waits for B's cache. *)
Definition f5s_prefix : list action :=
  [AInvRead 0; AInvWrite 1; AInvRead 2; AInvRead 3; ARelease 0; ACommit 1 7]%nat.
Definition f5s_race : list action :=
  [ARelease 2; AGrant 0; ACli 3; AInvWrite 1; ACli 1; AOwn; ACli 3]%nat.
Definition f5s_acts : list action :=
  Eval vm_compute in
    (let a1 := expand FixStale f5s_prefix f5_init ++ f5s_race in
     a1 ++ quiesce_acts FixStale 200 (run FixStale a1 f5_init)).

Lemma f5_deadlock : deadlocked FixNone (run FixNone f5_acts f5_init) = true.
Proof. vm_compute. reflexivity. Qed.

Lemma f5_stale_deadlock : deadlocked FixStale (run FixStale f5s_acts f5_init) = true.
Proof. vm_compute. reflexivity. Qed.

(** both scripts complete under the "always clear" repair *)
Lemma f5_fixed_ok :
  some_pending (run FixClear (expand FixClear (f5_script ++ [ACommit 1 8]%nat) f5_init) f5_init) = false /\
  deadlocked FixClear (run FixClear f5s_acts f5_init) = false.
Proof. vm_compute. split; reflexivity. Qed.

Lemma mon_actions_in s k k0 m mo a :
  nth_error (caches s) k = Some k0 -> nth_error (k_mons k0) m = Some mo -> a = AMon k m \/ a = ASee k m ->
  In a (internal_actions s).
Proof.
  intros E Em Ha. right. apply in_or_app. right. apply in_or_app. right. apply in_concat.
  exists (mon_actions k k0). split.
  - apply in_map_iff. exists k. rewrite E. split; [reflexivity|]. apply in_seq. split; [lia|]. cbn.
    apply nth_error_Some. congruence.
  - apply in_flat_map. exists m. split; [|destruct Ha as [->| ->]; cbn; auto].
    apply in_seq. split; [lia|]. cbn. apply nth_error_Some. congruence.
Qed.

Lemma internal_complete fx s a s' :
  internal a = true -> step fx s a = Some s' -> In a (internal_actions s).
Proof.
  intros Hi H. destruct a; try discriminate; cbn [step] in H.
  - right. apply in_or_app. left. apply in_map, in_seq. split; [lia|]. cbn.
    unfold step_grant in H. destruct (nth_error (caches s) k) eqn:E; [|discriminate].
    apply nth_error_Some. congruence.
  - right. apply in_or_app. right. apply in_or_app. left. apply in_map, in_seq. split; [lia|]. cbn.
    unfold step_cli in H. destruct (nth_error (clients s) c) eqn:E; [|discriminate].
    apply nth_error_Some. congruence.
  - unfold step_mon in H. destruct (nth_error (caches s) k) as [k0|] eqn:E; [|discriminate].
    destruct (nth_error (k_mons k0) m) eqn:Em; [|discriminate]. eapply mon_actions_in; eauto.
  - unfold step_see in H. destruct (nth_error (caches s) k) as [k0|] eqn:E; [|discriminate].
    destruct (nth_error (k_mons k0) m) eqn:Em; [|discriminate]. eapply mon_actions_in; eauto.
  - now left.
Qed.

Lemma stuck_sound fx s : stuck fx s = true -> forall a, internal a = true -> step fx s a = None.
Proof.
  intros Hs a Hi. destruct (step fx s a) as [s'|] eqn:E; [|reflexivity]. exfalso.
  unfold stuck in Hs. apply negb_true_iff in Hs.
  assert (existsb (enabled fx s) (internal_actions s) = true); [|congruence].
  apply existsb_exists. exists a. split; [eapply internal_complete; eauto|].
  unfold enabled. now rewrite E.
Qed.

Definition Deadlock (fx : fixmode) (s : state) : Prop :=
  (forall c cl, nth_error (clients s) c = Some cl -> user_guard cl = false) /\
  (exists c cl, nth_error (clients s) c = Some cl /\ pending cl = true) /\
  (forall a, internal a = true -> step fx s a = None).

Lemma deadlocked_sound fx s : deadlocked fx s = true -> Deadlock fx s.
Proof.
  unfold deadlocked. intros H. apply andb_prop in H. destruct H as [H H3].
  apply andb_prop in H. destruct H as [H1 H2]. split; [|split].
  - intros c cl Hn. unfold no_user_guards in H1. rewrite forallb_forall in H1.
    specialize (H1 _ (nth_error_In _ _ Hn)). now apply negb_true_iff in H1.
  - unfold some_pending in H2. apply existsb_exists in H2. destruct H2 as (cl & Hin & Hp).
    apply In_nth_error in Hin. destruct Hin as [c Hc]. eauto.
  - now apply stuck_sound.
Qed.

Theorem progress_refuted_asis :
  exists v0 nk cof acts, Deadlock FixNone (run FixNone acts (init v0 nk cof)).
Proof. exists 5, 1%nat, [0; 0; 0; 0]%nat, f5_acts. apply deadlocked_sound. exact f5_deadlock. Qed.

Theorem progress_refuted_clear_if_stale :
  exists v0 nk cof acts, Deadlock FixStale (run FixStale acts (init v0 nk cof)).
Proof. exists 5, 1%nat, [0; 0; 0; 0]%nat, f5s_acts. apply deadlocked_sound. exact f5_stale_deadlock. Qed.
