(** Soundness of the acceptance search of Run/RunRwLock.v: every state it keeps is reached from a
    tracked state by the user action followed by internal actions, each enabled when taken -- so an
    accepted history is a history of the small-step system the theorems quantify over. *)
From Remoc Require Import Lib.Base Robj.RwLock Robj.RwLockProofs Robj.RwLockProgress Run.RunRwLock.

Lemma internal_actions_internal s a : In a (internal_actions s) -> internal a = true.
Proof.
  unfold internal_actions. intros [<-|H]; [reflexivity|].
  apply in_app_or in H. destruct H as [H|H].
  { apply in_map_iff in H. destruct H as (k & <- & _). reflexivity. }
  apply in_app_or in H. destruct H as [H|H].
  { apply in_map_iff in H. destruct H as (k & <- & _). reflexivity. }
  apply in_concat in H. destruct H as (l & Hl & Ha). apply in_map_iff in Hl. destruct Hl as (k & <- & _).
  destruct (nth_error (caches s) k) as [k0|]; [|destruct Ha].
  unfold mon_actions in Ha. apply in_flat_map in Ha. destruct Ha as (m & _ & [<-|[<-|[]]]); reflexivity.
Qed.

Definition reach_int (fx : fixmode) (t s : state) : Prop :=
  exists acts, forallb internal acts = true /\ run_strict fx acts t = Some s.

Lemma reach_int_refl fx s : reach_int fx s s.
Proof. exists []. split; reflexivity. Qed.

Lemma reach_int_step fx t s s' :
  reach_int fx t s -> In s' (successors fx s) -> reach_int fx t s'.
Proof.
  intros (acts & Hi & Hr) Hin. unfold successors in Hin. apply in_flat_map in Hin.
  destruct Hin as (a & Ha & Hs). destruct (step fx s a) as [s1|] eqn:E; [|destruct Hs].
  destruct Hs as [<-|[]]. exists (acts ++ [a]). split.
  - rewrite forallb_app, Hi. cbn. now rewrite (internal_actions_internal _ _ Ha).
  - clear Hi. revert t Hr. induction acts as [|b acts IH]; intros t Hr; cbn [run_strict app] in *.
    + inversion Hr; subst. now rewrite E.
    + destruct (step fx t b); [apply IH; exact Hr|discriminate].
Qed.

Lemma closure_sound fx (roots : list state) : forall fuel todo seen quiet res,
  (forall s, In s todo -> exists t, In t roots /\ reach_int fx t s) ->
  (forall s, In s quiet -> exists t, In t roots /\ reach_int fx t s /\ successors fx s = []) ->
  closure fx fuel todo seen quiet = Some res ->
  forall s, In s res -> exists t, In t roots /\ reach_int fx t s /\ successors fx s = [].
Proof.
  induction fuel as [|fuel IH]; intros todo seen quiet res Ht Hq H; cbn [closure] in H; [discriminate|].
  destruct todo as [|s0 rest].
  - inversion H; subst. exact Hq.
  - destruct (mem (enc s0) seen).
    + apply (IH rest seen quiet res); auto. intros s Hs. apply Ht. now right.
    + destruct (successors fx s0) as [|s1 succ] eqn:Es.
      * apply (IH rest (enc s0 :: seen) (s0 :: quiet) res); auto.
        -- intros s Hs. apply Ht. now right.
        -- intros s [<-|Hs]; [|auto]. destruct (Ht s0 (or_introl eq_refl)) as (t & A & B). eauto.
      * apply (IH ((s1 :: succ) ++ rest) (enc s0 :: seen) quiet res); auto.
        intros s Hs. apply in_app_or in Hs. destruct Hs as [Hs|Hs]; [|apply Ht; now right].
        destruct (Ht s0 (or_introl eq_refl)) as (t & A & B). exists t. split; [exact A|].
        apply (reach_int_step fx t s0 s B). now rewrite Es.
Qed.

Theorem accept_step_sound fx states a o quiet kept s :
  accept_step fx states a o = Some (quiet, kept) -> In s kept ->
  exists t, In t states /\ reach_int fx (step' fx t a) s /\ successors fx s = [] /\ obs s = o.
Proof.
  unfold accept_step. intros H Hin.
  destruct (closure fx closure_fuel (map (fun s0 => step' fx s0 a) states) [] []) as [q|] eqn:E; [|discriminate].
  inversion H; subst quiet kept; clear H. apply filter_In in Hin. destruct Hin as [Hin Ho].
  destruct (closure_sound fx (map (fun s0 => step' fx s0 a) states) _ _ _ _ _
              (fun s Hs => ex_intro _ s (conj Hs (reach_int_refl fx s)))
              (fun s (Hs : In s []) => match Hs with end) E s Hin) as (t' & A & B & C).
  apply in_map_iff in A. destruct A as (t & <- & A). exists t. split; [exact A|]. split; [exact B|].
  split; [exact C|].
  clear -Ho. revert Ho. generalize (obs s). intros l. revert o.
  induction l as [|x l IH]; intros [|y o] H; cbn [list_eqb] in H; try discriminate; [reflexivity|].
  apply andb_prop in H. destruct H as [H1 H2]. apply N.eqb_eq in H1. subst. f_equal. now apply IH.
Qed.
