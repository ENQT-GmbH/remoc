(** The receiver refines the ideal parser on data: fed the same frames, both deliver the same data
    messages in the same order (port messages and errors are not compared). *)
From Remoc Require Import Lib.Base Chmux.Parse Chmux.Recv.

Definition is_data (m : msg) : bool := match m with MData _ => true | _ => false end.
Definition data_of (ms : list msg) : list msg := filter is_data ms.

Lemma data_of_app a b : data_of (a ++ b) = data_of a ++ data_of b.
Proof. apply filter_app. Qed.

Lemma drain_q_concat acc q : drain_q acc q = acc ++ concat q.
Proof.
  revert acc; induction q as [|c q IH]; intros acc; cbn [drain_q concat].
  - now rewrite app_nil_r.
  - rewrite IH. now rewrite app_assoc.
Qed.

Lemma handle_any_out r f r0 x : handle_any r f = (r0, x) ->
  match x with
  | Some OChunks => (f <> FFin /\ finished r0 = finished r) /\ exists q cpl, q <> [] /\ rcving r0 = RChunks q cpl
  | Some OEnd => f = FFin /\ finished r0 = true
  | Some (OData _) | Some (OReq _) | Some OErrPorts | None => f <> FFin /\ finished r0 = finished r
  | _ => False
  end.
Proof.
  unfold handle_any. intros H.
  destruct f as [first last b|first last ps|]; [| |injection H as <- <-; split; reflexivity];
    repeat match type of H with
           | context [if ?c then _ else _] => destruct c
           | context [match ?e with _ => _ end] => destruct e
           end; injection H as <- <-; try (split; [discriminate|reflexivity]);
    (split; [split; [discriminate|reflexivity]|]; refine (ex_intro _ _ (ex_intro _ _ (conj _ eq_refl)));
     first [apply not_eq_sym, app_cons_not_nil|discriminate]).
Qed.

Definition dacc (s : pst) : option (list N) := match s with PData acc => Some acc | _ => None end.

(** simulation relation between the consumer (mode, receiver state) and the parser state *)
Definition sim (m : cmode) (r : rstate) (s : pst) : Prop :=
  restarted r = None /\
  (finished r = true <-> s = PFin) /\
  (finished r = false ->
   match m with
   | CAny =>
       match rcving r with
       | RData bufs rem => dacc s = Some (concat bufs) /\ rem = len (concat bufs)
       | RChunks _ _ => False
       | _ => dacc s = None
       end
   | CStream acc => rcving r = RChunks [] false /\ dacc s = Some acc
   end).

(** projections and setters of the receiver state *)
Ltac rprj := cbn [rcving finished restarted max_data max_ports set_rcving set_finished set_restarted] in *.

Lemma len_concat_app (bufs : list (list N)) b : len (concat (bufs ++ [b])) = len (concat bufs) + len b.
Proof. rewrite concat_app. cbn [concat]. rewrite app_nil_r. apply len_app. Qed.
Lemma concat_snoc (bufs : list (list N)) b : concat (bufs ++ [b]) = concat bufs ++ b.
Proof. rewrite concat_app. cbn [concat]. now rewrite app_nil_r. Qed.

(** the end of every case of [feed_any_sim] and [feed_sim]: what receiver and parser deliver is computed, the
    lists are normalised, and the conjuncts of [sim] are closed one by one *)
Ltac fin :=
  unfold sim; rprj; cbn [delivered_msgs flat_map dmsg_msg app data_of filter is_data dacc drain_q concat];
  rewrite ?app_nil_r, ?drain_q_concat, ?concat_snoc, ?len_app; cbn [app concat]; rewrite ?app_nil_r;
  split; [repeat split; intros; auto; try congruence; try discriminate; try lia;
          try (cbn [concat app dacc]; rewrite ?app_nil_r; reflexivity) | try reflexivity].

Lemma feed_any_sim r s f :
  sim CAny r s -> finished r = false ->
  let '(m', r', o) := feed_any r f in
  let '(s', po) := parse_step s f in
  sim m' r' s' /\ data_of (delivered_msgs o) = data_of po.
Proof.
  intros (Hre & Hfin & Hst) Ef. specialize (Hst Ef).
  assert (Hs : s <> PFin) by (intros ->; destruct Hfin as [_ H]; specialize (H eq_refl); congruence).
  unfold feed_any, handle_any.
  destruct f as [first last b|first last ps|].
  - destruct first.
    + replace (0 + len b) with (len b) by lia. cbn [app concat].
      destruct s; try congruence; cbn [parse_step];
        (destruct (len b <=? max_data r) eqn:Em; [destruct last|unfold drain; rprj; destruct last]); fin.
    + destruct (rcving r) as [|bufs rem|q c|acc0] eqn:Er; try (destruct Hst; fail).
      * destruct s; try congruence; cbn [dacc] in Hst; try discriminate; cbn [parse_step]; fin; rewrite ?Er; auto.
      * destruct Hst as [Hd ->]. destruct s; try discriminate. cbn [dacc] in Hd. injection Hd as ->. cbn [parse_step].
        destruct (len (concat bufs) + len b <=? max_data r) eqn:Em; [destruct last|unfold drain; rprj; destruct last]; fin.
      * destruct s; try congruence; cbn [dacc] in Hst; try discriminate; cbn [parse_step]; fin.
  - destruct first.
    + cbn [app]. destruct s; try congruence; cbn [parse_step];
        destruct (max_ports r <? len ps); destruct last; fin.
    + destruct (rcving r) as [|bufs rem|q c|acc0] eqn:Er; try (destruct Hst; fail).
      * destruct s; try congruence; cbn [dacc] in Hst; try discriminate; cbn [parse_step]; try destruct last; fin.
      * destruct Hst as [Hd ->]. destruct s; try discriminate. cbn [parse_step]. fin.
      * destruct s; try congruence; cbn [dacc] in Hst; try discriminate; cbn [parse_step];
          destruct (max_ports r <? len (acc0 ++ ps)); destruct last; fin.
  - destruct s; try congruence; cbn [parse_step]; fin.
Qed.

Lemma feed_sim m r s f :
  sim m r s ->
  let '(m', r', o) := feed m r f in
  let '(s', po) := parse_step s f in
  sim m' r' s' /\ data_of (delivered_msgs o) = data_of po.
Proof.
  intros Hsim. pose proof Hsim as (Hre & Hfin & Hst). unfold feed.
  destruct (finished r) eqn:Ef.
  { assert (s = PFin) as -> by (now apply Hfin). cbn [parse_step]. split; [exact Hsim|reflexivity]. }
  destruct m as [|acc]; [now apply feed_any_sim|].
  assert (Hs : s <> PFin) by (intros ->; destruct Hfin as [_ H]; specialize (H eq_refl); congruence).
  destruct (Hst eq_refl) as [Er Hd]. destruct s; try discriminate. cbn [dacc] in Hd. injection Hd as ->.
  unfold handle_chunk. rewrite Er.
  destruct f as [first last b|first last ps|].
  - destruct first.
    + (* cancelled by the start of the next message, which recv_any processes next *)
      rprj. unfold feed_any, handle_any. rprj. cbn [app concat parse_step]. replace (0 + len b) with (len b) by lia.
      destruct (len b <=? max_data r) eqn:Em; [destruct last|unfold drain; rprj; destruct last]; fin.
    + cbn [parse_step]. unfold drain. rprj. destruct last; fin.
  - rprj. rewrite Hre. cbn [parse_step]. destruct first, last; fin.
  - rprj. rewrite Hre. cbn [parse_step]. fin.
Qed.

Lemma feed_all_sim fs : forall m r s,
  sim m r s ->
  let '(m', r', o) := feed_all m r fs in
  let '(s', po) := parse_from s fs in
  sim m' r' s' /\ data_of (delivered_msgs o) = data_of po.
Proof.
  induction fs as [|f fs IH]; intros m r s Hsim; cbn [feed_all parse_from].
  - split; [exact Hsim|reflexivity].
  - pose proof (feed_sim m r s f Hsim) as H1.
    destruct (feed m r f) as [[m1 r1] o1]. destruct (parse_step s f) as [s1 po1]. destruct H1 as [Hs1 Ho1].
    specialize (IH m1 r1 s1 Hs1).
    destruct (feed_all m1 r1 fs) as [[m2 r2] o2]. destruct (parse_from s1 fs) as [s2 po2]. destruct IH as [Hs2 Ho2].
    split; [exact Hs2|]. unfold delivered_msgs in *. rewrite flat_map_app, !data_of_app. now rewrite Ho1, Ho2.
Qed.

Lemma sim_init md mp : sim CAny (rinit md mp) PNone.
Proof. unfold sim, rinit; rprj. repeat split; intros; try discriminate; auto. Qed.

(** A consumer that follows the protocol obtains, from any frame sequence, exactly the data
    messages the sequence contains -- each once, in order, whole or streamed. *)
Theorem recv_refines_parse md mp fs :
  let '(_, _, o) := feed_all CAny (rinit md mp) fs in
  data_of (delivered_msgs o) = data_of (parse fs).
Proof.
  pose proof (feed_all_sim fs CAny (rinit md mp) PNone (sim_init md mp)) as H.
  destruct (feed_all CAny (rinit md mp) fs) as [[m r] o]. unfold parse.
  destruct (parse_from PNone fs) as [s po]. cbn [snd]. apply H.
Qed.

(** [fits md d]: a message handed over whole is at most [md] = [max_data_size] long, a streamed one is longer *)
Definition fits (md : N) (d : dmsg) : Prop :=
  match d with DData b => len b <= md | DStream b => md < len b | _ => True end.

(** only the [Finished] marker sets the receiver's [finished] flag *)
Lemma handle_any_finished r f : f <> FFin -> finished (fst (handle_any r f)) = finished r.
Proof.
  intros Hf. destruct (handle_any r f) as [r0 x] eqn:E. pose proof (handle_any_out r f r0 x E) as H. cbn [fst].
  destruct x as [[]|]; tauto.
Qed.

Lemma handle_chunk_finished r f : f <> FFin -> finished (fst (handle_chunk r f)) = finished r.
Proof.
  intros Hf. destruct f as [fi la b|fi la ps|]; [| |congruence]; unfold handle_chunk.
  - destruct (rcving r), fi; reflexivity.
  - destruct (rcving r); reflexivity.
Qed.

Lemma drain_finished acc r : finished (snd (fst (drain acc r))) = finished r.
Proof. unfold drain. destruct (rcving r) as [| | q c|]; try reflexivity. destruct c; reflexivity. Qed.

Lemma feed_any_finished r f : f <> FFin -> finished (snd (fst (feed_any r f))) = finished r.
Proof.
  intros Hf. unfold feed_any. pose proof (handle_any_finished r f Hf) as H.
  destruct (handle_any r f) as [r1 o1]. cbn [fst] in H.
  destruct o1 as [[]|]; cbn [fst snd]; try exact H. rewrite drain_finished. exact H.
Qed.

Lemma feed_finished_frame m r f m' r' o :
  feed m r f = (m', r', o) -> finished r = false -> finished r' = true -> f = FFin.
Proof.
  intros H Hf Hf'. assert (Hd : f = FFin \/ f <> FFin) by (destruct f; [right|right|left]; congruence).
  destruct Hd as [->|Hne]; [reflexivity|]. exfalso.
  assert (Hx : finished r' = false); [|congruence].
  replace r' with (snd (fst (feed m r f))) by now rewrite H.
  unfold feed. rewrite Hf. destruct m as [|acc]; [now rewrite feed_any_finished|].
  pose proof (handle_chunk_finished r f Hne) as Hc.
  destruct (handle_chunk r f) as [r1 o1]. cbn [fst] in Hc. rewrite Hf in Hc.
  destruct o1 as [[]|]; cbn [fst snd]; try exact Hc.
  - rewrite drain_finished. exact Hc.
  - destruct (restarted r1) as [[b0 l0]|]; [|exact Hc].
    rewrite feed_any_finished by discriminate. cbn [finished set_restarted]. exact Hc.
Qed.

Lemma feed_all_snoc m r l f :
  feed_all m r (l ++ [f]) =
  let '(m1, r1, o1) := feed_all m r l in let '(m2, r2, o2) := feed m1 r1 f in (m2, r2, o1 ++ o2).
Proof.
  revert m r; induction l as [|x l IH]; intros m r; cbn [app feed_all].
  - destruct (feed m r f) as [[m2 r2] o2]. now rewrite app_nil_r.
  - destruct (feed m r x) as [[m1 r1] o1]. rewrite IH.
    destruct (feed_all m1 r1 l) as [[m2 r2] o2]. destruct (feed m2 r2 f) as [[m3 r3] o3]. now rewrite app_assoc.
Qed.
