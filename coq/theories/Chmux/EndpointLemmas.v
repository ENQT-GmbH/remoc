(** Facts about the functions of [Mux.v] and [Endpoint.v] on their own. *)
From Remoc Require Import Lib.Base Gen.Consts Chmux.Wire Chmux.Mux Chmux.Endpoint.
From RecordUpdate Require Import RecordUpdate.

Lemma lookup_remove {A} k k' (l : list (N * A)) :
  lookup k (remove k' l) = if k =? k' then None else lookup k l.
Proof.
  induction l as [|[k1 v] l IH]; cbn [remove lookup].
  - now destruct (k =? k').
  - destruct (k' =? k1) eqn:E1.
    + apply N.eqb_eq in E1. subst k1. rewrite IH. now destruct (k =? k').
    + cbn [lookup]. rewrite IH. destruct (k =? k1) eqn:E2; [|reflexivity].
      apply N.eqb_eq in E2. subst k1. rewrite N.eqb_sym, E1. reflexivity.
Qed.

Lemma lookup_insert {A} k k' (v : A) l :
  lookup k (insert k' v l) = if k =? k' then Some v else lookup k l.
Proof. unfold insert. cbn [lookup]. rewrite lookup_remove. now destruct (k =? k'). Qed.

Lemma lookup_insert_eq {A} k (v : A) l : lookup k (insert k v l) = Some v.
Proof. now rewrite lookup_insert, N.eqb_refl. Qed.
Lemma lookup_insert_ne {A} k k' (v : A) l : k <> k' -> lookup k (insert k' v l) = lookup k l.
Proof. intros H. apply N.eqb_neq in H. now rewrite lookup_insert, H. Qed.
Lemma lookup_remove_eq {A} k (l : list (N * A)) : lookup k (remove k l) = None.
Proof. now rewrite lookup_remove, N.eqb_refl. Qed.
Lemma lookup_remove_ne {A} k k' (l : list (N * A)) : k <> k' -> lookup k (remove k' l) = lookup k l.
Proof. intros H. apply N.eqb_neq in H. now rewrite lookup_remove, H. Qed.
Lemma lookup_In {A} k (v : A) l : lookup k l = Some v -> In (k, v) l.
Proof.
  induction l as [|[k1 v1] l IH]; cbn [lookup]; [discriminate|]. destruct (k =? k1) eqn:E.
  - intros [= ->]. apply N.eqb_eq in E. subst. now left.
  - intros H. right. auto.
Qed.
Lemma length_remove {A} k (l : list (N * A)) : (length (remove k l) <= length l)%nat.
Proof. induction l as [|[k1 v] l IH]; cbn [remove length]; [lia|]. destruct (k =? k1); cbn [length]; lia. Qed.

(** by fuel: [lookup] sees only the first binding of a key, so the rest is searched with that key [remove]d *)
Lemma lookup_search {A} (P : A -> bool) : forall (fuel : nat) (l : list (N * A)), (length l <= fuel)%nat ->
  (exists k v, lookup k l = Some v /\ P v = true) \/ (forall k v, lookup k l = Some v -> P v = false).
Proof.
  induction fuel as [|fuel IH]; intros l Hl.
  - destruct l; [|cbn [length] in Hl; lia]. right. intros k v H. discriminate.
  - destruct l as [|[k0 v0] r]; [right; intros k v H; discriminate|].
    destruct (P v0) eqn:Ep.
    + left. exists k0, v0. cbn [lookup]. now rewrite N.eqb_refl.
    + cbn [length] in Hl. pose proof (length_remove k0 r). destruct (IH (remove k0 r)) as [(k & v & H1 & H2)|Hall]; [lia| |].
      * left. exists k, v. split; [|exact H2]. rewrite lookup_remove in H1. cbn [lookup]. destruct (k =? k0); [discriminate|exact H1].
      * right. intros k v Hk. cbn [lookup] in Hk. destruct (k =? k0) eqn:E; [congruence|]. apply (Hall k v). now rewrite lookup_remove, E.
Qed.
Lemma lookup_dec {A} (P : A -> bool) (l : list (N * A)) :
  (exists k v, lookup k l = Some v /\ P v = true) \/ (forall k v, lookup k l = Some v -> P v = false).
Proof. apply (lookup_search P (length l)). lia. Qed.
Lemma mem_all_false l : (forall r, mem r l = false) -> l = [].
Proof. destruct l as [|x l]; [auto|]. intros H. specialize (H x). cbn [mem] in H. rewrite N.eqb_refl in H. discriminate. Qed.
Lemma mem_del k k' l : mem k (del k' l) = if k =? k' then false else mem k l.
Proof.
  induction l as [|x l IH]; cbn [del mem].
  - now destruct (k =? k').
  - destruct (k' =? x) eqn:E1.
    + apply N.eqb_eq in E1. subst x. rewrite IH. destruct (k =? k'); reflexivity.
    + cbn [mem]. rewrite IH. destruct (k =? x) eqn:E2; cbn [orb]; [|reflexivity].
      apply N.eqb_eq in E2. subst x. rewrite N.eqb_sym, E1. reflexivity.
Qed.

Lemma mem_cons k x l : mem k (x :: l) = (k =? x) || mem k l. Proof. reflexivity. Qed.
Lemma mem_app k l1 l2 : mem k (l1 ++ l2) = mem k l1 || mem k l2.
Proof. induction l1 as [|x l1 IH]; cbn [mem app]; [reflexivity|]. rewrite IH. now rewrite orb_assoc. Qed.
Lemma mem_rev k l : mem k (rev l) = mem k l.
Proof.
  induction l as [|x l IH]; cbn [rev mem]; [reflexivity|]. rewrite mem_app, IH. cbn [mem].
  rewrite orb_false_r. apply orb_comm.
Qed.
Lemma mem_In k l : mem k l = true <-> In k l.
Proof.
  induction l as [|x l IH]; cbn [mem In]; [split; [discriminate|tauto]|].
  rewrite orb_true_iff, IH, N.eqb_eq. split; intros [H|H]; auto.
Qed.
Lemma mem_false_In k l : mem k l = false <-> ~ In k l.
Proof. rewrite <- mem_In. destruct (mem k l); split; congruence. Qed.

Lemma In_del k x l : In x (del k l) <-> In x l /\ x <> k.
Proof.
  rewrite <- !mem_In, mem_del. destruct (x =? k) eqn:E.
  - apply N.eqb_eq in E. split; [discriminate|tauto].
  - apply N.eqb_neq in E. tauto.
Qed.
Lemma NoDup_del k l : NoDup l -> NoDup (del k l).
Proof.
  induction 1 as [|x l Hx Hn IH]; cbn [del]; [constructor|].
  destruct (k =? x); [exact IH|]. constructor; [|exact IH]. rewrite In_del. tauto.
Qed.
Lemma len_del k l : len (del k l) <= len l.
Proof.
  induction l as [|x l IH]; cbn [del]; [lia|]. destruct (k =? x); rewrite ?len_cons; lia.
Qed.

Lemma keys_remove {A} k (l : list (N * A)) x : In x (map fst (remove k l)) <-> In x (map fst l) /\ x <> k.
Proof.
  induction l as [|[k1 v] l IH]; cbn [remove map In fst]; [tauto|].
  destruct (k =? k1) eqn:E.
  - apply N.eqb_eq in E. subst k1. rewrite IH. intuition congruence.
  - apply N.eqb_neq in E. cbn [map In fst]. rewrite IH. intuition congruence.
Qed.
Lemma NoDup_keys_remove {A} k (l : list (N * A)) : NoDup (map fst l) -> NoDup (map fst (remove k l)).
Proof.
  induction l as [|[k1 v] l IH]; cbn [remove map fst]; [constructor|].
  intros H. inversion H as [|? ? Hx Hn]; subst. destruct (k =? k1); [auto|].
  cbn [map fst]. constructor; [|auto]. rewrite keys_remove. tauto.
Qed.
Lemma NoDup_keys_insert {A} k (v : A) l : NoDup (map fst l) -> NoDup (map fst (insert k v l)).
Proof.
  intros H. unfold insert. cbn [map fst]. constructor; [|now apply NoDup_keys_remove].
  rewrite keys_remove. tauto.
Qed.
Lemma lookup_None_keys {A} k (l : list (N * A)) : lookup k l = None <-> ~ In k (map fst l).
Proof.
  induction l as [|[k1 v] l IH]; cbn [lookup map In fst]; [tauto|].
  destruct (k =? k1) eqn:E.
  - apply N.eqb_eq in E. subst. split; [discriminate|tauto].
  - apply N.eqb_neq in E. rewrite IH. split; [intros H [H1|H1]; [congruence|tauto]|tauto].
Qed.

Lemma lookup_map {A B} (f : N * A -> N * B) (g : A -> B) l k :
  (forall x, f x = (fst x, g (snd x))) -> lookup k (map f l) = option_map g (lookup k l).
Proof.
  intros Hf. induction l as [|[k1 v] l IH]; cbn [map lookup]; [reflexivity|].
  rewrite Hf. cbn [fst snd lookup]. now destruct (k =? k1).
Qed.

Definition b2n (b : bool) : N := if b then 1 else 0.
Definition isK {A} (o : option A) : N := match o with Some _ => 1 | None => 0 end.
Fixpoint count {A} (f : A -> bool) (l : list A) : N :=
  match l with [] => 0 | x :: r => b2n (f x) + count f r end.
Lemma count_app {A} (f : A -> bool) l1 l2 : count f (l1 ++ l2) = count f l1 + count f l2.
Proof. induction l1 as [|x l1 IH]; cbn [count app]; lia. Qed.
Lemma count_cons {A} (f : A -> bool) x l : count f (x :: l) = b2n (f x) + count f l. Proof. reflexivity. Qed.
Lemma count_nil {A} (f : A -> bool) : count f [] = 0. Proof. reflexivity. Qed.
Lemma count_snoc {A} (f : A -> bool) l x : count f (l ++ [x]) = count f l + b2n (f x).
Proof. rewrite count_app. cbn [count]. lia. Qed.

Definition occ (p : N) (l : list N) : N := count (fun x => x =? p) l.
Lemma occ_app p l1 l2 : occ p (l1 ++ l2) = occ p l1 + occ p l2. Proof. apply count_app. Qed.
Lemma occ_cons p x l : occ p (x :: l) = b2n (x =? p) + occ p l. Proof. reflexivity. Qed.
Lemma occ_nil p : occ p [] = 0. Proof. reflexivity. Qed.
Lemma occ_rev p l : occ p (rev l) = occ p l.
Proof. induction l as [|x l IH]; cbn [rev]; [reflexivity|]. rewrite occ_app, IH, !occ_cons, occ_nil. lia. Qed.
Lemma occ_mem p l : occ p l = 0 <-> mem p l = false.
Proof.
  induction l as [|x l IH]; cbn [mem]; [rewrite occ_nil; tauto|]. rewrite occ_cons, (N.eqb_sym x p).
  destruct (p =? x); cbn [b2n orb]; [split; [lia|discriminate]|]. rewrite <- IH. lia.
Qed.
Lemma occ_pos_mem p l : 1 <= occ p l <-> mem p l = true.
Proof.
  pose proof (occ_mem p l) as H. destruct (mem p l).
  - split; [reflexivity|]. intros _. destruct (N.eq_dec (occ p l) 0) as [E|E]; [|lia].
    apply H in E. discriminate.
  - split; [|discriminate]. intros H1. assert (occ p l = 0) by now apply H. lia.
Qed.

Lemma alive_iff e :
  alive e = true <-> dead e = None /\ panicked e = None /\ goodbye_sent (mx e) && goodbye_received (mx e) = false.
Proof. unfold alive. destruct (dead e), (panicked e); rewrite ?negb_true_iff; intuition congruence. Qed.
Lemma alive_spec e : alive e = true ->
  dead e = None /\ panicked e = None /\ goodbye_sent (mx e) && goodbye_received (mx e) = false.
Proof. apply alive_iff. Qed.
Lemma step_alive e a e' : step_opt e a = Some e' -> alive e = true.
Proof. unfold step_opt. destruct (alive e); [reflexivity|discriminate]. Qed.
Lemma not_alive_absorbing e a : alive e = false -> step_opt e a = None.
Proof. intros H. unfold step_opt. now rewrite H. Qed.
Lemma dead_absorbing e a : dead e <> None -> step_opt e a = None.
Proof. intros H. apply not_alive_absorbing. destruct (alive e) eqn:E; [|reflexivity]. now apply alive_spec in E. Qed.

Definition resolve_st (gone : bool) (s : cstate) : cstate :=
  match s with CWaiting => CResolved (if gone then RListenerGone else RChMux) | s => s end.
Lemma lookup_resolve e req :
  lookup req (connects (resolve_waiting e)) = option_map (resolve_st (remote_listener_dropped (mx e))) (lookup req (connects e)).
Proof. apply lookup_map. now intros [k []]. Qed.

Definition apply_eff (e : ep) (f : eff) : ep :=
  match f with
  | Emit m pl => e <| sent := sent e ++ [(m, pl)] |>
  | Respond req r => e <| connects := insert req (CResolved r) (connects e) |>
  | NewPort local _ => set_handle e local {| h_tx := Alive; h_rx := Alive; h_rxc := Alive |}
  | ToListener r =>
      if listener_alive e
      then e <| requests := insert (lr_remote r) (RListenQ (lr_wait r)) (requests e) |>
      else e <| requests := insert (lr_remote r) RDropped (requests e) |>
  | DropRequest rp => e <| requests := insert rp RDropped (requests e) |>
  | PortRequests p rs =>
      let st := match lookup p (handles e) with
                | Some h => match h_rx h with Alive => RPortQ | _ => RDropped end
                | None => RDropped
                end in
      e <| requests := fold_left (fun acc r => insert r st acc) rs (requests e) |>
  | ListenerClientDropped => e
  | DropNumber p => e <| alloc := del p (alloc e) |>
  end.
Lemma apply_effs_cons e f r : apply_effs e (f :: r) = apply_effs (apply_eff e f) r.
Proof. reflexivity. Qed.

Lemma apply_effs_inv (P : ep -> Prop) :
  (forall e f, P e -> P (apply_eff e f)) -> forall effs e, P e -> P (apply_effs e effs).
Proof. intros HP. induction effs as [|f r IH]; intros e H; [exact H|]. rewrite apply_effs_cons. auto. Qed.
Lemma apply_effs_keeps {A} (g : ep -> A) :
  (forall e f, g (apply_eff e f) = g e) -> forall effs e, g (apply_effs e effs) = g e.
Proof. intros Hg effs e. apply (apply_effs_inv (fun e' => g e' = g e)); [|reflexivity]. intros e' f <-. apply Hg. Qed.

Ltac eff_frame :=
  let e := fresh "e" in let f := fresh "f" in
  intros e f; destruct f; try reflexivity; cbn [apply_eff]; destruct (listener_alive e); reflexivity.
Lemma apply_effs_mx effs e : mx (apply_effs e effs) = mx e.
Proof. apply (apply_effs_keeps mx). eff_frame. Qed.
Lemma apply_effs_dead effs e : dead (apply_effs e effs) = dead e.
Proof. apply (apply_effs_keeps dead). eff_frame. Qed.
Lemma apply_effs_panicked effs e : panicked (apply_effs e effs) = panicked e.
Proof. apply (apply_effs_keeps panicked). eff_frame. Qed.
Lemma apply_effs_max_ports effs e : max_ports (apply_effs e effs) = max_ports e.
Proof. apply (apply_effs_keeps max_ports). eff_frame. Qed.

Lemma apply_eff_alloc e f : alloc (apply_eff e f) = match f with DropNumber p => del p (alloc e) | _ => alloc e end.
Proof. destruct f; try reflexivity. cbn [apply_eff]. now destruct (listener_alive e). Qed.
Lemma apply_effs_alloc_sub effs e x : In x (alloc (apply_effs e effs)) -> In x (alloc e).
Proof.
  apply (apply_effs_inv (fun e' => In x (alloc e') -> In x (alloc e))); [|auto].
  intros e' f H. rewrite apply_eff_alloc. destruct f; auto. rewrite In_del. tauto.
Qed.
Lemma apply_effs_alloc_NoDup effs e : NoDup (alloc e) -> NoDup (alloc (apply_effs e effs)).
Proof.
  apply (apply_effs_inv (fun e' => NoDup (alloc e'))). intros e' f H. rewrite apply_eff_alloc. destruct f; auto using NoDup_del.
Qed.
Lemma apply_effs_alloc_len effs e : len (alloc (apply_effs e effs)) <= len (alloc e).
Proof.
  apply (apply_effs_inv (fun e' => len (alloc e') <= len (alloc e))); [|lia].
  intros e' f H. rewrite apply_eff_alloc. destruct f; auto. pose proof (len_del p (alloc e')). lia.
Qed.

(** [maybe_free_port] right after the entry of [p] has been rewritten: [SenderDropped], [ReceiverDropped], [SendFinish],
    [ReceiveClose] and [ReceiveFinish] ([mux.rs]) all end that way; [pre] is what the handler has emitted before. *)
Definition upd_free (m : mux) (p : N) (c' : conn) (pre : list eff) : outcome :=
  let pt := insert p (Connected c') (ports m) in
  if tx_dropped c' && rx_dropped c' && negb (rx_open c') && rrx_dropped c'
  then Done (m <| ports := remove p pt |>) (pre ++ [DropNumber p])
  else Done (m <| ports := pt |>) pre.

Lemma maybe_free_upd m p c' pre :
  match maybe_free (m <| ports := insert p (Connected c') (ports m) |>) p with
  | Some (m2, effs) => Done m2 (pre ++ effs)
  | None => Panic SiteMaybeFree
  end = upd_free m p c' pre.
Proof.
  unfold maybe_free, upd_free. cbn [ports set RecordSet.set]. rewrite lookup_insert, N.eqb_refl.
  destruct (_ && _); [reflexivity|now rewrite app_nil_r].
Qed.

Lemma he_SenderDropped m p :
  handle_event m (ESenderDropped p) =
  match lookup p (ports m) with
  | Some (Connected c) =>
      if tx_dropped c then Panic SiteSenderDroppedTwice
      else upd_free m p (c <| tx_dropped := true |>) [Emit (SendFinish (remote c)) None]
  | _ => Panic SiteSenderDroppedState
  end.
Proof.
  cbn [handle_event]. destruct (lookup p (ports m)) as [[|c]|]; try reflexivity.
  destruct (tx_dropped c); [reflexivity|]. exact (maybe_free_upd m p _ [_]).
Qed.
Lemma he_ReceiverDropped m p :
  handle_event m (EReceiverDropped p) =
  match lookup p (ports m) with
  | Some (Connected c) =>
      if rx_dropped c then Panic SiteReceiverDroppedTwice
      else upd_free m p (c <| rx_dropped := true |>) [Emit (ReceiveFinish (remote c)) None]
  | _ => Panic SiteReceiverDroppedState
  end.
Proof.
  cbn [handle_event]. destruct (lookup p (ports m)) as [[|c]|]; try reflexivity.
  destruct (rx_dropped c); [reflexivity|]. exact (maybe_free_upd m p _ [_]).
Qed.
Lemma hr_SendFinish m p n :
  handle_received m (SendFinish p) n =
  match lookup p (ports m) with
  | Some (Connected c) =>
      if rx_open c then upd_free m p (c <| rx_open := false |> <| rxq := rxq c ++ [(0, [])] |>) []
      else Proto PSendFinishTwice []
  | _ => Proto PSendFinishNotConnected []
  end.
Proof.
  cbn [handle_received]. destruct (lookup p (ports m)) as [[|c]|]; try reflexivity.
  destruct (rx_open c); [|reflexivity]. exact (maybe_free_upd m p _ []).
Qed.
Lemma hr_ReceiveClose m p n :
  handle_received m (ReceiveClose p) n =
  match lookup p (ports m) with
  | Some (Connected c) =>
      if negb (rrx_closed c) then upd_free m p (c <| pool_closed := Some true |> <| rrx_closed := true |>) []
      else Proto PRecvCloseTwice []
  | _ => Proto PRecvCloseNotConnected []
  end.
Proof.
  cbn [handle_received]. destruct (lookup p (ports m)) as [[|c]|]; try reflexivity.
  destruct (negb (rrx_closed c)); [|reflexivity]. exact (maybe_free_upd m p _ []).
Qed.
Lemma hr_ReceiveFinish m p n :
  handle_received m (ReceiveFinish p) n =
  match lookup p (ports m) with
  | Some (Connected c) =>
      upd_free m p (c <| pool_closed := Some false |> <| rrx_closed := true |> <| rrx_dropped := true |>) []
  | _ => Proto PRecvFinishNotConnected []
  end.
Proof.
  cbn [handle_received]. destruct (lookup p (ports m)) as [[|c]|]; try reflexivity. exact (maybe_free_upd m p _ []).
Qed.

Lemma upd_free_Done m p c' pre :
  exists m' effs, upd_free m p c' pre = Done m' effs /\ forall f, In f effs -> In f pre \/ f = DropNumber p.
Proof.
  unfold upd_free. destruct (_ && _); eexists _, _; (split; [reflexivity|]); [|now left].
  intros f H. apply in_app_or in H as [H|[H|[]]]; auto.
Qed.

Theorem handle_received_never_panics m msg n :
  match handle_received m msg n with Panic _ => False | _ => True end.
Proof.
  assert (U : forall p c' pre, match upd_free m p c' pre with Panic _ => False | _ => True end).
  { intros. now destruct (upd_free_Done m p c' pre) as (? & ? & -> & _). }
  destruct msg; rewrite ?hr_SendFinish, ?hr_ReceiveClose, ?hr_ReceiveFinish; cbn [handle_received]; try exact I;
    repeat match goal with
    | |- match upd_free _ _ _ _ with _ => _ end => apply U
    | |- match (match ?x with _ => _ end) with _ => _ end => destruct x
    | |- match (if ?x then _ else _) with _ => _ end => destruct x
    end; try exact I.
Qed.
