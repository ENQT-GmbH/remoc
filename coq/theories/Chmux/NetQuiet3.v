(** Two invariants of every run of the composition, protocol errors or not: the all-clients-dropped
    marker is never lost, and a [Goodbye] that was sent is in flight or has been received. *)
From Remoc Require Import Lib.Base Chmux.Mux Chmux.Endpoint Chmux.EndpointLemmas Chmux.EndpointInv Chmux.EndpointSteps
  Chmux.EndpointEffects Chmux.EndpointRecv Chmux.Net Chmux.NetInv Chmux.NetShape Chmux.NetQuiet.

(** the marker is with the clients, in the connect queue, or recorded by the dispatcher *)
Definition cl_val (e : ep) : N :=
  if clients_alive e then 1 else count is_acd (cq e) + b2n (all_clients_dropped (mx e)).
Definition cl_ok (e : ep) : Prop := 1 <= cl_val e.

Lemma finish_outcome e1 o :
  clients_alive (finish e1 o) = clients_alive e1 /\ cq (finish e1 o) = cq e1 /\
  match o with
  | Done m effs => mx (finish e1 o) = m /\ sent (finish e1 o) = sent e1 ++ emits effs
  | Proto _ effs => mx (finish e1 o) = mx e1 /\ sent (finish e1 o) = sent e1 ++ emits effs
  | Panic _ => mx (finish e1 o) = mx e1 /\ sent (finish e1 o) = sent e1
  end.
Proof.
  destruct o as [m effs|err effs|s]; cbn [finish]; [destruct (goodbye_sent m && goodbye_received m)| |]; unfold resolve_waiting; prj;
    rewrite ?apply_effs_clients, ?apply_effs_cq, ?apply_effs_mx, ?apply_effs_sent; prj; auto.
Qed.

Lemma user_cl e a e' : step_opt e a = Some e' -> is_disp a = false -> is_recv a = false -> cl_ok e -> cl_ok e'.
Proof.
  intros H Hd Hr. destruct (view_user _ _ _ H Hd Hr) as (_ & _ & _ & _ & _ & Ha & Hc). unfold cl_ok, cl_val. rewrite Ha.
  destruct Hc as [[E1 E2]|[E1|[E1 E2]]]; rewrite E1, ?E2; [auto|reflexivity|].
  rewrite count_snoc. cbn [is_acd b2n]. lia.
Qed.

Lemma recv_flags e msg n e' : step_opt e (Recv msg n) = Some e' ->
  all_clients_dropped (mx e') = all_clients_dropped (mx e) /\ goodbye_sent (mx e') = goodbye_sent (mx e) /\
  goodbye_received (mx e') = goodbye_received (mx e) || m_gb msg /\ sent e' = sent e /\
  clients_alive e' = clients_alive e /\ cq e' = cq e.
Proof.
  intros H. apply step_pre_recv in H. subst e'.
  destruct (finish_outcome (pre_finish e (Recv msg n)) (handle_received (recv_mux e) msg n)) as (F1 & F2 & F3).
  rewrite F1, F2. cbn [pre_finish] in *. prj.
  assert (A : all_clients_dropped (recv_mux e) = all_clients_dropped (mx e) /\ goodbye_sent (recv_mux e) = goodbye_sent (mx e) /\
              goodbye_received (recv_mux e) = goodbye_received (mx e)) by (unfold recv_mux; destruct (listener_alive e); auto).
  destruct A as (A1 & A3 & A4). pose proof (hr_no_emit (recv_mux e) msg n) as Hne.
  pose proof (handle_received_never_panics (recv_mux e) msg n) as Hp.
  destruct (handle_received (recv_mux e) msg n) as [m' effs|err effs|s] eqn:Hr; [| |contradiction];
    cbn [effs_of] in Hne; destruct F3 as [F3 F4]; rewrite F3, F4, Hne, app_nil_r; prj.
  - destruct (hr_flags _ _ _ _ _ Hr) as (Hf & _). unfold flags_of in Hf. injection Hf as G1 G2 G3 G4.
    rewrite G1, G3, G4, A1, A3, A4. auto 10.
  - rewrite A1, A3, A4. assert (m_gb msg = false) as -> by (destruct msg; try reflexivity; discriminate).
    rewrite orb_false_r. auto 10.
Qed.

Lemma disp_flags e a e' : step_opt e a = Some e' -> is_recv a = false ->
  cnt m_gb (new_frames e e') + b2n (goodbye_sent (mx e)) = b2n (goodbye_sent (mx e')) /\
  goodbye_received (mx e') = goodbye_received (mx e) /\ (cl_ok e -> cl_ok e').
Proof.
  intros H Hr. destruct (is_disp a) eqn:Ed.
  2:{ assert (Ho : disp_outcome e a = None) by (destruct a; try reflexivity; discriminate).
      destruct (step_user _ _ _ H Ho) as ((_ & -> & ->) & _). destruct (view_user _ _ _ H Ed Hr) as (_ & _ & E1 & _).
      rewrite (new_frames_same _ _ E1). split; [reflexivity|split; [reflexivity|exact (user_cl _ _ _ H Ed Hr)]]. }
  destruct (step_pre _ _ _ H Ed) as (ev & Hev & -> & Hg).
  destruct (finish_outcome (pre_finish e a) (handle_event (mx e) ev)) as (F1 & F2 & F3).
  destruct (pre_finish_same e a) as (S1 & _ & S3 & _ & S5). rewrite Hr in S5. pose proof (pre_finish_cq e a) as S6.
  unfold cl_ok, cl_val. rewrite F1, F2, S3, Hg.
  assert (Hcq : count is_acd (cq e) <= count is_acd (cq (pre_finish e a)) + b2n (is_acd ev)).
  { rewrite S6. clear - Hev Ed. destruct a; try discriminate Ed; try lia. cbn [disp_ev] in Hev. destruct (cq e); [discriminate|]. injection Hev as ->. cbn [tl]. rewrite count_cons. lia. }
  pose proof (handle_event_no_proto (mx e) ev) as Hnp.
  destruct (handle_event (mx e) ev) as [m effs|err effs|s] eqn:He; [|contradiction|]; destruct F3 as [F3 F4]; rewrite F3.
  - rewrite (new_frames_app e _ (emits effs)) by (rewrite F4, S1; reflexivity).
    destruct (he_flags _ _ _ _ He) as (Hf & Hgb & _). unfold flags_of in Hf. injection Hf as G1 G2 G3 G4.
    rewrite Hgb, G1, G3, G4, Hg. split; [cbn [orb b2n]; apply N.add_0_r|split; [reflexivity|]]. clear - Hcq.
    destruct (clients_alive e); [auto|]. destruct (all_clients_dropped (mx e)), (is_acd ev); cbn [orb b2n] in *; lia.
  - rewrite (new_frames_same e _) by (rewrite F4, S1; reflexivity). rewrite S5, Hg. split; [reflexivity|split; [reflexivity|]].
    assert (is_acd ev = false) as Hx by (destruct ev; try reflexivity; discriminate). rewrite Hx in Hcq. clear - Hcq.
    destruct (clients_alive e); [auto|]. cbn [b2n] in Hcq. lia.
Qed.

Definition gb_ok (X Y : ep) (L : list frame) : Prop :=
  cnt m_gb L + b2n (goodbye_received (mx Y)) = b2n (goodbye_sent (mx X)).

Record Extra (n : net) : Prop := mk_Extra {
  x_cla : cl_ok (na n);
  x_clb : cl_ok (nb n);
  x_gab : gb_ok (na n) (nb n) (lab n);
  x_gba : gb_ok (nb n) (na n) (lba n)
}.

Lemma Extra_local X Y L L' a X' :
  cl_ok X -> gb_ok X Y L -> gb_ok Y X L' -> step_opt X a = Some X' -> is_recv a = false ->
  cl_ok X' /\ gb_ok X' Y (L ++ new_frames X X') /\ gb_ok Y X' L'.
Proof.
  unfold gb_ok. intros Hc G1 G2 H Hr. destruct (disp_flags _ _ _ H Hr) as (D1 & D2 & D3).
  split; [auto|split]; rewrite ?cnt_app, ?D2; lia.
Qed.

Lemma Extra_recv X Y L0 L' msg pl Y' :
  cl_ok Y -> gb_ok X Y ((msg, pl) :: L0) -> gb_ok Y X L' -> step_opt Y (Recv msg (paylen_of pl)) = Some Y' ->
  cl_ok Y' /\ gb_ok X Y' L0 /\ gb_ok Y' X L'.
Proof.
  unfold gb_ok, cl_ok, cl_val. intros Hc G1 G2 H. destruct (recv_flags _ _ _ _ H) as (R1 & R2 & R3 & R4 & R5 & R6).
  rewrite R1, R2, R3, R5, R6. rewrite cnt_cons in G1. cbn [fst] in G1.
  split; [exact Hc|split; [|exact G2]].
  pose proof (b2n_le1 (goodbye_sent (mx X))). destruct (m_gb msg), (goodbye_received (mx Y)); cbn [orb b2n] in *; lia.
Qed.

Lemma Extra_step n a : Extra n -> Extra (nstep n a).
Proof.
  intros [C1 C2 G1 G2].
  pose (P := fun X Y L L' => cl_ok X /\ cl_ok Y /\ gb_ok X Y L /\ gb_ok Y X L').
  destruct (nstep_cases P P) with (n := n) (a := a) as (A1 & A2 & A3 & A4); unfold P; try tauto; [| |constructor; auto].
  - intros X Y L L' a0 X' (H1 & H2 & H3 & H4) Hr E. destruct (Extra_local _ _ _ _ _ _ H1 H3 H4 E Hr) as (B1 & B2 & B3). auto.
  - intros X Y m pl L0 L' Y' (H1 & H2 & H3 & H4) E. destruct (Extra_recv _ _ _ _ _ _ _ H2 H3 H4 E) as (B1 & B2 & B3). auto.
Qed.

Lemma Extra_init c : Extra (net_init c).
Proof. constructor; unfold cl_ok, cl_val, gb_ok, net_init; cbn; lia. Qed.

Theorem Extra_reach c acts : Extra (nreach c acts).
Proof. apply (fold_left_inv nstep Extra Extra_step), Extra_init. Qed.

Theorem markers_reach c acts :
  let n := nreach c acts in
  (clients_alive (na n) = false -> 1 <= count is_acd (cq (na n)) + b2n (all_clients_dropped (mx (na n)))) /\
  (clients_alive (nb n) = false -> 1 <= count is_acd (cq (nb n)) + b2n (all_clients_dropped (mx (nb n)))) /\
  cnt m_gb (lab n) + b2n (goodbye_received (mx (nb n))) = b2n (goodbye_sent (mx (na n))) /\
  cnt m_gb (lba n) + b2n (goodbye_received (mx (na n))) = b2n (goodbye_sent (mx (nb n))).
Proof.
  intros n. destruct (Extra_reach c acts) as [C1 C2 G1 G2]. fold n in C1, C2, G1, G2.
  unfold cl_ok, cl_val in C1, C2. repeat split; auto; intros E; rewrite E in *; assumption.
Qed.
