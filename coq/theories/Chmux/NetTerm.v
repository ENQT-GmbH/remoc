(** C07 for the composed system: once no user object is left on either side, the remaining enabled
    actions (helper tasks, dispatcher steps, deliveries) each decrease a measure, and when none is
    enabled both dispatchers have ended successfully (Goodbye sent and received). *)
From Remoc Require Import Lib.Base Chmux.Mux Chmux.Endpoint Chmux.EndpointLemmas Chmux.EndpointInv Chmux.EndpointSteps
  Chmux.EndpointProofs Chmux.Net Chmux.NetInv Chmux.NetFrame Chmux.NetShape Chmux.NetSteps Chmux.NetRecvStep
  Chmux.NetProofs Chmux.NetQuiet Chmux.NetQuiet3.
From RecordUpdate Require Import RecordUpdate.

Definition nquiet (n : net) : Prop :=
  equiet (na n) /\ equiet (nb n) /\ cnt m_ispo (lab n) = 0 /\ cnt m_ispo (lba n) = 0.
Definition mu (n : net) : N :=
  w_ep (na n) + w_ep (nb n) + sum (map w_frame (lab n)) + sum (map w_frame (lba n)).
Definition sys_act (a : act) : bool :=
  match a with NTx _ | NRx _ | NReq _ | DPort | DConn | DListenerDropped | DGoodbye => true | _ => false end.
Definition sys_nact (a : nact) : bool := match a with Loc _ a => sys_act a | Deliver _ => true end.

Definition finished_ok (e : ep) : Prop :=
  dead e = None /\ goodbye_sent (mx e) = true /\ goodbye_received (mx e) = true.

Lemma local_dec e a e' : sys_act a = true -> step_opt e a = Some e' -> equiet e -> WF e ->
  equiet e' /\ w_ep e' + sum (map w_frame (new_frames e e')) + 1 <= w_ep e /\ cnt m_ispo (new_frames e e') = 0 /\ dead e' = dead e.
Proof.
  intros Hs H Hq Hw. destruct (is_disp a) eqn:Ed; [exact (q_disp _ _ _ H Ed Hq (wf_nopanic _ (WF_step _ _ _ Hw H)))|].
  destruct (q_task _ _ _ H) as (A1 & A2 & A3 & A4 & A5); [destruct a; try discriminate; exact I|exact Hq|].
  rewrite (new_frames_same _ _ A4). cbn [map sum]. split; [exact A1|split; [clear - A2; lia|split; [reflexivity|exact A5]]].
Qed.

(** The good states, seen from one side *)
Record OkS (X Y : ep) (L L' : list frame) : Prop := mk_OkS {
  o_dx : dead X = None; o_dy : dead Y = None;
  o_sys : Sys X Y L L';
  o_clx : cl_ok X; o_cly : cl_ok Y;
  o_gxy : gb_ok X Y L; o_gyx : gb_ok Y X L';
  o_qx : equiet X; o_qy : equiet Y;
  o_px : cnt m_ispo L = 0; o_py : cnt m_ispo L' = 0
}.
Definition muS (X Y : ep) (L L' : list frame) : N := w_ep X + w_ep Y + sum (map w_frame L) + sum (map w_frame L').

Lemma OkS_sym X Y L L' : OkS X Y L L' -> OkS Y X L' L.
Proof. intros [A1 A2 A3 A4 A5 A6 A7 A8 A9 A10 A11]. constructor; auto. now apply Sys_sym. Qed.
Lemma muS_sym X Y L L' : muS Y X L' L = muS X Y L L'.
Proof. unfold muS. lia. Qed.

Lemma okS_local X Y L L' a X' :
  OkS X Y L L' -> sys_act a = true -> step_opt X a = Some X' ->
  OkS X' Y (L ++ new_frames X X') L' /\ muS X' Y (L ++ new_frames X X') L' < muS X Y L L'.
Proof.
  intros [A1 A2 A3 A4 A5 A6 A7 A8 A9 A10 A11] Hs H.
  assert (Hr : is_recv a = false) by (destruct a; try discriminate; reflexivity).
  pose proof A3 as (Hwx & _ & _).
  destruct (local_dec _ _ _ Hs H A8 Hwx) as (B1 & B2 & B3 & B4).
  destruct (sys_local _ _ _ _ _ _ A3 Hr H) as [C1 _].
  destruct (Extra_local _ _ _ _ _ _ A4 A6 A7 H Hr) as (D1 & D2 & D3).
  split.
  - constructor; auto; try congruence. rewrite cnt_app, A10, B3. reflexivity.
  - unfold muS. rewrite map_app, sum_app. clear - B2. lia.
Qed.

Lemma okS_recv X Y L0 L' msg pl Y' :
  OkS X Y ((msg, pl) :: L0) L' -> step_opt Y (Recv msg (paylen_of pl)) = Some Y' -> dead Y' = None ->
  OkS X Y' L0 L' /\ muS X Y' L0 L' < muS X Y ((msg, pl) :: L0) L'.
Proof.
  intros [A1 A2 A3 A4 A5 A6 A7 A8 A9 A10 A11] H Hd.
  destruct (sys_recv _ _ _ _ _ _ _ A3 H) as [C1 _]. specialize (C1 Hd).
  destruct (Extra_recv _ _ _ _ _ _ _ A5 A6 A7 H) as (D1 & D2 & D3).
  rewrite cnt_cons in A10. cbn [fst] in A10.
  assert (Hpo : m_ispo msg = false) by (destruct (m_ispo msg); [clear - A10; cbn [b2n] in A10; lia|reflexivity]).
  destruct (q_Recv _ _ _ _ H A9 Hpo Hd) as (B1 & B2 & B3).
  split.
  - constructor; auto. rewrite Hpo in A10. exact A10.
  - unfold muS. cbn [map sum]. change (w_frame (msg, pl)) with (w_msg msg). clear - B2. lia.
Qed.

Lemma alive_flags e : dead e = None -> panicked e = None ->
  alive e = negb (goodbye_sent (mx e) && goodbye_received (mx e)).
Proof. intros H1 H2. unfold alive. now rewrite H1, H2. Qed.

Lemma en_Recv e msg n : alive e = true -> exists e', step_opt e (Recv msg n) = Some e'.
Proof. intros Ha. unfold step_opt. rewrite Ha. cbn [negb]. eauto. Qed.
Lemma en_NTx e p h : alive e = true -> lookup p (handles e) = Some h -> h_tx h = Dropped -> exists e', step_opt e (NTx p) = Some e'.
Proof. intros Ha Hl Hh. unfold step_opt. rewrite Ha, Hl, Hh. cbn [negb]. eauto. Qed.
Lemma en_NRx e p h : alive e = true -> lookup p (handles e) = Some h -> h_rx h = Dropped -> exists e', step_opt e (NRx p) = Some e'.
Proof. intros Ha Hl Hh. unfold step_opt. rewrite Ha, Hl, Hh. cbn [negb]. eauto. Qed.
Lemma en_NReq e r : alive e = true -> lookup r (requests e) = Some RDropped -> exists e', step_opt e (NReq r) = Some e'.
Proof. intros Ha Hl. unfold step_opt. rewrite Ha, Hl. cbn [negb]. eauto. Qed.
Lemma en_DPort e ev q : alive e = true -> goodbye_sent (mx e) = false -> chq e = ev :: q -> exists e', step_opt e DPort = Some e'.
Proof. intros Ha Hg Hq. unfold step_opt, sending. rewrite Ha, Hg, Hq. cbn [negb]. eauto. Qed.
Lemma en_DConn e ev q : alive e = true -> goodbye_sent (mx e) = false -> cq e = ev :: q -> exists e', step_opt e DConn = Some e'.
Proof. intros Ha Hg Hq. unfold step_opt, sending. rewrite Ha, Hg, Hq. cbn [negb]. eauto. Qed.
Lemma en_DListenerDropped e : alive e = true -> goodbye_sent (mx e) = false -> listener_alive e = false -> listen_open (mx e) = true ->
  exists e', step_opt e DListenerDropped = Some e'.
Proof. intros Ha Hg Hl Ho. unfold step_opt, sending. rewrite Ha, Hg, Hl, Ho. cbn [negb andb]. eauto. Qed.
Lemma en_DGoodbye e : alive e = true -> goodbye_sent (mx e) = false -> should_terminate (mx e) = true ->
  exists e', step_opt e DGoodbye = Some e'.
Proof. intros Ha Hg Ho. unfold step_opt. rewrite Ha, Hg, Ho. cbn [negb andb orb]. eauto. Qed.

Record stuck (X : ep) (L' : list frame) : Prop := mk_stuck {
  st_link : L' = [];
  st_h : forall p h, lookup p (handles X) = Some h -> h_tx h <> Dropped /\ h_rx h <> Dropped;
  st_r : forall r s, lookup r (requests X) = Some s -> s <> RDropped;
  st_d : goodbye_sent (mx X) = false ->
         chq X = [] /\ cq X = [] /\ listen_open (mx X) = false /\ should_terminate (mx X) = false
}.

Definition is_dropped (l : life) : bool := match l with Dropped => true | _ => false end.

Lemma side_progress X L' : alive X = true -> listener_alive X = false ->
  (exists a X', sys_act a = true /\ step_opt X a = Some X') \/ (exists fr L0, L' = fr :: L0) \/ stuck X L'.
Proof.
  intros Ha Hli. destruct L' as [|fr L0]; [|right; left; eauto].
  destruct (lookup_dec (fun h => is_dropped (h_tx h)) (handles X)) as [(p & h & H1 & H2)|Htx].
  { left. destruct (en_NTx X p h Ha H1) as (e' & He); [destruct (h_tx h); try discriminate; reflexivity|]. exists (NTx p), e'. auto. }
  destruct (lookup_dec (fun h => is_dropped (h_rx h)) (handles X)) as [(p & h & H1 & H2)|Hrx].
  { left. destruct (en_NRx X p h Ha H1) as (e' & He); [destruct (h_rx h); try discriminate; reflexivity|]. exists (NRx p), e'. auto. }
  destruct (lookup_dec (fun s => match s with RDropped => true | _ => false end) (requests X)) as [(r & s & H1 & H2)|Hrq].
  { left. destruct s; try discriminate. destruct (en_NReq X r Ha H1) as (e' & He). exists (NReq r), e'. auto. }
  assert (Hh : forall p h, lookup p (handles X) = Some h -> h_tx h <> Dropped /\ h_rx h <> Dropped).
  { intros p h Hl. specialize (Htx _ _ Hl). specialize (Hrx _ _ Hl). cbv beta in *. split; intros E; rewrite E in *; discriminate. }
  assert (Hr : forall r s, lookup r (requests X) = Some s -> s <> RDropped).
  { intros r s Hl E. specialize (Hrq _ _ Hl). cbv beta in Hrq. rewrite E in Hrq. discriminate. }
  destruct (goodbye_sent (mx X)) eqn:Eg.
  { right. right. constructor; auto. intros E. congruence. }
  destruct (chq X) as [|ev q] eqn:Eq.
  2:{ left. destruct (en_DPort X ev q Ha Eg Eq) as (e' & He). exists DPort, e'. auto. }
  destruct (cq X) as [|ev q] eqn:Ec.
  2:{ left. destruct (en_DConn X ev q Ha Eg Ec) as (e' & He). exists DConn, e'. auto. }
  destruct (listen_open (mx X)) eqn:Elo.
  { left. destruct (en_DListenerDropped X Ha Eg Hli Elo) as (e' & He). exists DListenerDropped, e'. auto. }
  destruct (should_terminate (mx X)) eqn:Est.
  { left. destruct (en_DGoodbye X Ha Eg Est) as (e' & He). exists DGoodbye, e'. auto. }
  right. right. constructor; auto.
Qed.

Lemma sending_stuck X L' :
  WF X -> dead X = None -> equiet X -> cl_ok X -> stuck X L' -> goodbye_sent (mx X) = false ->
  outstanding (mx X) = [] /\
  (forall p c, lookup p (ports (mx X)) = Some (Connected c) -> tx_dropped c = true /\ rx_dropped c = true) /\
  goodbye_received (mx X) = false /\ ports (mx X) <> [].
Proof.
  intros Hw Hd [Q1 Q2 Q3 Q4 Q5 Q6] Hc [S1 S2 S3 S4] Hg. destruct (S4 Hg) as (Eq & Ec & Elo & Est).
  pose proof (wf_inv _ Hw Hd) as Hi.
  assert (Hout : outstanding (mx X) = []).
  { apply mem_all_false. intros r. destruct (inv_req _ Hi r) as [R1 R2]. rewrite R2. rewrite Eq in R1. cbn [count] in R1.
    destruct (lookup r (requests X)) as [s|] eqn:El; [|reflexivity]. exfalso.
    destruct (Q4 _ _ El) as [->| ->]; [apply (S3 _ _ El); reflexivity|cbn [is_answered b2n] in R1; clear - R1; lia]. }
  assert (Hfl : forall p c, lookup p (ports (mx X)) = Some (Connected c) -> tx_dropped c = true /\ rx_dropped c = true).
  { intros p c Hl. pose proof (inv_h _ Hi p) as Hh. unfold hok1 in Hh. rewrite Hl, Eq in Hh. cbn [count] in Hh.
    destruct Hh as (H1 & H2 & _ & _ & _ & Hhas & T1 & T2 & _).
    destruct (lookup p (handles X)) as [h|] eqn:Eh; [|discriminate]. rewrite (hget_some _ _ _ Eh) in *.
    destruct (Q3 _ _ Eh) as [N1 N2]. destruct (S2 _ _ Eh) as [N3 N4]. rewrite T1, T2.
    clear - H1 H2 Hhas N1 N2 N3 N4. destruct (h_tx h), (h_rx h); cbn [is_queued is_gone b2n] in *; try congruence; try lia; auto. }
  unfold cl_ok, cl_val in Hc. rewrite Q1, Ec in Hc. cbn [count] in Hc.
  assert (Hacd : all_clients_dropped (mx X) = true) by (destruct (all_clients_dropped (mx X)); [reflexivity|clear - Hc; cbn [b2n] in Hc; lia]).
  unfold should_terminate in Est. rewrite Hout, Hacd, Elo, Hg in Est. cbn [negb orb andb] in Est.
  split; [exact Hout|split; [exact Hfl|]].
  destruct (ports (mx X)) eqn:Ep; cbn [orb andb] in Est; [discriminate|]. split; [|discriminate].
  destruct (goodbye_received (mx X)); [discriminate|reflexivity].
Qed.

Lemma alive_contra X Y L L' :
  OkS X Y L L' -> stuck X L' -> (alive Y = true -> stuck Y L) -> alive X = true -> False.
Proof.
  intros [A1 A2 A3 A4 A5 A6 A7 A8 A9 A10 A11] Sx Sy Hax. pose proof A3 as (Hwx & Hwy & HC).
  pose proof (wf_nopanic _ Hwx) as Px. pose proof (wf_nopanic _ Hwy) as Py.
  rewrite (alive_flags _ A1 Px) in Hax. rewrite (alive_flags _ A2 Py) in Sy. apply negb_true_iff in Hax.
  pose proof (st_link _ _ Sx) as El'. subst L'. unfold gb_ok in A6, A7. cbn [cnt count] in A7.
  destruct (goodbye_sent (mx X)) eqn:Egx.
  - (* Goodbye sent, not yet received *)
    cbn [andb] in Hax. rewrite Hax in A7. cbn [b2n] in A7, A6.
    assert (Egy : goodbye_sent (mx Y) = false) by (destruct (goodbye_sent (mx Y)); [clear - A7; cbn [b2n] in A7; lia|reflexivity]).
    rewrite Egy in Sy. cbn [andb negb] in Sy. specialize (Sy eq_refl). pose proof (st_link _ _ Sy) as El. subst L. cbn [cnt count] in A6.
    assert (Egr : goodbye_received (mx Y) = true) by (destruct (goodbye_received (mx Y)); [reflexivity|clear - A6; cbn [b2n] in A6; lia]).
    destruct (st_d _ _ Sy Egy) as (_ & _ & _ & Est). unfold should_terminate in Est. rewrite Egr in Est.
    rewrite !orb_true_r in Est. discriminate.
  - (* still sending *)
    destruct (sending_stuck _ _ Hwx A1 A8 A4 Sx Egx) as (Ox & Fx & Grx & Ptx).
    cbn [b2n] in A6. assert (Gry : goodbye_received (mx Y) = false) by (destruct (goodbye_received (mx Y)); [clear - A6; cbn [b2n] in A6; lia|reflexivity]).
    rewrite Gry, andb_false_r in Sy. specialize (Sy eq_refl). pose proof (st_link _ _ Sy) as El. subst L.
    rewrite Grx in A7. cbn [b2n] in A7. assert (Egy : goodbye_sent (mx Y) = false) by (destruct (goodbye_sent (mx Y)); [clear - A7; cbn [b2n] in A7; lia|reflexivity]).
    destruct (sending_stuck _ _ Hwy A2 A9 A5 Sy Egy) as (Oy & Fy & _ & _).
    assert (Hex : exists x st, lookup x (ports (mx X)) = Some st).
    { destruct (ports (mx X)) as [|[x st] rest]; [congruence|]. exists x, st. cbn [lookup]. now rewrite N.eqb_refl. }
    destruct Hex as (x & st & Hl).
    pose proof (c_yx _ _ _ _ _ _ _ _ HC x) as Hx. unfold rx_clause in Hx. rewrite Hl in Hx. destruct st as [r|c].
    + destruct Hx as (H1 & _). rewrite Oy in H1. cbn [reqcount map sum mem b2n cnt count] in H1. clear - H1. lia.
    + destruct Hx as (_ & _ & _ & _ & Hr & _). destruct (Fx _ _ Hl) as [T1 T2].
      pose proof (r_sf _ _ _ _ Hr) as S1. pose proof (r_rf _ _ _ _ Hr) as S2. cbn [cnt count] in S1, S2.
      assert (Hs : txf (pstat (ports (mx Y)) [] (remote c) x) = true /\ rxf (pstat (ports (mx Y)) [] (remote c) x) = true).
      { destruct (pstat (ports (mx Y)) [] (remote c) x) as [| |cY] eqn:Es; cbn [txf rxf]; auto.
        - apply pstat_pend in Es as [_ Hc]. cbn [cnt count] in Hc. clear - Hc. lia.
        - apply pstat_live in Es as [Ly _]. apply (Fy _ _ Ly). }
      destruct Hs as [Hs1 Hs2]. rewrite Hs1 in S1. rewrite Hs2 in S2. cbn [b2n] in S1, S2.
      pose proof (wf_buf _ Hwx _ _ Hl) as (_ & _ & Hall). unfold all4 in Hall. rewrite T1, T2 in Hall.
      clear - S1 S2 Hall. destruct (rx_open c), (rrx_dropped c); cbn [negb b2n andb] in *; try lia; discriminate.
Qed.

Definition Ok (n : net) : Prop := OkS (na n) (nb n) (lab n) (lba n).
Definition nfinished (n : net) : Prop := finished_ok (na n) /\ finished_ok (nb n).
Definition flow_error (n : net) : Prop :=
  exists err, (dead (na n) = Some err \/ dead (nb n) = Some err) /\ flow_class err = true.

Lemma Ok_intro c acts : healthy (nreach c acts) -> nquiet (nreach c acts) -> Ok (nreach c acts).
Proof.
  intros [H1 H2] (Q1 & Q2 & Q3 & Q4). pose proof (NetInv_reach c acts (conj H1 H2)) as Hi. destruct (Extra_reach c acts) as [E1 E2 E3 E4].
  constructor; auto.
Qed.

Lemma Ok_facts n : Ok n -> healthy n /\ NetInv n.
Proof. intros [A1 A2 A3 _ _ _ _ _ _ _ _]. split; [split; assumption|exact A3]. Qed.

Lemma not_alive_finished e : WF e -> dead e = None -> alive e = false -> finished_ok e.
Proof.
  intros Hw Hd Ha. rewrite (alive_flags _ Hd (wf_nopanic _ Hw)) in Ha. apply negb_false_iff in Ha. apply andb_true_iff in Ha as [G1 G2].
  repeat split; assumption.
Qed.

Lemma step_A n a A' : Ok n -> sys_act a = true -> step_opt (na n) a = Some A' ->
  Ok (nstep n (Loc SA a)) /\ mu (nstep n (Loc SA a)) < mu n.
Proof.
  intros Ho Hs H. assert (Hr : is_recv a = false) by (destruct a; try discriminate; reflexivity).
  cbn [nstep]. rewrite Hr. assert (step (na n) a = A') as -> by (unfold step; now rewrite H).
  destruct (okS_local _ _ _ _ _ _ Ho Hs H) as [B1 B2]. unfold Ok, mu. cbn [na nb lab lba set RecordSet.set]. split; [exact B1|exact B2].
Qed.
Lemma step_B n a B' : Ok n -> sys_act a = true -> step_opt (nb n) a = Some B' ->
  Ok (nstep n (Loc SB a)) /\ mu (nstep n (Loc SB a)) < mu n.
Proof.
  intros Ho Hs H. assert (Hr : is_recv a = false) by (destruct a; try discriminate; reflexivity).
  cbn [nstep]. rewrite Hr. assert (step (nb n) a = B') as -> by (unfold step; now rewrite H).
  destruct (okS_local _ _ _ _ _ _ (OkS_sym _ _ _ _ Ho) Hs H) as [B1 B2]. unfold Ok, mu. cbn [na nb lab lba set RecordSet.set].
  split; [apply OkS_sym; exact B1|]. unfold muS in B2. clear - B2. lia.
Qed.
Lemma deliver_to_B n fr L0 : Ok n -> lab n = fr :: L0 -> alive (nb n) = true ->
  flow_error (nstep n (Deliver SA)) \/ (Ok (nstep n (Deliver SA)) /\ mu (nstep n (Deliver SA)) < mu n).
Proof.
  intros Ho El Ha. destruct fr as [m pl]. destruct (en_Recv (nb n) m (paylen_of pl) Ha) as (b' & E).
  destruct (Ok_facts _ Ho) as [Hh Hi]. destruct (NetInv_step n (Deliver SA) Hi) as [_ Herr].
  cbn [nstep] in *. rewrite El, E in *. cbn [na nb lab lba set RecordSet.set] in *.
  destruct (dead b') as [err|] eqn:Ed.
  - left. exists err. cbn [na nb set RecordSet.set]. split; [right; exact Ed|]. apply Herr; auto.
  - right. unfold Ok in Ho. rewrite El in Ho. destruct (okS_recv _ _ _ _ _ _ _ Ho E Ed) as [B1 B2].
    unfold Ok, mu. cbn [na nb lab lba set RecordSet.set]. split; [exact B1|]. unfold muS in B2. rewrite El. exact B2.
Qed.
Lemma deliver_to_A n fr L0 : Ok n -> lba n = fr :: L0 -> alive (na n) = true ->
  flow_error (nstep n (Deliver SB)) \/ (Ok (nstep n (Deliver SB)) /\ mu (nstep n (Deliver SB)) < mu n).
Proof.
  intros Ho El Ha. destruct fr as [m pl]. destruct (en_Recv (na n) m (paylen_of pl) Ha) as (a' & E).
  destruct (Ok_facts _ Ho) as [Hh Hi]. destruct (NetInv_step n (Deliver SB) Hi) as [_ Herr].
  cbn [nstep] in *. rewrite El, E in *. cbn [na nb lab lba set RecordSet.set] in *.
  destruct (dead a') as [err|] eqn:Ed.
  - left. exists err. cbn [na nb set RecordSet.set]. split; [left; exact Ed|]. apply Herr; auto.
  - right. unfold Ok in Ho. apply OkS_sym in Ho. rewrite El in Ho. destruct (okS_recv _ _ _ _ _ _ _ Ho E Ed) as [B1 B2].
    unfold Ok, mu. cbn [na nb lab lba set RecordSet.set]. split; [apply OkS_sym; exact B1|]. unfold muS in B2. rewrite El. cbn [map sum] in B2 |- *. clear - B2. lia.
Qed.

(** in a good state either both dispatchers have ended successfully, or some system action is
    enabled -- and it ends in a quantity error or leads to a good state with a smaller measure *)
Theorem progress n : Ok n ->
  nfinished n \/ exists a, sys_nact a = true /\ (flow_error (nstep n a) \/ (Ok (nstep n a) /\ mu (nstep n a) < mu n)).
Proof.
  intros Ho. pose proof Ho as [A1 A2 A3 A4 A5 A6 A7 A8 A9 A10 A11]. pose proof A3 as (Hwa & Hwb & _).
  assert (PA : alive (na n) = true ->
           (exists a, sys_nact a = true /\ (flow_error (nstep n a) \/ (Ok (nstep n a) /\ mu (nstep n a) < mu n))) \/ stuck (na n) (lba n)).
  { intros Ha. destruct (side_progress (na n) (lba n) Ha (q_li _ A8)) as [(a & A' & Hs & H)|[(fr & L0 & El)|Hst]]; [left|left|right; exact Hst].
    - exists (Loc SA a). split; [exact Hs|right]. eapply step_A; eauto.
    - exists (Deliver SB). split; [reflexivity|]. eapply deliver_to_A; eauto. }
  assert (PB : alive (nb n) = true ->
           (exists a, sys_nact a = true /\ (flow_error (nstep n a) \/ (Ok (nstep n a) /\ mu (nstep n a) < mu n))) \/ stuck (nb n) (lab n)).
  { intros Hb. destruct (side_progress (nb n) (lab n) Hb (q_li _ A9)) as [(a & B' & Hs & H)|[(fr & L0 & El)|Hst]]; [left|left|right; exact Hst].
    - exists (Loc SB a). split; [exact Hs|right]. eapply step_B; eauto.
    - exists (Deliver SA). split; [reflexivity|]. eapply deliver_to_B; eauto. }
  destruct (alive (na n)) eqn:Ea, (alive (nb n)) eqn:Eb.
  - destruct (PA eq_refl) as [H|Sa]; [right; exact H|]. destruct (PB eq_refl) as [H|Sb]; [right; exact H|].
    exfalso. apply (alive_contra _ _ _ _ Ho Sa); auto.
  - destruct (PA eq_refl) as [H|Sa]; [right; exact H|]. exfalso. apply (alive_contra _ _ _ _ Ho Sa); [|exact Ea]. intros E. congruence.
  - destruct (PB eq_refl) as [H|Sb]; [right; exact H|]. exfalso. apply (alive_contra _ _ _ _ (OkS_sym _ _ _ _ Ho) Sb); [|exact Eb]. intros E. congruence.
  - left. split; apply not_alive_finished; auto.
Qed.

Theorem terminates_from : forall k n, mu n < k -> Ok n ->
  exists acts, forallb sys_nact acts = true /\ (nfinished (nrun acts n) \/ flow_error (nrun acts n)).
Proof.
  induction k as [|k IH] using N.peano_ind; intros n Hk Ho; [lia|].
  destruct (progress n Ho) as [Hf|(a & Hs & [He|[Ho' Hm]])].
  - exists []. split; [reflexivity|left; exact Hf].
  - exists [a]. split; [cbn [forallb]; now rewrite Hs|right; exact He].
  - destruct (IH (nstep n a)) as (acts & Ha & Hr); [lia|exact Ho'|]. exists (a :: acts). split; [cbn [forallb]; now rewrite Hs|exact Hr].
Qed.

Theorem both_terminate c acts :
  let n := nreach c acts in
  healthy n -> nquiet n ->
  exists acts', forallb sys_nact acts' = true /\ (nfinished (nrun acts' n) \/ flow_error (nrun acts' n)).
Proof. intros n Hh Hq. apply (terminates_from (N.succ (mu n))); [lia|]. now apply Ok_intro. Qed.

Theorem system_action_decreases n a : Ok n -> sys_nact a = true ->
  nstep n a = n \/ flow_error (nstep n a) \/ (Ok (nstep n a) /\ mu (nstep n a) < mu n).
Proof.
  intros Ho Hs. destruct n as [A B Lab Lba]. destruct a as [[|] a|[|]]; cbn [sys_nact] in Hs.
  - destruct (step_opt A a) as [A'|] eqn:E.
    + right. right. eapply (step_A (mk_net A B Lab Lba)); eauto.
    + left. assert (Hr : is_recv a = false) by (destruct a; try discriminate; reflexivity).
      cbn [nstep]. rewrite Hr. cbn [na nb lab lba set RecordSet.set]. unfold step. rewrite E. unfold new_frames. now rewrite skipn_all, app_nil_r.
  - destruct (step_opt B a) as [B'|] eqn:E.
    + right. right. eapply (step_B (mk_net A B Lab Lba)); eauto.
    + left. assert (Hr : is_recv a = false) by (destruct a; try discriminate; reflexivity).
      cbn [nstep]. rewrite Hr. cbn [na nb lab lba set RecordSet.set]. unfold step. rewrite E. unfold new_frames. now rewrite skipn_all, app_nil_r.
  - destruct Lab as [|[m pl] L0]; [left; reflexivity|]. destruct (alive B) eqn:Ea.
    + right. eapply (deliver_to_B (mk_net A B ((m, pl) :: L0) Lba)); eauto. reflexivity.
    + left. cbn [nstep lab nb]. now rewrite (not_alive_absorbing _ _ Ea).
  - destruct Lba as [|[m pl] L0]; [left; reflexivity|]. destruct (alive A) eqn:Ea.
    + right. eapply (deliver_to_A (mk_net A B Lab ((m, pl) :: L0))); eauto. reflexivity.
    + left. cbn [nstep lba na]. now rewrite (not_alive_absorbing _ _ Ea).
Qed.

Theorem stuck_is_finished n : Ok n -> (forall a, sys_nact a = true -> nstep n a = n) -> nfinished n.
Proof.
  intros Ho Hst. destruct (progress n Ho) as [Hf|(a & Hs & H)]; [exact Hf|]. exfalso. rewrite (Hst a Hs) in H.
  destruct (Ok_facts _ Ho) as [[H1 H2] _]. destruct H as [(err & [E|E] & _)|[_ Hm]]; try congruence. clear - Hm. lia.
Qed.

(** A decidable form of "no user object left" (for concrete states) *)
Definition equietb (e : ep) : bool :=
  negb (clients_alive e) && negb (listener_alive e) &&
  forallb (fun x => negb (is_alive (h_tx (snd x))) && negb (is_alive (h_rx (snd x)))) (handles e) &&
  forallb (fun x => match snd x with RDropped | RAnswered => true | _ => false end) (requests e) &&
  (count is_acc (chq e) =? 0) && (count is_acc (cq e) =? 0).
Definition nquietb (n : net) : bool :=
  equietb (na n) && equietb (nb n) && (cnt m_ispo (lab n) =? 0) && (cnt m_ispo (lba n) =? 0).

Lemma equietb_sound e : equietb e = true -> equiet e.
Proof.
  unfold equietb. intros H. bools. apply N.eqb_eq in H0, H1. rewrite forallb_forall in H2, H3. constructor; auto.
  - intros p h Hl. specialize (H3 _ (lookup_In _ _ _ Hl)). cbn [snd] in H3. bools.
    split; intros E; rewrite E in *; discriminate.
  - intros r s Hl. specialize (H2 _ (lookup_In _ _ _ Hl)). cbn [snd] in H2. destruct s; try discriminate; auto.
Qed.
Lemma nquietb_sound n : nquietb n = true -> nquiet n.
Proof. unfold nquietb, nquiet. intros H. bools. apply N.eqb_eq in H0, H1. auto using equietb_sound. Qed.
