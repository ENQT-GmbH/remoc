(** Preservation of the composed invariant when Y consumes the oldest frame of the link [L] from X. *)
From Remoc Require Import Lib.Base Chmux.Wire Chmux.Mux Chmux.EndpointLemmas Chmux.EndpointInv Chmux.Net Chmux.NetInv
  Chmux.NetFrame Chmux.NetLocal2 Chmux.NetLocal.

(** a port of Y whose partner's number [p] is being reintroduced at the head of the link has
    received everything: it would have been released *)
Lemma no_stale PX PY OX L0 L' fr y2 c2 p :
  rx_clause PX PY OX (fr :: L0) L' y2 -> lookup y2 PY = Some (Connected c2) -> all4 c2 = false ->
  m_intro p (fst fr) = true -> m_fin y2 (fst fr) = false -> pstat PX L' p y2 = PGone ->
  remote c2 <> p.
Proof.
  intros Hy Hl Ha Hi Hf Hg E. unfold rx_clause in Hy. rewrite Hl, E in Hy. destruct Hy as (_ & _ & _ & _ & Hr & Ho).
  specialize (Ho Hg). rewrite Hg in Hr. pose proof (nafter_head _ _ _ _ Ho Hi) as Z.
  assert (Z' : cnt (m_fin y2) (fr :: L0) = 0) by (rewrite cnt_cons, Hf; exact Z).
  rewrite cnt_fin_split in Z'. pose proof (r_sf _ _ _ _ Hr) as S1. pose proof (r_rf _ _ _ _ Hr) as S2.
  destruct (r_gone _ _ _ _ Hr eq_refl) as [G1 G2]. cbn [txf rxf b2n] in S1, S2.
  unfold all4 in Ha. rewrite G1, G2 in Ha. clear - Ha S1 S2 Z'. destruct (rx_open c2), (rrx_dropped c2); cbn [negb b2n andb] in *; try lia; discriminate.
Qed.

Lemma head_other PX PY OX L0 L' fr y :
  rx_clause PX PY OX (fr :: L0) L' y -> m_other y (fst fr) = true -> m_po y (fst fr) = false ->
  exists cY, lookup y PY = Some (Connected cY).
Proof.
  intros Hy Ho Hp. unfold rx_clause in Hy. destruct (lookup y PY) as [[r|cY]|].
  - destruct Hy as (_ & H2 & H3 & _). exfalso. pose proof (nafter_head _ _ _ _ H2 Ho) as Z.
    rewrite !cnt_cons, Hp, Ho in H3. cbn [b2n] in H3. clear - H3 Z. lia.
  - eauto.
  - destruct Hy as (H1 & _). rewrite cnt_cons in H1. rewrite (sub_other _ _ Ho) in H1. cbn [b2n] in H1. clear - H1. lia.
Qed.

Lemma rxf_rxcf s : rxf s = true -> rxcf s = true.
Proof. destruct s; cbn [rxf rxcf]; auto. intros ->. apply orb_true_r. Qed.

(** the receiver's accounting when Y consumes [fr] and its entry goes from [cY] to [cY']: a finish or close frame sets the
    flag that records it (the converse of [rcl_snoc]) *)
Lemma rcl_pop cY cY' s y L0 fr :
  b2n (negb (rx_open cY')) = b2n (m_sf y (fst fr)) + b2n (negb (rx_open cY)) ->
  b2n (rrx_dropped cY') = b2n (m_rf y (fst fr)) + b2n (rrx_dropped cY) ->
  b2n (rrx_closed cY') <= b2n (m_rc y (fst fr)) + b2n (m_rf y (fst fr)) + b2n (rrx_closed cY) ->
  (rrx_closed cY = true \/ m_rf y (fst fr) = true -> rrx_closed cY' = true) ->
  tx_dropped cY' = tx_dropped cY -> rx_dropped cY' = rx_dropped cY ->
  rcl cY s y (fr :: L0) -> rcl cY' s y L0.
Proof.
  intros P1 P2 P3 Hdc E4 E5 [R1 R2 R3 R4 R5 R6 R7 R8 R9 R10].
  pose proof (nafter_head _ _ _ _ R4) as D4. pose proof (nafter_head _ _ _ _ R6) as D6.
  rewrite cnt_cons in R1, R2, R3, R5, R7, R9.
  constructor; rewrite ?E4, ?E5; auto.
  - clear - R1 P1. lia.
  - clear - R2 P2. lia.
  - destruct (m_rf y (fst fr)) eqn:Erf.
    + assert (Hx : rxf s = true) by (clear - R2; destruct (rxf s); [reflexivity|cbn [b2n] in R2; lia]).
      specialize (D6 eq_refl). rewrite cnt_credrc_split in D6. rewrite (rxf_rxcf _ Hx).
      pose proof (b2n_le1 (rrx_closed cY')). clear - D6 H. cbn [b2n]. lia.
    + clear - R3 P3. cbn [b2n] in P3. lia.
  - exact (nafter_tail _ _ _ _ R4).
  - intros E. destruct (rx_open cY) eqn:Eo.
    + rewrite E in P1. apply D4. clear - P1. destruct (m_sf y (fst fr)); [reflexivity|cbn [negb b2n] in P1; lia].
    + specialize (R5 eq_refl). clear - R5. lia.
  - exact (nafter_tail _ _ _ _ R6).
  - intros E. destruct (rrx_dropped cY) eqn:Eo.
    + specialize (R7 eq_refl). clear - R7. lia.
    + rewrite E in P2. apply D6. clear - P2. destruct (m_rf y (fst fr)); [reflexivity|cbn [b2n] in P2; lia].
  - intros E. specialize (R9 E). clear - R9. lia.
  - intros E. apply Hdc. destruct (rrx_dropped cY); [left; auto|right]. rewrite E in P2. clear - P2.
    destruct (m_rf y (fst fr)); [reflexivity|cbn [b2n] in P2; lia].
Qed.

Lemma rcl_head cY s y L0 fr : rcl cY s y (fr :: L0) ->
  (m_sf y (fst fr) = true \/ m_data y (fst fr) = true -> rx_open cY = true) /\ (m_rc y (fst fr) = true -> rrx_closed cY = false) /\
  (m_rf y (fst fr) = true -> rrx_dropped cY = false).
Proof.
  intros [R1 R2 R3 R4 R5 R6 R7 R8 R9 R10]. rewrite cnt_cons in R1, R2, R3, R5. split; [|split].
  - intros [E|E]; destruct (rx_open cY); try reflexivity; rewrite E in *.
    + pose proof (b2n_le1 (txf s)). clear - R1 H. cbn [negb b2n] in R1. lia.
    + specialize (R5 eq_refl). clear - R5. cbn [b2n] in R5. lia.
  - intros E. rewrite E in R3. pose proof (b2n_le1 (rxcf s)). destruct (rrx_closed cY); [|reflexivity]. clear - R3 H. cbn [b2n] in R3. lia.
  - intros E. rewrite E in R2. pose proof (b2n_le1 (rxf s)). destruct (rrx_dropped cY); [|reflexivity]. clear - R2 H. cbn [b2n] in R2. lia.
Qed.

Lemma req_head PX PY OX OY QX QY fr L0 L' ps k :
  Core PX PY OX OY QX QY (fr :: L0) L' -> (forall k, m_reqn k (fst fr) = occ k ps) -> mem k ps = true ->
  (exists r, lookup k PX = Some (Connecting r)) /\ occ k ps = 1 /\ reqcount k L0 = 0 /\ mem k OY = false /\
  cnt (m_po k) L' = 0 /\ cnt (m_rj k) L' = 0.
Proof.
  intros HC Hreq Hm. apply occ_pos_mem in Hm. pose proof (c_yx _ _ _ _ _ _ _ _ HC k) as Hk.
  destruct (rx_req_connecting _ _ _ _ _ _ Hk) as (r & Hr); [rewrite reqcount_cons, Hreq; lia|].
  destruct (rx_connecting _ _ _ _ _ _ _ Hk Hr) as (H1 & _). rewrite reqcount_cons, Hreq in H1.
  split; [eauto|]. clear - Hm H1. destruct (mem k OY); cbn [b2n] in H1; [lia|]. repeat split; lia.
Qed.

Lemma m_reqn_fin k y m : m_reqn k m <> 0 -> m_fin y m = false.
Proof. destruct m; cbn; auto; congruence. Qed.

(** Y consumes a frame addressed to its connected port [y], whose entry goes from [cY] to [cY']; the
    frame may carry requests [ps] *)
Section Pop.
  Variables (PX PY : list (N * pstate)) (OX OY OY' : list N) (QX QY : list evt) (L0 L' : list frame).
  Variables (fr : frame) (y : N) (cY cY' : conn) (ps : list N).
  Hypothesis HC : Core PX PY OX OY QX QY (fr :: L0) L'.
  Hypothesis Hl : lookup y PY = Some (Connected cY).
  Hypothesis Er : remote cY' = remote cY.
  Hypothesis E4 : tx_dropped cY' = tx_dropped cY.
  Hypothesis E5 : rx_dropped cY' = rx_dropped cY.
  Hypothesis E6 : rx_closed cY' = rx_closed cY.
  Hypothesis Ht : m_target (fst fr) = Some y.
  Hypothesis Hp : m_port (fst fr) = true.
  Hypothesis Hreq : forall k, m_reqn k (fst fr) = occ k ps.
  Hypothesis O1 : forall k, mem k OY' = mem k ps || mem k OY.
  Hypothesis Hnot4 : forall y2 c2, lookup y2 PY = Some (Connected c2) -> all4 c2 = false.
  Hypothesis P1 : b2n (negb (rx_open cY')) = b2n (m_sf y (fst fr)) + b2n (negb (rx_open cY)).
  Hypothesis P2 : b2n (rrx_dropped cY') = b2n (m_rf y (fst fr)) + b2n (rrx_dropped cY).
  Hypothesis P3 : b2n (rrx_closed cY') <= b2n (m_rc y (fst fr)) + b2n (m_rf y (fst fr)) + b2n (rrx_closed cY).
  Hypothesis Hdc : rrx_closed cY = true \/ m_rf y (fst fr) = true -> rrx_closed cY' = true.

  Let PY' := insert y (Connected cY') PY.
  Let K1 : lookup y PY' = Some (Connected cY') := lookup_insert_eq _ _ _.
  Let K2 k (Hk : k <> y) : lookup k PY' = lookup k PY := lookup_insert_ne _ _ _ _ Hk.
  Let Hsrv k : m_srv k (fst fr) = false := proj1 (proj2 (proj2 (m_port_spec _ Hp k))).

  Lemma pop_pstat y0 x0 : pst_ok (pstat PY (fr :: L0) y0 x0) (pstat PY' L0 y0 x0).
  Proof.
    rewrite (pstat_link PY L0 (fr :: L0) y0 x0) by (apply cnt_pox_cons_nosrv, Hsrv).
    destruct (N.eq_dec y0 y) as [->|Hne]; [now apply (pstat_upd _ _ _ _ _ cY cY')|].
    unfold pstat. rewrite (K2 _ Hne). apply pst_ok_refl.
  Qed.

  Lemma core_pop : Core PX PY' OX OY' QX QY L0 L'.
  Proof.
    pose proof HC as [Hxy Hyx Hix Hiy Hox Hoy Hcx Hcy Hbx Hby]. constructor; auto.
    - intros y0. destruct (N.eq_dec y0 y) as [->|Hne].
      + destruct (rx_connected _ _ _ _ _ _ _ (Hxy y) Hl) as (H1 & H2 & H3 & H4 & H5 & H6). unfold rx_clause. rewrite K1, Er.
        rewrite cnt_cons in H1, H2. apply N.eq_add_0 in H1 as [_ H1], H2 as [_ H2].
        split; [exact H1|split; [exact H2|split; [exact H3|split; [exact H4|split]]]].
        * now apply (rcl_pop cY cY' _ y L0 fr).
        * intros Hg. eapply nafter_tail. eauto.
      + eapply rx_frame; [apply Hxy|apply (K2 _ Hne)|apply same_for_pop, (m_addr_other y); auto|reflexivity|reflexivity|]. intros x0. apply pst_ok_refl.
    - intros x0. destruct (mem x0 ps) eqn:Em.
      + destruct (req_head _ _ _ _ _ _ _ _ _ _ _ HC Hreq Em) as ((r & Hr) & R1 & R2 & R3 & R4 & R5).
        destruct (rx_connecting _ _ _ _ _ _ _ (Hyx x0) Hr) as (_ & H2 & H3 & _). unfold rx_clause. rewrite Hr.
        rewrite O1, Em, R2, R4, R5. split; [reflexivity|split; [exact H2|split; [intros _; exact (H3 R4)|]]].
        intros y0 Hy0. pose proof (cnt_pox_le_po x0 y0 L') as H. rewrite R4 in H. clear - Hy0 H. lia.
      + eapply rx_frame; [apply Hyx|reflexivity|apply same_for_refl| | |].
        * rewrite O1, Em. reflexivity.
        * rewrite reqcount_cons, Hreq. apply occ_mem in Em. now rewrite Em.
        * intros y0. apply pop_pstat.
    - exact (inj_ok_le _ _ (conn_le_upd _ _ _ K2 _ _ Hl K1 Er) Hiy).
    - intros y2 c2' H. destruct (conn_le_upd _ _ _ K2 _ _ Hl K1 Er _ _ H) as (c2 & D1 & D2). rewrite <- D2, O1, (Hoy _ _ D1), orb_false_r.
      destruct (mem (remote c2) ps) eqn:Em; [|reflexivity]. exfalso.
      destruct (req_head _ _ _ _ _ _ _ _ _ _ _ HC Hreq Em) as ((r & Hr) & R1 & R2 & R3 & R4 & R5).
      apply (no_stale PX PY OX L0 L' fr y2 c2 (remote c2)); [apply Hxy|exact D1|eapply Hnot4; eauto| | | |reflexivity].
      * unfold m_intro. rewrite Hreq, R1. reflexivity.
      * apply (m_reqn_fin (remote c2)). rewrite Hreq, R1. discriminate.
      * exact (pstat_connecting_gone _ _ _ _ _ Hr R4).
    - exact (chq_ok_keep _ _ _ Hcy (conn_keep_upd _ _ _ K2 _ _ Hl K1 Er E4 E5) (conn_le_upd _ _ _ K2 _ _ Hl K1 Er)).
    - rewrite cnt_cons in Hbx. now apply N.eq_add_0 in Hbx.
  Qed.
End Pop.

Lemma core_recv_plain PX PY OX OY QX QY L0 L' fr :
  Core PX PY OX OY QX QY (fr :: L0) L' ->
  (forall y, m_addr y (fst fr) = false) -> (forall x, m_intro x (fst fr) = false) ->
  Core PX PY OX OY QX QY L0 L'.
Proof.
  intros [Hxy Hyx Hix Hiy Hox Hoy Hcx Hcy Hbx Hby] Ha Hi. constructor; auto.
  - intros y. eapply rx_frame; [apply Hxy|reflexivity|apply same_for_pop; auto|reflexivity|reflexivity|]. intros x. apply pst_ok_refl.
  - intros x. destruct (m_intro_false _ _ (Hi x)) as [I1 I2].
    eapply rx_frame; [apply Hyx|reflexivity|apply same_for_refl|reflexivity| |].
    + rewrite reqcount_cons, I1. reflexivity.
    + intros y. apply pst_ok_eq. apply pstat_link. symmetry. now apply cnt_pox_cons_nosrv.
  - rewrite cnt_cons in Hbx. now apply N.eq_add_0 in Hbx.
Qed.

(** Y consumes [OpenPort x]: the request becomes outstanding at Y *)
Lemma core_recv_open PX PY OX OY OY' QX QY L0 L' x w id pl :
  Core PX PY OX OY QX QY ((OpenPort x w id, pl) :: L0) L' ->
  (forall k, mem k OY' = (k =? x) || mem k OY) ->
  (forall y2 c2, lookup y2 PY = Some (Connected c2) -> all4 c2 = false) ->
  mem x OY = false /\ Core PX PY OX OY' QX QY L0 L'.
Proof.
  intros HC O1 Hnot4. pose proof HC as [Hxy Hyx Hix Hiy Hox Hoy Hcx Hcy Hbx Hby].
  pose proof (Hyx x) as Hk. destruct (rx_req_connecting _ _ _ _ _ _ Hk) as (r & Hr); [rewrite reqcount_cons; mev; lia|].
  destruct (rx_connecting _ _ _ _ _ _ _ Hk Hr) as (H1 & H2 & H3 & H4). rewrite reqcount_cons in H1. mev in H1.
  assert (Hz : mem x OY = false /\ reqcount x L0 = 0 /\ cnt (m_po x) L' = 0 /\ cnt (m_rj x) L' = 0).
  { clear - H1. destruct (mem x OY); cbn [b2n] in H1; [lia|]. repeat split; lia. }
  destruct Hz as (Hm & Z1 & Z2 & Z3). split; [exact Hm|]. constructor; auto.
  - intros y. eapply rx_frame; [apply Hxy|reflexivity|apply same_for_pop; reflexivity|reflexivity|reflexivity|]. intros x0. apply pst_ok_refl.
  - intros x0. destruct (N.eq_dec x0 x) as [->|Hne].
    + unfold rx_clause. rewrite Hr, O1, N.eqb_refl, Z1, Z2, Z3. split; [reflexivity|split; [exact H2|split; [intros _; exact (H3 Z2)|]]].
      intros y0 Hy0. pose proof (cnt_pox_le_po x y0 L') as H. rewrite Z2 in H. clear - Hy0 H. lia.
    + eapply rx_frame; [apply Hyx|reflexivity|apply same_for_refl| | |].
      * rewrite O1. apply N.eqb_neq in Hne. now rewrite Hne.
      * rewrite reqcount_cons. mev. apply N.eqb_neq in Hne. now rewrite N.eqb_sym, Hne.
      * intros y. apply pst_ok_eq. apply pstat_link. symmetry. apply cnt_pox_cons_nosrv. reflexivity.
  - intros y2 c2 H. rewrite O1, (Hoy _ _ H), orb_false_r. apply N.eqb_neq.
    apply (no_stale PX PY OX L0 L' (OpenPort x w id, pl) y2 c2 x); [apply Hxy|exact H|eapply Hnot4; eauto| | |].
    + mev. reflexivity.
    + reflexivity.
    + exact (pstat_connecting_gone _ _ _ _ _ Hr Z2).
Qed.

(** Y consumes [Rejected y]: its [Connecting] entry disappears *)
Lemma core_recv_rj PX PY PY' OX OY QX QY L0 L' y np pl :
  Core PX PY OX OY QX QY ((Rejected y np, pl) :: L0) L' ->
  lookup y PY' = None -> (forall k, k <> y -> lookup k PY' = lookup k PY) ->
  (exists r, lookup y PY = Some (Connecting r)) /\ Core PX PY' OX OY QX QY L0 L'.
Proof.
  intros HC K1 K2. pose proof HC as [Hxy Hyx Hix Hiy Hox Hoy Hcx Hcy Hbx Hby].
  pose proof (Hxy y) as Hy. assert (Hr : exists r, lookup y PY = Some (Connecting r)).
  { unfold rx_clause in Hy. destruct (lookup y PY) as [[r|c]|]; [eauto| |].
    - destruct Hy as (_ & H2 & _). rewrite cnt_cons in H2. mev in H2. clear - H2. lia.
    - destruct Hy as (H1 & _). rewrite cnt_cons in H1. mev in H1. clear - H1. lia. }
  split; [exact Hr|]. destruct Hr as (r & Hr). destruct (rx_connecting _ _ _ _ _ _ _ Hy Hr) as (H1 & H2 & H3 & H4).
  rewrite !cnt_cons in H1, H3. mev in H1. mev in H3.
  assert (Hz : reqcount y L' = 0 /\ mem y OX = false /\ cnt (m_po y) L0 = 0 /\ cnt (m_rj y) L0 = 0).
  { clear - H1. destruct (mem y OX); cbn [b2n] in H1; [lia|]. repeat split; lia. }
  destruct Hz as (Z1 & Z2 & Z3 & Z4). specialize (H3 Z3).
  assert (Hle : conn_le PY' PY) by (apply (conn_le_other _ _ y K2); intros d; congruence).
  constructor; auto.
  - intros y0. destruct (N.eq_dec y0 y) as [->|Hne].
    + unfold rx_clause. rewrite K1, cnt_addr_split, Z3, Z4. split; [exact H3|auto].
    + eapply rx_frame; [apply Hxy|apply (K2 _ Hne)|apply same_for_pop|reflexivity|reflexivity|].
      * apply (m_addr_other y); auto.
      * intros x0. apply pst_ok_refl.
  - intros x0. eapply rx_frame; [apply Hyx|reflexivity|apply same_for_refl|reflexivity|reflexivity|].
    intros y0. apply pst_ok_eq. rewrite (pstat_link PY L0 ((Rejected y np, pl) :: L0) y0 x0) by reflexivity.
    destruct (N.eq_dec y0 y) as [->|Hne]; [|unfold pstat; now rewrite (K2 _ Hne)].
    rewrite (pstat_none _ _ _ _ K1). symmetry. exact (pstat_connecting_gone _ _ _ _ _ Hr Z3).
  - exact (inj_ok_le _ _ Hle Hiy).
  - exact (out_ok_le _ _ _ _ Hle (fun _ E => E) Hoy).
  - apply (chq_ok_keep _ _ _ Hcy); [|exact Hle]. apply (conn_keep_other _ _ y K2). intros d; congruence.
Qed.

(** Y consumes [PortOpened y x]: its [Connecting] entry becomes connected to [x] *)
Section RecvPO.
  Variables (PX PY PY' : list (N * pstate)) (OX OY : list N) (QX QY : list evt) (L0 L' : list frame).
  Variables (x y : N) (c' : conn) (pl : option N).
  Hypothesis HC : Core PX PY OX OY QX QY ((PortOpened y x, pl) :: L0) L'.
  Hypothesis K1 : lookup y PY' = Some (Connected c').
  Hypothesis K2 : forall k, k <> y -> lookup k PY' = lookup k PY.
  Hypothesis Er : remote c' = x.
  Hypothesis Hf : flags_eq fresh_conn c'.
  Hypothesis Hnot4 : forall y2 c2, lookup y2 PY = Some (Connected c2) -> all4 c2 = false.

  Let fr : frame := (PortOpened y x, pl).

  Lemma recv_po_connecting : exists r, lookup y PY = Some (Connecting r).
  Proof. apply (rx_po_connecting _ _ _ _ _ _ (c_xy _ _ _ _ _ _ _ _ HC y)). rewrite cnt_cons. mev. lia. Qed.

  Lemma core_recv_po : Core PX PY' OX OY QX QY L0 L'.
  Proof.
    pose proof HC as [Hxy Hyx Hix Hiy Hox Hoy Hcx Hcy Hbx Hby].
    destruct recv_po_connecting as (r & Hr).
    destruct (rx_connecting _ _ _ _ _ _ _ (Hxy y) Hr) as (H1 & H2 & H3 & H4).
    destruct (H4 x) as (cX & P1 & P2); [rewrite cnt_cons; mev; lia|].
    pose proof P1 as P1'. apply pstat_live in P1' as [Lx Rx].
    rewrite !cnt_cons in H1. mev in H1.
    assert (Hz : cnt (m_po y) L0 = 0 /\ cnt (m_rj y) L0 = 0 /\ mem y OX = false /\ reqcount y L' = 0).
    { clear - H1. destruct (mem y OX); cbn [b2n] in H1; [lia|]. repeat split; lia. }
    destruct Hz as (Zpo & Zrj & Zo & Zr).
    (* no other port of Y is connected to x *)
    assert (Hstale : forall y2 c2, lookup y2 PY = Some (Connected c2) -> remote c2 <> remote c').
    { intros y2 c2 H. rewrite Er. apply (no_stale PX PY OX L0 L' fr y2 c2 x); [apply Hxy|exact H|eapply Hnot4; eauto| | |].
      - unfold fr. mev. apply orb_true_r.
      - reflexivity.
      - apply (pstat_conn_other _ _ _ _ _ Lx). rewrite Rx. intros ->. congruence. }
    assert (Hold : forall d, lookup y PY <> Some (Connected d)) by (intros d; congruence).
    constructor; auto.
    - intros y0. destruct (N.eq_dec y0 y) as [->|Hne].
      + unfold rx_clause. rewrite K1, Er, P1. split; [exact Zpo|split; [exact Zrj|split; [exact Zo|split; [exact Zr|split; [|discriminate]]]]].
        apply (rcl_flags fresh_conn _ _ _ _ Hf). eapply rcl_pop_irrel; [|exact P2]. reflexivity.
      + eapply rx_frame; [apply Hxy|apply (K2 _ Hne)|apply same_for_pop|reflexivity|reflexivity|].
        * apply (m_addr_other y); auto.
        * intros x0. apply pst_ok_refl.
    - intros x0. eapply rx_frame; [apply Hyx|reflexivity|apply same_for_refl|reflexivity|reflexivity|].
      intros y0. destruct (N.eq_dec y0 y) as [->|Hne].
      + destruct Hf as (_ & _ & _ & F4 & F5 & F6). cbn [fresh_conn tx_dropped rx_dropped rx_closed] in *.
        unfold pstat. rewrite Hr, K1, Er, cnt_cons. mev. pose proof (cnt_pox_le_po y x0 L0). destruct (x =? x0) eqn:Ex; cbn [b2n].
        * destruct (0 <? 1 + cnt (m_pox y x0) L0) eqn:El; [|apply N.ltb_ge in El; clear - El; lia].
          unfold pst_ok. cbn [txf rxf rxcf]. rewrite F4, F5, F6. repeat split; auto; discriminate.
        * destruct (0 <? 0 + cnt (m_pox y x0) L0) eqn:El; [apply N.ltb_lt in El; clear - El H Zpo; lia|]. apply pst_ok_refl.
      + apply pst_ok_eq. unfold pstat. rewrite (K2 _ Hne), cnt_cons. mev.
        apply N.eqb_neq in Hne. now rewrite (N.eqb_sym y y0), Hne.
    - exact (inj_ok_new _ _ _ _ K1 K2 Hstale Hiy).
    - intros p d A. destruct (N.eq_dec p y) as [->|N1].
      + rewrite K1 in A. injection A as <-. rewrite Er. apply (rx_connected _ _ _ _ _ _ _ (Hyx x) Lx).
      + rewrite (K2 _ N1) in A. eauto.
    - exact (chq_ok_new _ _ _ _ K1 K2 Hold Hstale _ Hcy).
    Qed.
End RecvPO.
