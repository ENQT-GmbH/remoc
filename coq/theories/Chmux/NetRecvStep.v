(** The composed invariant is kept when an endpoint Y handles the oldest frame sent by X; the only
    protocol errors an honest peer can provoke are those of [flow_class]: limits on quantities (chunk
    sizes, credits, number of ports in a message, open connect requests, client-finish frames), which
    this model of the endpoint does not carry on the sending side. *)
From Remoc Require Import Lib.Base Gen.Consts Chmux.Wire Chmux.Mux Chmux.Endpoint Chmux.EndpointLemmas
  Chmux.EndpointInv Chmux.EndpointSteps Chmux.Net Chmux.NetInv Chmux.NetFrame Chmux.NetLocal Chmux.NetStepLocal
  Chmux.NetRecvCore.
From RecordUpdate Require Import RecordUpdate.

(** errors that depend on quantities (payload sizes, credits, queue lengths) rather than on the state of a port *)
Definition flow_class (e : perr) : bool :=
  match e with
  | PChunkSize | POverdraw | PPortChunk | PEmptyPorts | PCreditOverflow | PTooManyOpen | PTooManyClientFinish => true
  | _ => false
  end.

Section RecvMsg.
  Variables (PX : list (N * pstate)) (OX : list N) (QX QY : list evt) (L0 L' : list frame).
  Variable X : ep.
  Variable (m0 : mux) (pl : option N) (n : N).
  Hypothesis Hbuf : forall y c, lookup y (ports m0) = Some (Connected c) -> all4 c = false.

  Definition CoreR (m : mux) (L : list frame) : Prop :=
    Core (ports (mx X)) (ports m) (outstanding (mx X)) (outstanding m) (chq X) QY L L'.

  Definition recv_ok (msg : msg) : Prop :=
    CoreR m0 ((msg, pl) :: L0) ->
    match handle_received m0 msg n with
    | Done m' effs => CoreR m' L0
    | Proto err _ => flow_class err = true
    | Panic _ => True
    end.

  Lemma rv_plain msg m' :
    m_target msg = None -> (forall x, m_intro x msg = false) -> ports m' = ports m0 -> outstanding m' = outstanding m0 ->
    CoreR m0 ((msg, pl) :: L0) -> CoreR m' L0.
  Proof.
    unfold CoreR. intros A1 A2 -> -> HC. apply (core_recv_plain _ _ _ _ _ _ _ _ _ HC); [|exact A2]. intros y. now apply m_addr_none.
  Qed.

  Lemma rv_connected msg y : CoreR m0 ((msg, pl) :: L0) -> m_other y msg = true -> m_po y msg = false ->
    exists cY, lookup y (ports m0) = Some (Connected cY) /\
               (m_sf y msg = true \/ m_data y msg = true -> rx_open cY = true) /\ (m_rc y msg = true -> rrx_closed cY = false) /\
               (m_rf y msg = true -> rrx_dropped cY = false).
  Proof.
    intros HC Ho Hp. pose proof (c_xy _ _ _ _ _ _ _ _ HC y) as Hy.
    destruct (head_other _ _ _ _ _ _ _ Hy Ho Hp) as (cY & Hl). exists cY. split; [exact Hl|].
    exact (rcl_head _ _ _ _ _ (proj1 (proj2 (proj2 (proj2 (proj2 (rx_connected _ _ _ _ _ _ _ Hy Hl))))))).
  Qed.

  Lemma rv_port msg y cY cY' :
    CoreR m0 ((msg, pl) :: L0) -> lookup y (ports m0) = Some (Connected cY) ->
    remote cY' = remote cY -> tx_dropped cY' = tx_dropped cY -> rx_dropped cY' = rx_dropped cY -> rx_closed cY' = rx_closed cY ->
    m_target msg = Some y -> m_port msg = true -> (forall k, m_reqn k msg = 0) ->
    b2n (negb (rx_open cY')) = b2n (m_sf y msg) + b2n (negb (rx_open cY)) ->
    b2n (rrx_dropped cY') = b2n (m_rf y msg) + b2n (rrx_dropped cY) ->
    b2n (rrx_closed cY') <= b2n (m_rc y msg) + b2n (m_rf y msg) + b2n (rrx_closed cY) ->
    (rrx_closed cY = true \/ m_rf y msg = true -> rrx_closed cY' = true) ->
    CoreR (m0 <| ports := insert y (Connected cY') (ports m0) |>) L0.
  Proof.
    unfold CoreR. intros HC Hl Er E4 E5 E6 Ht Hp Hn P1 P2 P3 Hdc.
    exact (core_pop _ _ _ _ _ _ _ _ _ (msg, pl) y cY cY' [] HC Hl Er E4 E5 E6 Ht Hp Hn (fun k => eq_refl) Hbuf P1 P2 P3 Hdc).
  Qed.

  Lemma rv_free m1 y c1 m2 effs :
    maybe_free m1 y = Some (m2, effs) -> lookup y (ports m1) = Some (Connected c1) -> CoreR m1 L0 -> CoreR m2 L0.
  Proof.
    unfold CoreR. intros Hm Hl H1. apply Core_sym in H1. apply Core_sym.
    exact (proj1 (maybe_free_core m1 y c1 m2 effs QY X L' L0 H1 Hl Hm)).
  Qed.
  Lemma maybe_free_total m y c : lookup y (ports m) = Some (Connected c) -> exists m2 effs, maybe_free m y = Some (m2, effs).
  Proof. intros H. unfold maybe_free. rewrite H. destruct (_ && _); eauto. Qed.

  Lemma rv_Client : recv_ok ClientFinish.
  Proof.
    intros HC. cbn [handle_received]. destruct (listen_open m0); [destruct (_ || _); [reflexivity|]|]; apply (rv_plain ClientFinish); auto.
  Qed.
  Lemma rv_Bad msg : m_bad msg = true -> recv_ok msg.
  Proof. intros Hb HC. pose proof (c_badx _ _ _ _ _ _ _ _ HC) as Z. rewrite cnt_cons in Z. cbn [fst] in Z. rewrite Hb in Z. cbn [b2n] in Z. lia. Qed.

  Lemma rv_Open cp w id : recv_ok (OpenPort cp w id).
  Proof.
    intros HC. unfold CoreR in HC.
    destruct (core_recv_open _ _ _ _ (cp :: outstanding m0) _ _ _ _ _ _ _ _ HC (fun k => eq_refl) Hbuf) as [Hm Hgen].
    cbn [handle_received]. rewrite Hm. destruct (listen_open m0); [|exact Hgen].
    destruct (cfg_connect_queue m0 + 1 <=? (if w then lq_wait m0 else lq_nowait m0)); [reflexivity|]. destruct w; exact Hgen.
  Qed.

  Lemma rv_PortOpened cp sp : recv_ok (PortOpened cp sp).
  Proof.
    intros HC. unfold CoreR in HC.
    destruct (rx_po_connecting _ _ _ _ _ _ (c_xy _ _ _ _ _ _ _ _ HC cp)) as (r & Hr); [rewrite cnt_cons; mev; lia|].
    cbn [handle_received]. rewrite Hr. unfold CoreR. prj.
    eapply core_recv_po; [exact HC|apply lookup_insert_eq|intros k Hk; apply lookup_insert_ne, Hk|reflexivity|repeat split|exact Hbuf].
  Qed.

  Lemma rv_Rejected cp np : recv_ok (Rejected cp np).
  Proof.
    intros HC. unfold CoreR in HC.
    destruct (core_recv_rj _ _ (remove cp (ports m0)) _ _ _ _ _ _ _ _ _ HC (lookup_remove_eq _ _) (fun k Hk => lookup_remove_ne _ _ _ Hk))
      as ((r & Hr) & H2).
    cbn [handle_received]. rewrite Hr. exact H2.
  Qed.

  Lemma rv_Data port f l : recv_ok (Data port f l).
  Proof.
    intros HC. destruct (rv_connected _ port HC) as (cY & Hl & Ho & _); [mev; reflexivity|reflexivity|].
    mev in Ho. specialize (Ho (or_intror eq_refl)). cbn [handle_received]. rewrite Hl, Ho.
    destruct ((n <? 4294967296) && (n <=? cfg_chunk m0)); [|reflexivity].
    destruct ((used cY + N.max DATA_MIN_COST n <? 4294967296) && (used cY + N.max DATA_MIN_COST n <=? cfg_buffer m0)); [|reflexivity].
    apply (rv_port _ port cY _ HC Hl); try reflexivity. intros [E|E]; [exact E|discriminate].
  Qed.

  Lemma rv_Credits port cr : recv_ok (PortCredits port cr).
  Proof.
    intros HC. destruct (rv_connected _ port HC) as (cY & Hl & _); [mev; reflexivity|reflexivity|].
    cbn [handle_received]. rewrite Hl. destruct (pool cY + cr <? 4294967296); [|reflexivity].
    apply (rv_port _ port cY _ HC Hl); try reflexivity. intros [E|E]; [exact E|discriminate].
  Qed.

  Lemma rv_SendFinish port : recv_ok (SendFinish port).
  Proof.
    intros HC. destruct (rv_connected _ port HC) as (cY & Hl & Ho & _); [mev; reflexivity|reflexivity|].
    mev in Ho. specialize (Ho (or_introl eq_refl)). cbn [handle_received]. rewrite Hl, Ho.
    match goal with |- context [maybe_free ?m1 port] => destruct (maybe_free_total m1 port _ (lookup_insert_eq _ _ _)) as (m2 & effs & Hm); rewrite Hm end.
    refine (rv_free _ port _ _ _ Hm (lookup_insert_eq _ _ _) _).
    apply (rv_port _ port cY _ HC Hl); try reflexivity; [prj; mev; now rewrite Ho|intros [E|E]; [exact E|discriminate]].
  Qed.

  Lemma rv_ReceiveClose port : recv_ok (ReceiveClose port).
  Proof.
    intros HC. destruct (rv_connected _ port HC) as (cY & Hl & _ & Ho & _); [mev; reflexivity|reflexivity|].
    mev in Ho. specialize (Ho eq_refl). cbn [handle_received]. rewrite Hl, Ho. cbn [negb].
    match goal with |- context [maybe_free ?m1 port] => destruct (maybe_free_total m1 port _ (lookup_insert_eq _ _ _)) as (m2 & effs & Hm); rewrite Hm end.
    refine (rv_free _ port _ _ _ Hm (lookup_insert_eq _ _ _) _).
    apply (rv_port _ port cY _ HC Hl); try reflexivity; prj; mev; rewrite ?Ho; reflexivity.
  Qed.

  Lemma rv_ReceiveFinish port : recv_ok (ReceiveFinish port).
  Proof.
    intros HC. destruct (rv_connected _ port HC) as (cY & Hl & _ & _ & Ho); [mev; reflexivity|reflexivity|].
    mev in Ho. specialize (Ho eq_refl). cbn [handle_received]. rewrite Hl.
    match goal with |- context [maybe_free ?m1 port] => destruct (maybe_free_total m1 port _ (lookup_insert_eq _ _ _)) as (m2 & effs & Hm); rewrite Hm end.
    refine (rv_free _ port _ _ _ Hm (lookup_insert_eq _ _ _) _).
    apply (rv_port _ port cY _ HC Hl); try reflexivity; prj; mev; [now rewrite Ho|apply N.le_add_r].
  Qed.

  Lemma rv_PortData port f l w ps ids : recv_ok (PortData port f l w ps ids).
  Proof.
    intros HC. destruct (rv_connected _ port HC) as (cY & Hl & Ho & _); [mev; reflexivity|reflexivity|].
    mev in Ho. specialize (Ho (or_intror eq_refl)). rewrite hr_PortData, Hl, Ho. destruct (is_nil ps); [reflexivity|].
    destruct (ins_out_total ps (outstanding m0)) as (o & Hins).
    { intros k Hk. destruct (req_head _ _ _ _ _ _ _ _ _ ps k HC (fun k => eq_refl) Hk) as (_ & R1 & _ & R2 & _). auto. }
    rewrite Hins. cbv zeta.
    destruct ((PORT_COST * len ps <? 4294967296) && (PORT_COST * len ps <=? cfg_chunk m0)); [|reflexivity].
    destruct ((used cY + PORT_COST * len ps <? 4294967296) && (used cY + PORT_COST * len ps <=? cfg_buffer m0)); [|reflexivity].
    unfold CoreR in *. apply (core_pop _ _ _ _ o _ _ _ _ _ port cY _ ps HC Hl); try reflexivity; auto;
      [intros k; apply (ins_out_spec _ _ _ Hins k)|intros [E|E]; [exact E|discriminate]].
  Qed.

  Theorem recv_all msg : recv_ok msg.
  Proof.
    destruct msg; [now apply rv_Bad|now apply rv_Bad| |apply rv_Open|apply rv_PortOpened|apply rv_Rejected|apply rv_Data|apply rv_PortData
                  |apply rv_Credits|apply rv_SendFinish|apply rv_ReceiveClose|apply rv_ReceiveFinish|apply rv_Client| |];
      intros HC; cbn [handle_received]; refine (rv_plain _ _ _ _ _ _ HC); intros; reflexivity.
  Qed.
End RecvMsg.
