(** C09: the dispatcher sends port ids exactly to peers that announced a version knowing them. *)
From Remoc Require Import Lib.Base Gen.Consts Chmux.Wire Chmux.Mux Chmux.Endpoint Chmux.EndpointLemmas.
From RecordUpdate Require Import RecordUpdate.

Definition has_ids (w : Wire.msg) : bool :=
  match w with
  | OpenPort _ _ (Some _) => true
  | PortData _ _ _ _ _ (Some _) => true
  | _ => false
  end.

(** messages that have an id-carrying variant *)
Definition id_capable (w : Wire.msg) : bool :=
  match w with OpenPort _ _ _ | PortData _ _ _ _ _ _ => true | _ => false end.

Definition effs_of (o : outcome) : list eff :=
  match o with Done _ e => e | Proto _ e => e | Panic _ => [] end.

Definition emits_ok (v : bool) (effs : list eff) : Prop :=
  forall w pl, In (Emit w pl) effs -> id_capable w = true -> has_ids w = v.

Lemma upd_free_emit m p c' pre w pl : In (Emit w pl) (effs_of (upd_free m p c' pre)) -> In (Emit w pl) pre.
Proof.
  destruct (upd_free_Done m p c' pre) as (m' & effs & -> & Hf). intros H. now destruct (Hf _ H) as [|[=]].
Qed.

(** every handler emits at most the one message it is about *)
Ltac one_emit :=
  repeat match goal with |- context [match ?x with _ => _ end] => destruct x end;
  cbn [effs_of]; intros w pl Hin; intros; try apply upd_free_emit in Hin;
  repeat (destruct Hin as [Hin|Hin]; [first [discriminate Hin|injection Hin as <- <-]|]); try destruct Hin;
  try match goal with Hc : id_capable _ = true |- _ => discriminate Hc end.

Theorem event_ids m e : emits_ok (with_ids m) (effs_of (handle_event m e)).
Proof.
  unfold emits_ok.
  destruct e; [| | | | | |rewrite he_SenderDropped| |rewrite he_ReceiverDropped| | |]; cbn [handle_event]; one_emit.
  all: reflexivity.
Qed.

Theorem received_no_emit m msg paylen : forall w pl, ~ In (Emit w pl) (effs_of (handle_received m msg paylen)).
Proof.
  destruct msg; [| | | | | | | | |rewrite hr_SendFinish|rewrite hr_ReceiveClose|rewrite hr_ReceiveFinish| | |];
    cbn [handle_received]; one_emit.
Qed.
