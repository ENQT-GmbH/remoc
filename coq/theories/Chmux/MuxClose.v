(** How closing and dropping a receiver is classified at the sending endpoint ([mux.rs]:
    [ReceiveClose] / [ReceiveFinish]). *)
From Remoc Require Import Lib.Base Chmux.Wire Chmux.Mux Chmux.Endpoint Chmux.EndpointLemmas.
From RecordUpdate Require Import RecordUpdate.

(** what a sender observes: [SendError::Closed { gracefully }] is read off [pool_closed] *)
Definition send_verdict (c : conn) : option bool := pool_closed c.

(** [ReceiveClose] on a port whose remote receiver is not yet dropped *)
Lemma receive_close_classified m p c :
  lookup p (ports m) = Some (Connected c) -> rrx_closed c = false -> rrx_dropped c = false ->
  exists m' effs c',
    handle_received m (ReceiveClose p) 0 = Done m' effs /\
    lookup p (ports m') = Some (Connected c') /\
    send_verdict c' = Some true /\ rrx_closed c' = true.
Proof.
  intros Hl Hc Hd. rewrite hr_ReceiveClose, Hl, Hc. unfold upd_free. cbn [negb rrx_dropped set RecordSet.set].
  rewrite Hd, andb_false_r. eexists _, _, _. split; [reflexivity|]. cbn [ports set RecordSet.set].
  rewrite lookup_insert, N.eqb_refl. repeat split.
Qed.

(** [ReceiveFinish]: whatever happened before -- also after a graceful close -- the pool ends up
    closed NON-gracefully (or the port is freed because all four directions are finished) *)
Lemma receive_finish_classified m p c :
  lookup p (ports m) = Some (Connected c) ->
  exists m' effs,
    handle_received m (ReceiveFinish p) 0 = Done m' effs /\
    match lookup p (ports m') with
    | Some (Connected c') => send_verdict c' = Some false /\ rrx_closed c' = true /\ rrx_dropped c' = true
    | Some (Connecting _) => False
    | None => tx_dropped c = true /\ rx_dropped c = true /\ rx_open c = false
    end.
Proof.
  intros Hl. rewrite hr_ReceiveFinish, Hl. unfold upd_free.
  cbn [tx_dropped rx_dropped rx_open rrx_dropped set RecordSet.set]. rewrite andb_true_r.
  destruct (tx_dropped c && rx_dropped c && negb (rx_open c)) eqn:E; eexists _, _; (split; [reflexivity|]);
    cbn [ports set RecordSet.set].
  - rewrite lookup_remove, N.eqb_refl. apply andb_true_iff in E as [E E3]. apply andb_true_iff in E as [E1 E2].
    now apply negb_true_iff in E3.
  - rewrite lookup_insert, N.eqb_refl. repeat split.
Qed.
