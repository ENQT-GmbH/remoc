(** Proofs about the shared event queue ([SharedQueue.v]): invariant, bounded queue, termination measure of
    the system actions, and what holds when no system action is enabled. *)
From Remoc Require Import Lib.Base Chmux.SharedQueue.
From RecordUpdate Require Import RecordUpdate.

Lemma wkind_eqb_eq a b : wkind_eqb a b = true <-> a = b.
Proof.
  destruct a as [p|p k], b as [q|q l]; cbn [wkind_eqb]; split; intros H; try discriminate; try congruence.
  - apply N.eqb_eq in H. now subst.
  - inversion H; subst. apply N.eqb_refl.
  - apply andb_true_iff in H as [H1 H2]. apply N.eqb_eq in H1, H2. now subst.
  - inversion H; subst. now rewrite !N.eqb_refl.
Qed.
Lemma wkind_eqb_refl a : wkind_eqb a a = true.
Proof. now apply wkind_eqb_eq. Qed.
Lemma wkind_eqb_sym a b : wkind_eqb a b = wkind_eqb b a.
Proof.
  destruct (wkind_eqb a b) eqn:E.
  - apply wkind_eqb_eq in E. subst. now rewrite wkind_eqb_refl.
  - destruct (wkind_eqb b a) eqn:E'; [|reflexivity]. apply wkind_eqb_eq in E'. subst. now rewrite wkind_eqb_refl in E.
Qed.

Fixpoint countw (w : wkind) (l : list wkind) : N :=
  match l with [] => 0 | x :: r => (if wkind_eqb x w then 1 else 0) + countw w r end.
Lemma countw_app w l1 l2 : countw w (l1 ++ l2) = countw w l1 + countw w l2.
Proof. induction l1 as [|x r IH]; cbn [countw app]; [lia|]. rewrite IH. lia. Qed.
Lemma countw_remove_same w l : countw w (remove_first w l) = countw w l - 1.
Proof.
  induction l as [|x r IH]; cbn [countw remove_first]; [lia|].
  destruct (wkind_eqb x w) eqn:E; [lia|]. cbn [countw]. rewrite E, IH. lia.
Qed.
Lemma countw_remove_other w w' l : wkind_eqb w w' = false -> countw w' (remove_first w l) = countw w' l.
Proof.
  intros Hne. induction l as [|x r IH]; cbn [countw remove_first]; [reflexivity|].
  destruct (wkind_eqb x w) eqn:E.
  - apply wkind_eqb_eq in E. subst. rewrite Hne. lia.
  - cbn [countw]. now rewrite IH.
Qed.

Definition is_ret (w : wkind) : bool := match w with WRet _ _ => true | WOp _ => false end.
Definition nret (l : list wkind) : N := len (filter is_ret l).
Lemma nret_app l1 l2 : nret (l1 ++ l2) = nret l1 + nret l2.
Proof. unfold nret. now rewrite filter_app, len_app. Qed.
Lemma nret_remove_op p l : nret (remove_first (WOp p) l) = nret l.
Proof.
  induction l as [|x r IH]; [reflexivity|]. cbn [remove_first].
  destruct (wkind_eqb x (WOp p)) eqn:E.
  - apply wkind_eqb_eq in E. subst. reflexivity.
  - unfold nret in *. cbn [filter]. destruct (is_ret x); [rewrite !len_cons|]; now rewrite IH.
Qed.

Section PortUpdate.
  Variable f : port -> port.
  Hypothesis f_pid : forall x, pid (f x) = pid x.

  Lemma map_pid_set p l : map pid (pset p f l) = map pid l.
  Proof.
    induction l as [|x r IH]; [reflexivity|]. cbn [pset]. destruct (pid x =? p); cbn [map]; [now rewrite f_pid|now rewrite IH].
  Qed.
  Lemma get_set_same p l : get p (pset p f l) = option_map f (get p l).
  Proof.
    induction l as [|x r IH]; [reflexivity|]. cbn [pset get]. destruct (pid x =? p) eqn:E; cbn [get].
    - now rewrite f_pid, E.
    - now rewrite E, IH.
  Qed.
  Lemma get_set_other p q l : q <> p -> get q (pset p f l) = get q l.
  Proof.
    intros Hne. induction l as [|x r IH]; [reflexivity|]. cbn [pset get]. destruct (pid x =? p) eqn:E; cbn [get].
    - rewrite f_pid. apply N.eqb_eq in E. destruct (N.eqb_spec (pid x) q); [congruence|reflexivity].
    - now rewrite IH.
  Qed.
  Lemma sum_map_set (g : port -> N) p l x :
    get p l = Some x -> sum (map g (pset p f l)) + g x = sum (map g l) + g (f x).
  Proof.
    clear f_pid.
    induction l as [|y r IH]; [discriminate|]. cbn [get pset]. destruct (pid y =? p) eqn:E.
    - intros [= ->]. cbn [map sum]. lia.
    - intros H. cbn [map sum]. specialize (IH H). lia.
  Qed.
  Lemma Forall_set (P : port -> Prop) p l :
    Forall P l -> (forall x, get p l = Some x -> P (f x)) -> Forall P (pset p f l).
  Proof.
    induction l as [|y r IH]; intros Hl Hx; [constructor|]. inversion Hl; subst. cbn [pset get] in *.
    destruct (pid y =? p) eqn:E.
    - constructor; [now apply Hx|assumption].
    - constructor; [assumption|]. apply IH; assumption.
  Qed.
  Lemma set_none p l : get p l = None -> pset p f l = l.
  Proof.
    induction l as [|y r IH]; [reflexivity|]. cbn [get pset]. destruct (pid y =? p); [discriminate|]. intros H. now rewrite IH.
  Qed.
End PortUpdate.

Lemma get_in p l x : get p l = Some x -> In x l /\ pid x = p.
Proof.
  induction l as [|y r IH]; [discriminate|]. cbn [get]. destruct (N.eqb_spec (pid y) p).
  - intros [= ->]. split; [now left|assumption].
  - intros H. destruct (IH H). split; [now right|assumption].
Qed.
Lemma in_get l x : NoDup (map pid l) -> In x l -> get (pid x) l = Some x.
Proof.
  induction l as [|y r IH]; intros Hnd Hin; [destruct Hin|]. cbn [map] in Hnd. inversion Hnd; subst. cbn [get].
  destruct Hin as [->|Hin]; [now rewrite N.eqb_refl|].
  destruct (N.eqb_spec (pid y) (pid x)) as [E|E].
  - exfalso. apply H1. rewrite E. now apply in_map.
  - now apply IH.
Qed.

Definition port_ok (x : port) : Prop :=
  match ph x with
  | PIdle => True
  | PWaitCredit n => 1 <= n
  | PWaitSlot n | PGranted n => 1 <= n /\ 1 <= pool x
  end.

Definition wslot (l : list port) (p : N) : bool :=
  match get p l with Some x => match ph x with PWaitSlot _ => true | _ => false end | None => false end.

Record Inv (s : sq) : Prop := mk_Inv {
  inv_cap : 1 <= cap s;
  inv_nodup : NoDup (map pid (ports s));
  inv_ports : Forall port_ok (ports s);
  inv_wait : forall p, countw (WOp p) (waiters s) = if wslot (ports s) p then 1 else 0;
  inv_use : in_use s <= cap s
}.

Lemma get_port_ok s p x : Inv s -> get p (ports s) = Some x -> port_ok x.
Proof. intros HI Hg. exact (proj1 (Forall_forall _ _) (inv_ports s HI) x (proj1 (get_in _ _ _ Hg))). Qed.

Lemma waiter_head_wslot s p r : Inv s -> waiters s = WOp p :: r ->
  exists x n, get p (ports s) = Some x /\ ph x = PWaitSlot n /\ 1 <= n /\ 1 <= pool x.
Proof.
  intros HI Hw. pose proof (inv_wait s HI p) as H. rewrite Hw in H. cbn [countw wkind_eqb] in H. rewrite N.eqb_refl in H.
  unfold wslot in H. destruct (get p (ports s)) as [x|] eqn:Hg; [|lia]. pose proof (get_port_ok s p x HI Hg) as Hx.
  unfold port_ok in Hx. destruct (ph x) eqn:Hph; try lia. eauto.
Qed.

(** the measure: the system actions still possible without the environment.  A frame that has a credit
    takes four (poll, grant, use, pop); an operation in [PWaitSlot] has had its poll, one in [PGranted]
    also its grant.  A credit return waiting for a permit takes three (grant, use, pop), one holding a
    permit two, and every event in the channel one (pop). *)
Definition cost (x : port) : N :=
  match ph x with
  | PIdle => 0
  | PWaitCredit n => 4 * N.min n (pool x)
  | PWaitSlot n => 4 * N.min n (pool x) - 1
  | PGranted n => 4 * N.min n (pool x) - 2
  end.
Definition M (s : sq) : N := sum (map cost (ports s)) + len (queue s) + 3 * nret (waiters s) + 2 * len (granted s).

Lemma pid_upd_ph x v : pid (x <| ph := v |>) = pid x. Proof. reflexivity. Qed.
Lemma pid_upd_pool x v : pid (x <| pool := v |>) = pid x. Proof. reflexivity. Qed.

Lemma wslot_set (f : port -> port) (Hf : forall x, pid (f x) = pid x) p q l :
  wslot (pset p f l) q =
  if q =? p then match get p l with Some x => match ph (f x) with PWaitSlot _ => true | _ => false end | None => false end
  else wslot l q.
Proof.
  unfold wslot. destruct (N.eqb_spec q p) as [->|Hne].
  - rewrite get_set_same by assumption. now destruct (get p l).
  - now rewrite get_set_other by assumption.
Qed.

Lemma init_inv c ps : 1 <= c -> NoDup (map fst ps) -> Inv (init c ps).
Proof.
  intros Hc Hnd. unfold init. constructor; cbn.
  - assumption.
  - rewrite map_map. cbn. assumption.
  - apply Forall_forall. intros x Hin. apply in_map_iff in Hin as [y [<- _]]. exact I.
  - intros p. unfold wslot.
    assert (H : forall l, match get p (map (fun x : N * N => {| pid := fst x; pool := snd x; ph := PIdle |}) l) with
                          | Some x => match ph x with PWaitSlot _ => true | _ => false end | None => false end = false).
    { induction l as [|y r IH]; [reflexivity|]. cbn [map get pid]. destruct (fst y =? p); [reflexivity|exact IH]. }
    now rewrite H.
  - unfold in_use, op_granted. cbn. rewrite map_map. cbn.
    assert (H : forall l : list (N * N), sum (map (fun _ => 0) l) = 0) by (induction l as [|y r IH]; cbn [map sum]; lia).
    rewrite H. unfold len. cbn. lia.
Qed.

(** the premise of [inv_port_step] that [f] keeps the [pid], for an [f] that sets other fields *)
Ltac pidf := let x := fresh in intros x; reflexivity.

Definition in_wslot (x : port) : bool := match ph x with PWaitSlot _ => true | _ => false end.

(** a step that rewrites port [p] by [f]: the new port is in order, it is among the waiters exactly if it waits
    for a slot, and no permit appears from nowhere *)
Lemma inv_port_step s s' p x (f : port -> port) :
  Inv s -> get p (ports s) = Some x -> ports s' = pset p f (ports s) -> cap s' = cap s ->
  (forall y, pid (f y) = pid y) -> port_ok (f x) ->
  (forall q, countw (WOp q) (waiters s') + (if (q =? p) && in_wslot x then 1 else 0) =
             countw (WOp q) (waiters s) + (if (q =? p) && in_wslot (f x) then 1 else 0)) ->
  len (queue s') + len (granted s') + (op_granted s + holds_permit (f x)) <= cap s + holds_permit x ->
  Inv s'.
Proof.
  intros [Hc Hnd Hp Hw Hu] Hg Ep Ec Hf Hok Hws Hhp. constructor; rewrite ?Ec, ?Ep.
  - assumption.
  - now rewrite map_pid_set.
  - apply Forall_set; [assumption|]. intros y Hy. rewrite Hg in Hy. now injection Hy as <-.
  - intros q. specialize (Hws q). specialize (Hw q). rewrite wslot_set by assumption.
    destruct (N.eqb_spec q p) as [->|Hne]; cbn [andb] in Hws; [|lia]. unfold wslot in Hw. rewrite Hg in *.
    fold (in_wslot x) in Hw. fold (in_wslot (f x)). destruct (in_wslot x), (in_wslot (f x)); lia.
  - unfold in_use, op_granted in *. rewrite Ep. pose proof (sum_map_set f holds_permit p (ports s) x Hg) as Hs. clear - Hs Hu Hhp. lia.
Qed.

Lemma step_inv s a s' : Inv s -> step_opt s a = Some s' -> Inv s'.
Proof.
  intros HI H. pose proof HI as [Hc Hnd Hp Hw Hu]. unfold in_use in Hu.
  destruct a as [p n|p|p k|p k|p| |p| |]; cbn [step_opt] in H;
    try (destruct (get p (ports s)) as [x|] eqn:Hg; [pose proof (get_port_ok s p x HI Hg) as Hx; unfold port_ok in Hx|discriminate]).
  - destruct (ph x) eqn:Hph; try discriminate. destruct (N.eqb_spec n 0); [discriminate|]. injection H as <-.
    eapply (inv_port_step s _ p x _ HI Hg); try reflexivity; try pidf; unfold port_ok, in_wslot, holds_permit; cbn; rewrite ?Hph; auto; lia.
  - (* UCancel: a port waiting for a slot leaves the waiters *)
    destruct (ph x) eqn:Hph; try discriminate; injection H as <-;
      (eapply (inv_port_step s _ p x _ HI Hg); try reflexivity; try pidf; unfold port_ok, in_wslot, holds_permit; cbn; rewrite ?Hph; auto; try lia).
    intros q. destruct (N.eqb_spec q p) as [->|Hne]; cbn [andb].
    + rewrite countw_remove_same. specialize (Hw p). unfold wslot in Hw. rewrite Hg, Hph in Hw. lia.
    + rewrite countw_remove_other; [lia|]. cbn. apply N.eqb_neq. congruence.
  - injection H as <-.
    eapply (inv_port_step s _ p x _ HI Hg); try reflexivity; try pidf; unfold port_ok, in_wslot, holds_permit in *; cbn; auto; try lia.
    destruct (ph x); try assumption; lia.
  - destruct (permit_free s && match waiters s with [] => true | _ => false end) eqn:Hc2; injection H as <-.
    + apply andb_true_iff in Hc2 as [Hf _]. unfold permit_free in Hf. apply N.ltb_lt in Hf.
      constructor; cbn; try assumption. unfold in_use, op_granted in *. cbn. rewrite len_snoc. clear - Hf. lia.
    + constructor; cbn; try assumption. intros q. rewrite countw_app. cbn. rewrite Hw. lia.
  - destruct (ph x) eqn:Hph; try discriminate. destruct (N.eqb_spec (pool x) 0); [discriminate|]. injection H as <-.
    eapply (inv_port_step s _ p x _ HI Hg); try reflexivity; try pidf; unfold port_ok, in_wslot, holds_permit; cbn; rewrite ?Hph; auto; try lia.
    intros q. rewrite countw_app. cbn [countw wkind_eqb]. rewrite (N.eqb_sym p q). destruct (q =? p); cbn [andb]; lia.
  - destruct (permit_free s) eqn:Hf; [|discriminate]. unfold permit_free, in_use in Hf. apply N.ltb_lt in Hf.
    destruct (waiters s) as [|[p|p k] r] eqn:Hwt; [discriminate| |]; injection H as <-.
    + (* an operation gets the permit *)
      destruct (waiter_head_wslot s p r HI Hwt) as (x & frames & Hg & Hph & Hx).
      eapply (inv_port_step s _ p x _ HI Hg); try reflexivity; try (intros y; cbv beta; destruct (ph y); reflexivity);
        unfold port_ok, in_wslot, holds_permit; cbn; rewrite ?Hph; cbn; auto; try lia.
      intros q. rewrite Hwt. cbn [countw wkind_eqb]. rewrite (N.eqb_sym p q). destruct (q =? p); cbn [andb]; lia.
    + constructor; cbn; try assumption.
      unfold in_use, op_granted in *. cbn. rewrite len_snoc. clear - Hf. lia.
  - destruct (ph x) eqn:Hph; try discriminate. injection H as <-.
    eapply (inv_port_step s _ p x _ HI Hg); try reflexivity; try pidf; unfold port_ok, in_wslot, holds_permit; cbn; rewrite ?Hph, ?len_snoc; auto;
      destruct (N.eqb_spec frames 1); cbn; auto; lia.
  - destruct (granted s) as [|w r] eqn:Hgr; [discriminate|]. injection H as <-.
    constructor; cbn; try assumption. unfold in_use, op_granted in *. cbn. rewrite len_cons in Hu. rewrite len_snoc. clear - Hu. lia.
  - destruct (queue s) as [|w r] eqn:Hq; [discriminate|]. injection H as <-.
    constructor; cbn; try assumption. unfold in_use, op_granted in *. cbn. rewrite len_cons in Hu. clear - Hu. lia.
Qed.

Lemma run_inv acts : forall s, Inv s -> Inv (run acts s).
Proof.
  apply fold_left_inv. intros s a HI. unfold step.
  destruct (step_opt s a) eqn:E; [eapply step_inv; eassumption|exact HI].
Qed.

(** the queue never holds more than [cap] events (and permits are never over-committed) *)
Theorem queue_bounded c ps acts :
  1 <= c -> NoDup (map fst ps) -> let s := run acts (init c ps) in len (queue s) <= cap s /\ in_use s <= cap s.
Proof.
  intros Hc Hnd s. pose proof (run_inv acts _ (init_inv c ps Hc Hnd)) as HI. fold s in HI.
  destruct HI as [_ _ _ _ Hu]. split; [|exact Hu]. unfold in_use in Hu. lia.
Qed.

Theorem system_step_decreases s a s' :
  Inv s -> is_system a = true -> step_opt s a = Some s' -> M s' < M s.
Proof.
  intros HI Hsys H. pose proof HI as [Hc Hnd Hp Hw Hu].
  destruct a as [p n|p|p k|p k|p| |p| |]; try discriminate; cbn [step_opt] in H; unfold M.
  - destruct (get p (ports s)) as [x|] eqn:Hg; [|discriminate]. destruct (ph x) eqn:Hph; try discriminate.
    destruct (N.eqb_spec (pool x) 0) as [|Hp0]; [discriminate|]. injection H as <-. cbn.
    pose proof (get_port_ok s p x HI Hg) as Hx. unfold port_ok in Hx. rewrite Hph in Hx.
    pose proof (sum_map_set (fun y => y <| ph := PWaitSlot frames |>) cost p (ports s) x Hg) as Hs.
    cbn in Hs. replace (cost x) with (4 * N.min frames (pool x)) in Hs by (unfold cost; now rewrite Hph).
    rewrite nret_app. unfold nret at 2. cbn. unfold len. cbn [length]. clear - Hs Hx Hp0. lia.
  - destruct (permit_free s); [|discriminate].
    destruct (waiters s) as [|[p|p k] r] eqn:Hwt; [discriminate| |]; injection H as <-; cbn.
    + destruct (waiter_head_wslot s p r HI Hwt) as (x & frames & Hg & Hph & Hx).
      pose proof (sum_map_set (fun y => match ph y with PWaitSlot n => y <| ph := PGranted n |> | _ => y end) cost p (ports s) x Hg) as Hs.
      cbv beta in Hs. rewrite Hph in Hs. cbn in Hs.
      replace (cost x) with (4 * N.min frames (pool x) - 1) in Hs by (unfold cost; now rewrite Hph).
      assert (Hm : 1 <= N.min frames (pool x)) by (apply N.min_glb; lia). remember (N.min frames (pool x)) as m.
      unfold nret. cbn [filter is_ret]. fold (nret r). clear - Hs Hm. lia.
    + unfold nret. cbn [filter is_ret]. rewrite len_cons, len_app. unfold len. cbn [length]. lia.
  - destruct (get p (ports s)) as [x|] eqn:Hg; [|discriminate]. destruct (ph x) eqn:Hph; try discriminate. injection H as <-. cbn.
    pose proof (get_port_ok s p x HI Hg) as Hx. unfold port_ok in Hx. rewrite Hph in Hx.
    pose proof (sum_map_set (fun y => y <| pool := pool y - 1 |> <| ph := if frames =? 1 then PIdle else PWaitCredit (frames - 1) |>) cost p (ports s) x Hg) as Hs.
    cbv beta in Hs. replace (cost x) with (4 * N.min frames (pool x) - 2) in Hs by (unfold cost; now rewrite Hph).
    rewrite len_app. unfold len at 2. cbn.
    destruct (N.eqb_spec frames 1) as [E|E];
      match type of Hs with context [cost ?t] => let v := eval cbn in (cost t) in change (cost t) with v in Hs end;
      clear - Hs Hx E; lia.
  - destruct (granted s) as [|w r] eqn:Hgr; [discriminate|]. injection H as <-. cbn.
    rewrite len_cons, len_snoc. lia.
  - destruct (queue s) as [|w r] eqn:Hq; [discriminate|]. injection H as <-. cbn. rewrite len_cons. lia.
Qed.

(** a run of system actions, each enabled when it is taken *)
Fixpoint sys_run (acts : list act) (s : sq) : option sq :=
  match acts with
  | [] => Some s
  | a :: r => if is_system a then match step_opt s a with Some s' => sys_run r s' | None => None end else None
  end.

(** no livelock: without the environment the system performs at most [M s] actions *)
Theorem system_runs_are_bounded acts : forall s s', Inv s -> sys_run acts s = Some s' -> len acts + M s' <= M s /\ Inv s'.
Proof.
  induction acts as [|a r IH]; intros s s' HI H; cbn [sys_run] in H.
  - injection H as <-. rewrite len_nil. split; [lia|exact HI].
  - destruct (is_system a) eqn:Hs; [|discriminate]. destruct (step_opt s a) as [s1|] eqn:E; [|discriminate].
    pose proof (system_step_decreases _ _ _ HI Hs E). pose proof (step_inv _ _ _ HI E) as HI1.
    destruct (IH _ _ HI1 H). rewrite len_cons. split; [lia|assumption].
Qed.

(** no deadlock: when no system action is enabled, everything possible has been done *)
Definition quiescent (s : sq) : Prop := forall a, is_system a = true -> step_opt s a = None.

Definition port_done (x : port) : Prop :=
  ph x = PIdle \/ exists n, ph x = PWaitCredit n /\ pool x = 0.

Theorem quiescent_all_done s :
  Inv s -> quiescent s ->
  queue s = [] /\ waiters s = [] /\ granted s = [] /\ Forall port_done (ports s).
Proof.
  intros [Hc Hnd Hp Hw Hu] Hq.
  assert (Hqueue : queue s = []).
  { pose proof (Hq SPop eq_refl) as H. cbn in H. now destruct (queue s). }
  assert (Hgr : granted s = []).
  { pose proof (Hq SUseRet eq_refl) as H. cbn in H. now destruct (granted s). }
  assert (Hng : forall x, In x (ports s) -> holds_permit x = 0).
  { intros x Hin. pose proof (Hq (SUse (pid x)) eq_refl) as H. cbn in H. rewrite (in_get _ _ Hnd Hin) in H.
    unfold holds_permit. now destruct (ph x). }
  assert (Hog : op_granted s = 0).
  { unfold op_granted. clear - Hng. induction (ports s) as [|y r IH]; [reflexivity|]. cbn [map sum].
    rewrite (Hng y (or_introl eq_refl)), IH; [reflexivity|]. intros x Hin. apply Hng. now right. }
  assert (Hfree : permit_free s = true).
  { unfold permit_free, in_use. rewrite Hqueue, Hgr, Hog. unfold len. cbn. apply N.ltb_lt. lia. }
  assert (Hwt : waiters s = []).
  { pose proof (Hq SGrant eq_refl) as H. cbn in H. rewrite Hfree in H. destruct (waiters s) as [|[p|p k] r]; [reflexivity|discriminate|discriminate]. }
  repeat split; try assumption.
  apply Forall_forall. intros x Hin. unfold port_done.
  pose proof (in_get _ _ Hnd Hin) as Hg.
  destruct (ph x) eqn:Hph.
  - now left.
  - right. exists frames. split; [reflexivity|].
    pose proof (Hq (SPoll (pid x)) eq_refl) as H. cbn in H. rewrite Hg, Hph in H. destruct (N.eqb_spec (pool x) 0); [assumption|discriminate].
  - exfalso. specialize (Hw (pid x)). rewrite Hwt in Hw. unfold wslot in Hw. rewrite Hg, Hph in Hw. cbn in Hw. lia.
  - exfalso. specialize (Hng x Hin). unfold holds_permit in Hng. rewrite Hph in Hng. lia.
Qed.

(** After ANY history (user calls, cancellations, credit returns of any ports, system actions in any
    order), any run of system actions alone -- no remote receiver has to consume anything -- is at most
    [M s] long, and when it cannot be extended every port has handed over every frame its own credits
    allow: it is idle, or it waits for credits with none left.  Hence a port whose receiver does not
    consume (its operations stay in [PWaitCredit] with [pool = 0]) never stops another port. *)
Theorem ports_do_not_block_each_other c ps history sys s' :
  1 <= c -> NoDup (map fst ps) ->
  let s := run history (init c ps) in
  sys_run sys s = Some s' -> quiescent s' ->
  len sys <= M s /\ queue s' = [] /\ waiters s' = [] /\ granted s' = [] /\ Forall port_done (ports s').
Proof.
  intros Hc Hnd s Hrun Hq.
  pose proof (run_inv history _ (init_inv c ps Hc Hnd)) as HI. fold s in HI.
  destruct (system_runs_are_bounded _ _ _ HI Hrun) as [Hb HI']. split; [lia|].
  now apply quiescent_all_done.
Qed.
