(** Main results about one chmux endpoint ([Mux.v], [Endpoint.v]): the well-formedness invariant [WF]
    holds in every reachable state, under every interleaving of local API actions, helper-task steps,
    dispatcher steps and arbitrary received messages; consequences for C07, C08, C10. *)
From Remoc Require Import Lib.Base Gen.Consts Chmux.Wire Chmux.Mux Chmux.Endpoint Chmux.EndpointLemmas Chmux.EndpointInv
  Chmux.EndpointSteps Chmux.EndpointRecv Chmux.EndpointEffects.
From RecordUpdate Require Import RecordUpdate.

Lemma WF_Good e : WF e -> alive e = true -> Good e.
Proof. intros [H1 H2 H3 Hb Hq H4] Ha. destruct (alive_spec _ Ha) as (Hd & _ & _). unfold Good. split; [|split; [|split; [|split]]]; auto. Qed.

Theorem WF_init ch bu cq rb ver maxp : WF (ep_init (mux_init ch bu cq rb ver) maxp).
Proof.
  constructor.
  - reflexivity.
  - constructor.
  - change (0 <= maxp). lia.
  - intros p c. discriminate.
  - split; unfold ep_init, mux_init; prj; lia.
  - intros _. constructor; unfold ep_init, mux_init; prj.
    + split; reflexivity.
    + intros p. cbn. lia.
    + intros r. cbn. auto.
    + intros p. unfold hok1, hget. cbn. repeat split; auto; discriminate.
    + intros r. reflexivity.
    + intros p c. discriminate.
    + split; prj; lia.
    + constructor.
    + intros _ r. reflexivity.
Qed.

Theorem WF_step e a e' : WF e -> step_opt e a = Some e' -> WF e'.
Proof.
  intros Hw H. pose proof (WF_Good _ Hw (step_alive _ _ _ H)) as HG.
  destruct a; [apply Good_WF .. | | | | | ]; revert HG H;
    [apply step_UConnect|apply step_USendPorts|apply step_UDropClients|apply step_UDropListener|apply step_UListenerTake
    |apply step_UAccept|apply step_UReject|apply step_UDropRequest|apply step_USendData|apply step_UConsume
    |apply step_UReturnCredits|apply step_UCloseRx|apply step_UDropRx|apply step_UDropTx|apply step_UTerminate
    |apply step_NTx|apply step_NRx|apply step_NReq
    |apply step_DPort|apply step_DConn|apply step_DListenerDropped|apply step_DGoodbye|apply step_Recv].
Qed.

Lemma WF_stepf e a : WF e -> WF (step e a).
Proof. intros H. unfold step. destruct (step_opt e a) eqn:E; [eapply WF_step; eauto|exact H]. Qed.
Theorem WF_run acts : forall e, WF e -> WF (run acts e).
Proof. apply (fold_left_inv step WF). intros e a. apply WF_stepf. Qed.

(** * C08: a received message keeps the invariant or terminates the connection; a terminated
      endpoint takes no further step *)
Theorem classified e m n e' :
  WF e -> step_opt e (Recv m n) = Some e' ->
  (dead e' = None /\ Inv e') \/ (exists err, dead e' = Some err /\ forall a, step_opt e' a = None).
Proof.
  intros Hw H. pose proof (WF_Good _ Hw (step_alive _ _ _ H)) as HG.
  destruct (step_Recv _ _ _ _ HG H) as [_ _ _ _ _ Hi]. destruct (dead e') as [err|] eqn:E; [right|left; auto].
  exists err. split; [reflexivity|]. intros a. apply dead_absorbing. congruence.
Qed.

(** * C08: buffers are bounded *)
Lemma len_le_used (l : list (N * list N)) : len l <= sum (map fst l) + count (fun x => fst x =? 0) l.
Proof.
  induction l as [|x l IH]; cbn [map sum]; [rewrite len_nil, count_nil; lia|].
  rewrite len_cons, count_cons. destruct (fst x =? 0) eqn:E; cbn [b2n]; [lia|]. apply N.eqb_neq in E. lia.
Qed.

Theorem buffer_bounds e :
  WF e ->
  (forall p c, lookup p (ports (mx e)) = Some (Connected c) ->
     used c <= cfg_buffer (mx e) /\ len (rxq c) <= used c + 1) /\
  lq_wait (mx e) <= cfg_connect_queue (mx e) + 1 /\ lq_nowait (mx e) <= cfg_connect_queue (mx e) + 1.
Proof.
  intros [_ _ _ Hb [L1 L2] _]. split; [|auto]. intros p c Hl. destruct (Hb _ _ Hl) as (B1 & B2 & _).
  split; [exact B1|]. pose proof (len_le_used (rxq c)) as H. pose proof (b2n_le1 (negb (rx_open c))). unfold used. lia.
Qed.

(** * C07: port numbers *)
Theorem numbers e :
  WF e ->
  NoDup (alloc e) /\ len (alloc e) <= max_ports e /\
  (dead e = None -> forall p, lookup p (ports (mx e)) <> None -> In p (alloc e)).
Proof.
  intros [_ H1 H2 _ _ Hi]. repeat split; auto. intros Hd p Hl. specialize (Hi Hd). destruct Hi as [_ Hn _ _ _ _ _ _ _].
  specialize (Hn p). apply mem_In. destruct (lookup p (ports (mx e))); [|congruence]. cbn [isK] in Hn.
  destruct (mem p (alloc e)); [reflexivity|]. cbn [b2n] in Hn. lia.
Qed.

(** * C07: a connected entry leaves the table exactly when all four flags hold, and its number is
      released exactly then *)
Lemma finish_Done_mx e1 m effs : mx (finish e1 (Done m effs)) = m.
Proof.
  cbn [finish]. destruct (goodbye_sent m && goodbye_received m); unfold resolve_waiting; prj; now rewrite apply_effs_mx.
Qed.
Lemma finish_Done_alloc e1 m effs : alloc (finish e1 (Done m effs)) = alloc (apply_effs (e1 <| mx := m |>) effs).
Proof. cbn [finish]. destruct (goodbye_sent m && goodbye_received m); reflexivity. Qed.

Lemma disp_Done e a e' o :
  WF e -> step_opt e a = Some e' -> dead e' = None -> disp_outcome e a = Some o ->
  exists m' effs e1, o = Done m' effs /\ e' = finish e1 o /\ mx e' = m' /\ mx e1 = disp_mux e a /\ alloc e1 = alloc e /\
                     connects e1 = connects e.
Proof.
  intros Hw H Hd Ho. pose proof (WF_step _ _ _ Hw H) as Hw'.
  destruct (step_disp _ _ _ _ H Ho) as (e1 & -> & E1 & E2 & E3 & E4 & E5).
  destruct o as [m' effs|err effs|site].
  - exists m', effs, e1. repeat split; auto. apply finish_Done_mx.
  - discriminate Hd.
  - destruct Hw' as [Hp _ _ _ _ _]. cbn [finish] in Hp. prj. discriminate.
Qed.

Lemma disp_free e a m' effs p c :
  disp_outcome e a = Some (Done m' effs) -> lookup p (ports (mx e)) = Some (Connected c) ->
  is_connected (lookup p (ports m')) = false -> freed_by (disp_mux e a) m' effs p c.
Proof.
  intros Ho Hl Hn. rewrite <- (proj1 (disp_mux_same e a)) in Hl.
  destruct a; cbn [disp_outcome] in Ho; try discriminate; try (cbn [disp_mux] in * ).
  - destruct (chq e) as [|ev q]; [discriminate|]. injection Ho as Ho. eapply he_free; eauto.
  - destruct (cq e) as [|ev q]; [discriminate|]. injection Ho as Ho. eapply he_free; eauto.
  - assert (Ho' : handle_event (mx e) EListenerDropped = Done m' effs) by congruence. eapply he_free; eauto.
  - assert (Ho' : handle_event (mx e) EGoodbye = Done m' effs) by congruence. eapply he_free; eauto.
  - injection Ho as Ho'. eapply hr_free; eauto.
Qed.

Theorem free_iff e a e' p c :
  WF e -> step_opt e a = Some e' -> dead e' = None -> lookup p (ports (mx e)) = Some (Connected c) ->
  match lookup p (ports (mx e')) with
  | Some (Connected c') => all4 c' = false /\ In p (alloc e')
  | _ => ~ In p (alloc e') /\
         exists effs, disp_outcome e a = Some (Done (mx e') effs) /\ freed_by (disp_mux e a) (mx e') effs p c
  end.
Proof.
  intros Hw H Hd Hl. pose proof (WF_step _ _ _ Hw H) as Hw'.
  destruct (lookup p (ports (mx e'))) as [[r|c']|] eqn:El'.
  2:{ split.
      - destruct Hw' as [_ _ _ Hb _ _]. apply (Hb _ _ El').
      - apply (numbers _ Hw'); [exact Hd|congruence]. }
  all: assert (Hn : is_connected (lookup p (ports (mx e'))) = false) by (rewrite El'; reflexivity).
  all: destruct (disp_outcome e a) as [o|] eqn:Ho;
    [|destruct (step_user _ _ _ H Ho) as (_ & _ & Hc & _); rewrite (Hc _ _ Hl) in Hn; discriminate].
  all: destruct (disp_Done _ _ _ _ Hw H Hd Ho) as (m' & effs & e1 & -> & He' & Hm & E1 & E2 & E3).
  all: rewrite Hm in *; pose proof (disp_free _ _ _ _ _ _ Ho Hl Hn) as Hf.
  all: split; [|exists effs; split; [reflexivity|exact Hf]].
  all: rewrite He', finish_Done_alloc; apply apply_effs_dropped; apply Hf.
Qed.

(** * C10: local connect requests *)
Lemma port_reqs_connecting pt p req :
  NoDup (map fst pt) -> lookup p pt = Some (Connecting req) -> 1 <= occ req (port_reqs pt).
Proof.
  intros Hn Hl. pose proof (port_reqs_remove req p pt Hn) as T.
  rewrite Hl in T. cbn [st_reqs] in T. rewrite occ_cons, N.eqb_refl in T. cbn [b2n] in T. lia.
Qed.
Lemma port_reqs_exists pt req :
  1 <= occ req (port_reqs pt) -> exists p, In (p, Connecting req) pt.
Proof.
  induction pt as [|[k s] pt IH]; unfold port_reqs, tab in *; cbn [flat_map fst snd].
  - rewrite occ_nil. lia.
  - rewrite occ_app. intros H. destruct s as [r|c].
    + change (st_reqs (Some (Connecting r))) with [r] in H.
      rewrite occ_cons, occ_nil in H. destruct (r =? req) eqn:E.
      * apply N.eqb_eq in E. subst r. exists k. now left.
      * cbn [b2n] in H. destruct IH as [p Hp]; [lia|]. exists p. now right.
    + change (st_reqs (Some (Connected c))) with (@nil N) in H. rewrite occ_nil in H. destruct IH as [p Hp]; [lia|]. exists p. now right.
Qed.

(** the carriers of a waiting request: exactly one (queued event or [Connecting] entry) *)
Theorem pending_unique e req :
  WF e -> alive e = true ->
  occ req (q_reqs (cq e)) + occ req (q_reqs (chq e)) + occ req (port_reqs (ports (mx e))) =
  if is_waiting (lookup req (connects e)) then 1 else 0.
Proof.
  intros Hw Ha. destruct (WF_Good _ Hw Ha) as (_ & _ & _ & _ & [_ _ _ _ _ _ _ _ Hc]).
  exact (Hc (proj2 (proj2 (alive_spec _ Ha))) req).
Qed.

Lemma respond_origin e a o req r :
  qs_ok (cq e) (chq e) -> disp_outcome e a = Some o -> In (Respond req r) (effs_of o) ->
  match r with
  | RRejected np =>
      (exists p n, a = Recv (Rejected p np) n /\ lookup p (ports (mx e)) = Some (Connecting req)) \/
      (np = false /\ a = DConn /\ remote_listener_dropped (mx e) = true /\
       exists p id w q, cq e = EConnectReq p id w req :: q)
  | RAccepted p q =>
      exists n, a = Recv (PortOpened p q) n /\ lookup p (ports (mx e)) = Some (Connecting req) /\
                o = Done (disp_mux e a <| ports := insert p (Connected (new_conn (disp_mux e a) q)) (ports (disp_mux e a)) |>)
                         [NewPort p q; Respond req (RAccepted p q)]
  | _ => False
  end.
Proof.
  intros [_ Hq] Ho Hin. destruct a; cbn [disp_outcome] in Ho; try discriminate.
  - destruct (chq e) as [|ev q]; [discriminate|]. inj Ho. apply he_respond in Hin as (p & id & w & -> & _). discriminate.
  - destruct (cq e) as [|ev q] eqn:Eq; [discriminate|]. inj Ho. apply he_respond in Hin as (p & id & w & -> & Hr & ->).
    right. eauto 10.
  - inj Ho. apply he_respond in Hin as (p & id & w & [=] & _).
  - inj Ho. apply he_respond in Hin as (p & id & w & [=] & _).
  - inj Ho. apply hr_respond in Hin as [(p & np & -> & Hl & ->)|(p & q & -> & Hl & -> & Hd)];
      rewrite (proj1 (disp_mux_same e _)) in Hl; [left|]; eauto.
Qed.

(** a [Respond] effect addresses a request that is still waiting *)
Theorem respond_only_waiting e a e' o req r :
  WF e -> step_opt e a = Some e' -> disp_outcome e a = Some o -> In (Respond req r) (effs_of o) ->
  lookup req (connects e) = Some CWaiting.
Proof.
  intros Hw H Ho Hin. pose proof (step_alive _ _ _ H) as Ha. pose proof (pending_unique e req Hw Ha) as Hu.
  destruct (WF_Good _ Hw Ha) as (_ & _ & _ & _ & [Hqs _ _ _ _ _ _ Hkeys _]).
  assert (1 <= occ req (q_reqs (cq e)) + occ req (port_reqs (ports (mx e)))) as H1.
  { pose proof (respond_origin _ _ _ _ _ Hqs Ho Hin) as Hr.
    destruct r; try contradiction; [destruct Hr as (n & _ & Hl & _)|destruct Hr as [(p & n & _ & Hl)|(_ & _ & _ & p & id & w & q & ->)]];
      try (pose proof (port_reqs_connecting _ _ _ Hkeys Hl); lia).
    rewrite q_reqs_cons. cbn [ev_reqs app]. rewrite occ_cons, N.eqb_refl. cbn [b2n]. lia. }
  destruct (lookup req (connects e)) as [[|]|]; cbn [is_waiting] in Hu; try lia. reflexivity.
Qed.

(** a resolved reply cell is never written again *)
Theorem resolved_stable e a e' req r :
  WF e -> step_opt e a = Some e' -> lookup req (connects e) = Some (CResolved r) ->
  lookup req (connects e') = Some (CResolved r).
Proof.
  intros Hw H Hl. destruct (disp_outcome e a) as [o|] eqn:Ho.
  2:{ destruct (step_user _ _ _ H Ho) as (_ & _ & _ & Hc). now apply Hc. }
  assert (Hno : forall r0, ~ In (Respond req r0) (effs_of o)).
  { intros r0 Hin. pose proof (respond_only_waiting _ _ _ _ _ _ Hw H Ho Hin). congruence. }
  destruct (step_disp _ _ _ _ H Ho) as (e1 & -> & E1 & E2 & E3 & E4 & E5).
  destruct o as [m effs|err effs|site]; cbn [finish effs_of] in *.
  - assert (Hk : lookup req (connects (apply_effs (e1 <| mx := m |>) effs)) = Some (CResolved r)).
    { rewrite apply_effs_connects_keep by exact Hno. prj. now rewrite E3. }
    destruct (goodbye_sent m && goodbye_received m); [|exact Hk]. now rewrite lookup_resolve, Hk.
  - rewrite lookup_resolve. prj. rewrite apply_effs_connects_keep by exact Hno. now rewrite E3, Hl.
  - prj. now rewrite E3.
Qed.

(** the reason recorded in a reply cell is the cause of the step that wrote it *)
Definition cause (e : ep) (a : act) (e' : ep) (req : N) (r : cresp) : Prop :=
  match r with
  | RRejected np =>
      (exists p n, a = Recv (Rejected p np) n /\ lookup p (ports (mx e)) = Some (Connecting req)) \/
      (np = false /\ a = DConn /\ remote_listener_dropped (mx e) = true /\
       exists p id w q, cq e = EConnectReq p id w req :: q)
  | RAccepted p q =>
      exists n, a = Recv (PortOpened p q) n /\ lookup p (ports (mx e)) = Some (Connecting req) /\
                exists c, lookup p (ports (mx e')) = Some (Connected c) /\ remote c = q
  | RChMux => alive e' = false /\ remote_listener_dropped (mx e') = false
  | RListenerGone => alive e' = false /\ remote_listener_dropped (mx e') = true
  end.

Lemma respond_cause e a e' o req r :
  WF e -> step_opt e a = Some e' -> disp_outcome e a = Some o -> In (Respond req r) (effs_of o) ->
  (forall m' effs, o = Done m' effs -> mx e' = m') ->
  cause e a e' req r.
Proof.
  intros Hw H Ho Hin Hmx. destruct (WF_Good _ Hw (step_alive _ _ _ H)) as (_ & _ & _ & _ & [Hqs _ _ _ _ _ _ _ _]).
  pose proof (respond_origin _ _ _ _ _ Hqs Ho Hin) as Hr. destruct r; try contradiction; [|exact Hr].
  destruct Hr as (n & -> & Hl & Hd). exists n. repeat split; auto. rewrite (Hmx _ _ Hd). prj.
  rewrite lookup_insert, N.eqb_refl. eexists. split; reflexivity.
Qed.

Lemma finish_cell e1 o req s :
  lookup req (connects (finish e1 o)) = Some s ->
  match o with
  | Panic _ => lookup req (connects e1) = Some s
  | _ => exists e2 s0, connects e2 = connects e1 /\ lookup req (connects (apply_effs e2 (effs_of o))) = Some s0 /\
           (s = s0 \/ (s0 = CWaiting /\ alive (finish e1 o) = false /\
                       s = CResolved (if remote_listener_dropped (mx (finish e1 o)) then RListenerGone else RChMux)))
  end.
Proof.
  assert (R : forall e2, lookup req (connects (resolve_waiting e2)) = Some s ->
              exists s0, lookup req (connects e2) = Some s0 /\
                (s = s0 \/ (s0 = CWaiting /\ s = CResolved (if remote_listener_dropped (mx e2) then RListenerGone else RChMux)))).
  { intros e2 H. rewrite lookup_resolve in H. destruct (lookup req (connects e2)) as [[|r0]|]; [| |discriminate];
      injection H as <-; eauto. }
  destruct o as [m effs|err effs|site]; cbn [finish effs_of]; [| |auto].
  - destruct (goodbye_sent m && goodbye_received m) eqn:Eg; intros H; exists (e1 <| mx := m |>); [|eauto].
    apply R in H as (s0 & Hs & [->|[-> ->]]); eexists; (split; [reflexivity|split; [exact Hs|auto]]).
    right. unfold resolve_waiting at 1 2. prj. rewrite apply_effs_mx. prj. repeat split.
    apply not_true_is_false. rewrite alive_iff. prj. rewrite apply_effs_mx. prj. rewrite Eg. intuition discriminate.
  - intros H. exists e1. apply R in H as (s0 & Hs & [->|[-> ->]]); eexists; prj; (split; [reflexivity|split; [exact Hs|auto]]).
Qed.

Theorem truthful e a e' req r :
  WF e -> step_opt e a = Some e' ->
  lookup req (connects e) = Some CWaiting -> lookup req (connects e') = Some (CResolved r) ->
  cause e a e' req r.
Proof.
  intros Hw H Hl Hl'. destruct (disp_outcome e a) as [o|] eqn:Ho.
  2:{ destruct (step_user _ _ _ H Ho) as (_ & _ & _ & Hc). rewrite (Hc _ _ Hl) in Hl'. discriminate. }
  destruct (step_disp _ _ _ _ H Ho) as (e1 & He' & E1 & E2 & E3 & E4 & E5).
  assert (Hmx : forall m' effs, o = Done m' effs -> mx e' = m') by (intros m' effs ->; rewrite He'; apply finish_Done_mx).
  rewrite He' in Hl'. apply finish_cell in Hl'. rewrite <- He' in Hl'.
  destruct o as [m effs|err effs|site]; [| |rewrite E3, Hl in Hl'; discriminate].
  all: destruct Hl' as (e2 & s0 & Hc & Hs & Hcase); apply apply_effs_connects in Hs as [Hs|(r0 & Hin & ->)].
  all: try (rewrite Hc, E3, Hl in Hs; injection Hs as <-; destruct Hcase as [[=]|(_ & Ha & [= ->])];
            destruct (remote_listener_dropped (mx e')) eqn:Er; cbn [cause]; auto).
  all: destruct Hcase as [[= ->]|([=] & _)]; eapply respond_cause; eauto.
Qed.

Definition reach (ch bu cq rb ver maxp : N) (acts : list act) : ep :=
  run acts (ep_init (mux_init ch bu cq rb ver) maxp).
Lemma WF_reach ch bu cq rb ver maxp acts : WF (reach ch bu cq rb ver maxp acts).
Proof. apply WF_run, WF_init. Qed.
