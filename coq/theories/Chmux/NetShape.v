(** What one step of an endpoint does to the parts of its state the composed invariant looks at:
    the port table, the outstanding remote requests, the event queue [chq] and the frames handed
    to the transport. *)
From Remoc Require Import Lib.Base Chmux.Wire Chmux.Mux Chmux.Endpoint Chmux.EndpointLemmas Chmux.EndpointSteps
  Chmux.EndpointRecv Chmux.EndpointEffects Chmux.Net.
From RecordUpdate Require Import RecordUpdate.

Fixpoint emits (effs : list eff) : list frame :=
  match effs with
  | [] => []
  | Emit m pl :: r => (m, pl) :: emits r
  | _ :: r => emits r
  end.

Lemma apply_effs_chq effs e : chq (apply_effs e effs) = chq e.
Proof. apply (apply_effs_keeps chq). eff_frame. Qed.
Lemma apply_effs_sent effs : forall e, sent (apply_effs e effs) = sent e ++ emits effs.
Proof.
  induction effs as [|f r IH]; intros e; [symmetry; apply app_nil_r|]. rewrite apply_effs_cons, IH.
  destruct f; cbn [emits apply_eff]; try reflexivity; [apply app_assoc_reverse|now destruct (listener_alive e)].
Qed.

Lemma finish_Done_view e1 m effs :
  mx (finish e1 (Done m effs)) = m /\ chq (finish e1 (Done m effs)) = chq e1 /\
  sent (finish e1 (Done m effs)) = sent e1 ++ emits effs /\ dead (finish e1 (Done m effs)) = dead e1.
Proof.
  cbn [finish]. destruct (goodbye_sent m && goodbye_received m); unfold resolve_waiting; prj;
    rewrite ?apply_effs_mx, ?apply_effs_chq, ?apply_effs_sent, ?apply_effs_dead; prj; auto.
Qed.
Lemma finish_Panic_panicked e1 s : panicked (finish e1 (Panic s)) = Some s.
Proof. reflexivity. Qed.

Lemma new_frames_app e e' fs : sent e' = sent e ++ fs -> new_frames e e' = fs.
Proof.
  intros H. unfold new_frames. rewrite H. rewrite skipn_app, skipn_all, Nat.sub_diag. reflexivity.
Qed.
Lemma new_frames_same e e' : sent e' = sent e -> new_frames e e' = [].
Proof. intros H. apply new_frames_app. now rewrite app_nil_r. Qed.

Ltac open_step H :=
  unfold step_opt in H;
  match type of H with (if negb (alive ?e) then _ else _) = _ => destruct (negb (alive e)); [discriminate|] end.

Definition is_disp (a : act) : bool :=
  match a with DPort | DConn | DListenerDropped | DGoodbye => true | _ => false end.

(** the event a local API action or helper task queues for the dispatcher *)
Definition pushed (e : ep) (a : act) : list evt :=
  match a with
  | USendPorts via f l w ps => match remote_of e via with Some rp => [ESendPorts rp f l w ps] | None => [] end
  | USendData p f l n => match remote_of e p with Some rp => [ESendData rp f l n] | None => [] end
  | UReturnCredits p n => match remote_of e p with Some rp => [EReturnCredits rp n] | None => [] end
  | UAccept r p => [EAccepted p r]
  | UReject r np => [ERejected r np]
  | NReq r => [ERejected r false]
  | UCloseRx p => [EReceiverClosed p]
  | NTx p => [ESenderDropped p]
  | NRx p => [EReceiverDropped p]
  | _ => []
  end.

(** What a step of the users (neither dispatcher nor receiving task) changes.  Last clause: the connect queue is
    as before, or clients are alive afterwards -- nothing is then said of [cq], the all-clients-dropped marker
    ([cl_val] in [Chmux/NetQuiet3.v]) is with them -- or the last client went and queued the marker. *)
Lemma view_user e a e' : step_opt e a = Some e' -> is_disp a = false -> is_recv a = false ->
  outstanding (mx e') = outstanding (mx e) /\ chq e' = chq e ++ pushed e a /\ sent e' = sent e /\ dead e' = dead e /\
  match a with
  | UConsume p => exists c q x, lookup p (ports (mx e)) = Some (Connected c) /\ rxq c = x :: q /\
                    ports (mx e') = insert p (Connected (c <| rxq := q |>)) (ports (mx e))
  | _ => ports (mx e') = ports (mx e)
  end /\
  all_clients_dropped (mx e') = all_clients_dropped (mx e) /\
  (clients_alive e' = clients_alive e /\ cq e' = cq e \/ clients_alive e' = true \/
   clients_alive e' = false /\ cq e' = cq e ++ [EAllClientsDropped]).
Proof.
  intros H Hd Hr. revert e' H. apply some_elim.
  destruct a; try discriminate; clear; unfold step_opt; (destruct (negb (alive e)); [exact I|]); cbn [pushed]; unfold remote_of;
    crunch_goal; try exact I;
    cbn [mx chq cq sent dead clients_alive ports outstanding all_clients_dropped set RecordSet.set set_handle];
    rewrite ?app_nil_r; repeat split; try reflexivity; bools; auto;
    repeat match goal with |- context [if ?b then _ else _] => destruct b end; auto.
  eexists _, _, _. repeat split; eassumption.
Qed.

(** the event a local dispatcher step handles, and the state it hands to [finish]: the event is off its queue and,
    for a port event, the handle or request it reports on is updated *)
Definition disp_ev (e : ep) (a : act) : option evt :=
  match a with
  | DPort => hd_error (chq e)
  | DConn => hd_error (cq e)
  | DListenerDropped => Some EListenerDropped
  | DGoodbye => Some EGoodbye
  | _ => None
  end.
Definition pre_finish (e : ep) (a : act) : ep :=
  match a with
  | DPort =>
      match chq e with
      | ev :: q =>
          let e1 := e <| chq := q |> in
          match ev with
          | ESenderDropped p => match lookup p (handles e) with Some h => set_handle e1 p (h <| h_tx := Gone |>) | None => e1 end
          | EReceiverDropped p => match lookup p (handles e) with Some h => set_handle e1 p (h <| h_rx := Gone |>) | None => e1 end
          | EReceiverClosed p => match lookup p (handles e) with Some h => set_handle e1 p (h <| h_rxc := Gone |>) | None => e1 end
          | EAccepted _ r | ERejected r _ => e1 <| requests := remove r (requests e1) |>
          | _ => e1
          end
      | [] => e
      end
  | DConn => e <| cq := tl (cq e) |>
  | Recv _ _ => e <| mx := recv_mux e |>
  | _ => e
  end.

Lemma step_pre e a e' : step_opt e a = Some e' -> is_disp a = true ->
  exists ev, disp_ev e a = Some ev /\ e' = finish (pre_finish e a) (handle_event (mx e) ev) /\ goodbye_sent (mx e) = false.
Proof.
  intros H Ha. destruct a; try discriminate; open_step H; unfold sending in H; cbn [disp_ev pre_finish];
    destruct (goodbye_sent (mx e)); cbn [negb andb] in H; try discriminate.
  - destruct (chq e) as [|ev q]; [discriminate|]. inj H. exists ev. auto.
  - destruct (cq e) as [|ev q]; [discriminate|]. inj H. exists ev. auto.
  - cases. inj H. eexists. auto.
  - cases. inj H. eexists. auto.
Qed.
Lemma step_pre_recv e m n e' : step_opt e (Recv m n) = Some e' ->
  e' = finish (pre_finish e (Recv m n)) (handle_received (recv_mux e) m n).
Proof. intros H. open_step H. inj H. reflexivity. Qed.

Lemma pre_finish_same e a :
  sent (pre_finish e a) = sent e /\ dead (pre_finish e a) = dead e /\ clients_alive (pre_finish e a) = clients_alive e /\
  listener_alive (pre_finish e a) = listener_alive e /\ mx (pre_finish e a) = if is_recv a then recv_mux e else mx e.
Proof.
  destruct a; cbn [pre_finish is_recv]; auto.
  destruct (chq e) as [|ev q]; [auto|]. destruct ev as [| | | | | |p|p|p| | |]; try destruct (lookup p (handles e)); prj; auto.
Qed.
Lemma pre_finish_chq e a : chq (pre_finish e a) = match a with DPort => tl (chq e) | _ => chq e end.
Proof.
  destruct a; cbn [pre_finish]; try reflexivity.
  destruct (chq e) as [|ev q] eqn:Eq; [now rewrite ?Eq|]. destruct ev as [| | | | | |p|p|p| | |]; try destruct (lookup p (handles e)); reflexivity.
Qed.
Lemma pre_finish_cq e a : cq (pre_finish e a) = match a with DConn => tl (cq e) | _ => cq e end.
Proof.
  destruct a; cbn [pre_finish]; try reflexivity.
  destruct (chq e) as [|ev q] eqn:Eq; [now rewrite ?Eq|]. destruct ev as [| | | | | |p|p|p| | |]; try destruct (lookup p (handles e)); reflexivity.
Qed.

Lemma handle_event_no_proto m ev : match handle_event m ev with Proto _ _ => False | _ => True end.
Proof.
  destruct ev; try rewrite ins_ports_eq; cbn [handle_event];
    repeat match goal with
    | |- match (match ?x with _ => _ end) with _ => _ end => destruct x
    | |- match (if ?x then _ else _) with _ => _ end => destruct x
    | |- match (let (_, _) := ?x in _) with _ => _ end => destruct x
    end; exact I.
Qed.

Lemma step_done e a e' : step_opt e a = Some e' -> is_disp a = true -> panicked e' = None ->
  exists ev m effs, disp_ev e a = Some ev /\ handle_event (mx e) ev = Done m effs /\ e' = finish (pre_finish e a) (Done m effs) /\
    mx e' = m /\ chq e' = chq (pre_finish e a) /\ sent e' = sent e ++ emits effs /\ dead e' = dead e.
Proof.
  intros H Ha Hp. destruct (step_pre _ _ _ H Ha) as (ev & Hev & E & _). exists ev.
  pose proof (handle_event_no_proto (mx e) ev) as Hn. destruct (handle_event (mx e) ev) as [m effs|err effs|s]; [|contradiction|subst; discriminate].
  exists m, effs. split; [exact Hev|split; [reflexivity|split; [exact E|]]]. subst e'.
  destruct (finish_Done_view (pre_finish e a) m effs) as (F1 & F2 & F3 & F4). destruct (pre_finish_same e a) as (S1 & S2 & _).
  rewrite F1, F2, F3, F4, S1, S2. auto.
Qed.

Lemma recv_mux_view e : ports (recv_mux e) = ports (mx e) /\ outstanding (recv_mux e) = outstanding (mx e).
Proof. unfold recv_mux. destruct (listener_alive e); prj; auto. Qed.

Definition recv_view (e e' : ep) (m : msg) (n : N) : Prop :=
  match handle_received (recv_mux e) m n with
  | Done m' effs => mx e' = m' /\ chq e' = chq e /\ sent e' = sent e /\ dead e' = dead e
  | Proto err _ => dead e' = Some err
  | Panic s => panicked e' = Some s
  end.

Lemma hr_no_emit m msg n : emits (effs_of (handle_received m msg n)) = [].
Proof.
  destruct msg; try rewrite hr_PortData; cbn [handle_received];
    repeat match goal with
    | |- context [match ?x with _ => _ end] => destruct x eqn:?
    end; cbn [effs_of emits]; try reflexivity;
    repeat match goal with Hm : maybe_free _ _ = Some (_, _) |- _ => apply maybe_free_effs in Hm as [->| ->] end; reflexivity.
Qed.

Lemma view_Recv e m n e' : step_opt e (Recv m n) = Some e' -> recv_view e e' m n.
Proof.
  intros H. apply step_pre_recv in H. subst e'. unfold recv_view.
  pose proof (hr_no_emit (recv_mux e) m n) as He.
  destruct (handle_received (recv_mux e) m n) as [m' effs|err effs|s]; cbn [effs_of] in He; [|reflexivity|reflexivity].
  destruct (finish_Done_view (pre_finish e (Recv m n)) m' effs) as (F1 & F2 & F3 & F4).
  rewrite F1, F2, F3, F4, He, app_nil_r. auto.
Qed.

Lemma step_dead_mono e a : dead (step e a) = None -> dead e = None.
Proof.
  unfold step. destruct (step_opt e a) eqn:E; [|auto]. intros H.
  destruct (dead e) eqn:Ed; [|reflexivity]. rewrite dead_absorbing in E; [discriminate|congruence].
Qed.

(** [P] before and [Q] after a step of the composition do not care which endpoint is called A: it is enough to look at
    a local step of the first endpoint and at a delivery to the second *)
Lemma nstep_cases (P Q : ep -> ep -> list frame -> list frame -> Prop) :
  (forall X Y L L', P X Y L L' -> P Y X L' L) -> (forall X Y L L', Q X Y L L' -> Q Y X L' L) ->
  (forall X Y L L', P X Y L L' -> Q X Y L L') ->
  (forall X Y L L' a X', P X Y L L' -> is_recv a = false -> step_opt X a = Some X' -> Q X' Y (L ++ new_frames X X') L') ->
  (forall X Y m pl L0 L' Y', P X Y ((m, pl) :: L0) L' -> step_opt Y (Recv m (paylen_of pl)) = Some Y' -> Q X Y' L0 L') ->
  forall n a, P (na n) (nb n) (lab n) (lba n) ->
    Q (na (nstep n a)) (nb (nstep n a)) (lab (nstep n a)) (lba (nstep n a)).
Proof.
  intros Psym Qsym Hnop Hloc Hrcv n a H.
  assert (Hl : forall X Y L L' a, P X Y L L' -> is_recv a = false -> Q (step X a) Y (L ++ new_frames X (step X a)) L').
  { intros X Y L L' a0 HP Hr. unfold step. destruct (step_opt X a0) eqn:E; [eauto|].
    unfold new_frames. rewrite skipn_all, app_nil_r. auto. }
  destruct a as [[|] a|[|]]; cbn [nstep].
  - destruct (is_recv a) eqn:Er; [auto|]. cbn. auto.
  - destruct (is_recv a) eqn:Er; [auto|]. cbn. auto.
  - destruct (lab n) as [|[m pl] l] eqn:El; [rewrite El; auto|].
    destruct (step_opt (nb n) (Recv m (paylen_of pl))) eqn:E; [cbn; eauto|rewrite El; auto].
  - destruct (lba n) as [|[m pl] l] eqn:El; [rewrite El; auto|].
    destruct (step_opt (na n) (Recv m (paylen_of pl))) eqn:E; [cbn; eauto|rewrite El; auto].
Qed.
