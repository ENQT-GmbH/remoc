(** What one step does to the port table, the allocator and the reply cells of local connect requests; an endpoint
    step is a "user part" or a "dispatcher outcome" handed to [finish]. *)
From Remoc Require Import Lib.Base Gen.Consts Chmux.Wire Chmux.Mux Chmux.Endpoint Chmux.EndpointLemmas Chmux.EndpointInv
  Chmux.EndpointSteps.
From RecordUpdate Require Import RecordUpdate.

Definition effs_of (o : outcome) : list eff :=
  match o with Done _ effs => effs | Proto _ effs => effs | Panic _ => [] end.

(** the mux a dispatcher function runs on: for a received message the occupancy of a closed
    listener queue counts as 0 ([Endpoint.step_opt], [Recv]) *)
Definition disp_mux (e : ep) (a : act) : mux :=
  match a with
  | Recv _ _ => if listener_alive e then mx e else mx e <| lq_wait := 0 |> <| lq_nowait := 0 |>
  | _ => mx e
  end.
Lemma disp_mux_same e a :
  ports (disp_mux e a) = ports (mx e) /\ remote_listener_dropped (disp_mux e a) = remote_listener_dropped (mx e) /\
  goodbye_sent (disp_mux e a) = goodbye_sent (mx e) /\ goodbye_received (disp_mux e a) = goodbye_received (mx e).
Proof. destruct a; cbn [disp_mux]; auto. destruct (listener_alive e); auto. Qed.

(** the outcome of the dispatcher function run by a step (none for user / helper-task actions) *)
Definition disp_outcome (e : ep) (a : act) : option outcome :=
  match a with
  | DPort => match chq e with ev :: _ => Some (handle_event (mx e) ev) | [] => None end
  | DConn => match cq e with ev :: _ => Some (handle_event (mx e) ev) | [] => None end
  | DListenerDropped => Some (handle_event (mx e) EListenerDropped)
  | DGoodbye => Some (handle_event (mx e) EGoodbye)
  | Recv m n => Some (handle_received (disp_mux e a) m n)
  | _ => None
  end.

Ltac crunch H :=
  repeat match type of H with
  | context [match ?x with _ => _ end] => let E := fresh "E" in destruct x eqn:E; try discriminate
  end.

(** to split a step or handler function on the goal rather than in a hypothesis, which every branch would carry along *)
Ltac crunch_goal :=
  repeat match goal with |- match (match ?x with _ => _ end) with _ => _ end => let E := fresh "E" in destruct x eqn:E end.
Lemma some_elim {A} (o : option A) (C : A -> Prop) : match o with Some x => C x | None => True end -> forall x, o = Some x -> C x.
Proof. intros H x ->. exact H. Qed.
Lemma done_elim (o : outcome) (C : mux -> list eff -> Prop) :
  match o with Done m effs => C m effs | _ => True end -> forall m effs, o = Done m effs -> C m effs.
Proof. intros H m effs ->. exact H. Qed.
Lemma done_intro (o : outcome) (C : mux -> list eff -> Prop) :
  (forall m effs, o = Done m effs -> C m effs) -> match o with Done m effs => C m effs | _ => True end.
Proof. intros H. destruct o; auto. Qed.

Lemma some_pair_inj {A B} (a c : A) (b d : B) : Some (a, b) = Some (c, d) -> a = c /\ b = d.
Proof. intros H. injection H. auto. Qed.
Lemma done_inj m effs m' effs' : Done m effs = Done m' effs' -> m = m' /\ effs = effs'.
Proof. intros H. injection H. auto. Qed.

Lemma ins_ports_keeps : forall ps pt pt' p s,
  ins_ports ps pt = Some pt' -> lookup p pt = Some s -> lookup p pt' = Some s.
Proof.
  induction ps as [|[[k id] req] ps IH]; intros pt pt' p s H Hl; cbn [ins_ports] in H.
  - now injection H as <-.
  - destruct (lookup k pt) eqn:Ek; [discriminate|]. eapply IH; [exact H|].
    rewrite lookup_insert. destruct (p =? k) eqn:E; [|exact Hl]. apply N.eqb_eq in E. subst. congruence.
Qed.

Definition freed_by (m m' : mux) (effs : list eff) (p : N) (c : conn) : Prop :=
  lookup p (ports m') = None /\ In (DropNumber p) effs /\
  exists c', all4 c' = true /\ remote c' = remote c /\
             maybe_free (m <| ports := insert p (Connected c') (ports m) |>) p = Some (m', [DropNumber p]).

Ltac free_auto Hl Hn :=
  prj; rewrite ?lookup_insert, ?lookup_remove in Hn;
  repeat match type of Hn with
  | context [?a =? ?b] =>
      let E := fresh "E" in destruct (a =? b) eqn:E; [apply N.eqb_eq in E; subst|apply N.eqb_neq in E]
  end; rewrite ?Hl in Hn; try discriminate; try congruence.

(** the only way a connected entry leaves the table *)
Lemma upd_free_freed m k ck pre m' effs p c :
  upd_free m k ck pre = Done m' effs -> lookup p (ports m) = Some (Connected c) ->
  (k = p -> remote ck = remote c) ->
  is_connected (lookup p (ports m')) = false -> freed_by m m' effs p c.
Proof.
  rewrite upd_free_all4. intros H Hl Hr Hn. destruct (all4 ck) eqn:Ea; apply done_inj in H as [<- <-];
    cbn [ports set RecordSet.set] in Hn; rewrite ?lookup_remove, ?lookup_insert in Hn;
    destruct (N.eqb_spec p k) as [<-|]; try (rewrite Hl in Hn; discriminate); try discriminate.
  unfold freed_by. cbn [ports set RecordSet.set]. rewrite lookup_remove, N.eqb_refl.
  split; [reflexivity|]. split; [apply in_or_app; right; now left|].
  exists ck. split; [exact Ea|]. split; [now apply Hr|].
  unfold maybe_free. cbn [ports set RecordSet.set]. rewrite lookup_insert, N.eqb_refl. fold (all4 ck). now rewrite Ea.
Qed.

Lemma he_free m ev m' effs p c :
  handle_event m ev = Done m' effs -> lookup p (ports m) = Some (Connected c) ->
  is_connected (lookup p (ports m')) = false -> freed_by m m' effs p c.
Proof.
  intros H Hl. revert m' effs H.
  refine (done_elim _ _ _).
  destruct ev; rewrite ?he_SenderDropped, ?he_ReceiverDropped, ?ins_ports_eq; cbn [handle_event].
  5: { destruct (ins_ports ps (ports m)) as [pt|] eqn:Ei; [|exact I]. prj. intros Hn.
       rewrite (ins_ports_keeps _ _ _ _ _ Ei Hl) in Hn. discriminate. }
  all: crunch_goal; try exact I;
    cbv beta; try (intros Hn; free_auto Hl Hn; fail).
  all: apply done_intro; intros m2 effs2 Hu Hn.
  all: eapply upd_free_freed; eauto; intros ->; cbn [remote set RecordSet.set]; congruence.
Qed.

Lemma hr_free m msg n m' effs p c :
  handle_received m msg n = Done m' effs -> lookup p (ports m) = Some (Connected c) ->
  is_connected (lookup p (ports m')) = false -> freed_by m m' effs p c.
Proof.
  intros H Hl. revert m' effs H.
  refine (done_elim _ _ _).
  destruct msg; rewrite ?hr_PortData, ?hr_SendFinish, ?hr_ReceiveClose, ?hr_ReceiveFinish; cbn [handle_received]; try exact I;
    crunch_goal; try exact I; cbv beta;
    repeat match goal with |- context [if ?b then _ else _] => destruct b end;
    try (intros Hn; free_auto Hl Hn; fail).
  all: apply done_intro; intros m2 effs2 Hu Hn.
  all: eapply upd_free_freed; eauto; intros ->; cbn [remote set RecordSet.set]; congruence.
Qed.

Lemma maybe_free_effs m p m' effs : maybe_free m p = Some (m', effs) -> effs = [] \/ effs = [DropNumber p].
Proof.
  unfold maybe_free. destruct (lookup p (ports m)) as [[|c]|]; try discriminate.
  destruct (_ && _); intros H; apply some_pair_inj in H as [_ <-]; auto.
Qed.

Lemma upd_free_respond m p c' pre req r : In (Respond req r) (effs_of (upd_free m p c' pre)) -> In (Respond req r) pre.
Proof.
  destruct (upd_free_Done m p c' pre) as (m' & effs & -> & Hf). intros H. now destruct (Hf _ H) as [|[=]].
Qed.

(** the handlers that answer no connect request *)
Ltac no_respond :=
  repeat match goal with |- context [match ?x with _ => _ end] => destruct x end;
  try (let H := fresh in intros H; apply upd_free_respond in H; revert H);
  cbn [effs_of In]; let H := fresh in intros H; repeat (destruct H as [H|H]; [discriminate|]); destruct H.

Lemma he_respond m ev req r :
  In (Respond req r) (effs_of (handle_event m ev)) ->
  exists p id w, ev = EConnectReq p id w req /\ remote_listener_dropped m = true /\ r = RRejected false.
Proof.
  destruct ev; rewrite ?ins_ports_eq, ?he_SenderDropped, ?he_ReceiverDropped; cbn [handle_event].
  2-12: intros H; exfalso; revert H; no_respond.
  destruct (remote_listener_dropped m); cbn [negb]; [|no_respond].
  cbn [effs_of In]. intros [[= <- <-]|[[=]|[]]]. eauto 10.
Qed.

Lemma hr_respond m msg n req r :
  In (Respond req r) (effs_of (handle_received m msg n)) ->
  (exists p np, msg = Rejected p np /\ lookup p (ports m) = Some (Connecting req) /\ r = RRejected np) \/
  (exists p q, msg = PortOpened p q /\ lookup p (ports m) = Some (Connecting req) /\ r = RAccepted p q /\
               handle_received m msg n =
               Done (m <| ports := insert p (Connected (new_conn m q)) (ports m) |>)
                    [NewPort p q; Respond req (RAccepted p q)]).
Proof.
  destruct msg; [| | | | | | |rewrite hr_PortData| |rewrite hr_SendFinish|rewrite hr_ReceiveClose|rewrite hr_ReceiveFinish| | |];
    cbn [handle_received].
  5: { destruct (lookup client_port (ports m)) as [[rq|c]|] eqn:El; [|no_respond..].
       cbn [effs_of In]. intros [[=]|[[= <- <-]|[]]]. right. eauto 10. }
  5: { destruct (lookup client_port (ports m)) as [[rq|c]|] eqn:El; [|no_respond..].
       cbn [effs_of In]. intros [[= <- <-]|[[=]|[]]]. left. eauto 10. }
  all: intros H; exfalso; revert H; no_respond.
Qed.

Lemma apply_effs_connects effs : forall e req s,
  lookup req (connects (apply_effs e effs)) = Some s ->
  lookup req (connects e) = Some s \/ exists r, In (Respond req r) effs /\ s = CResolved r.
Proof.
  induction effs as [|f effs IH]; intros e req s H; cbn [apply_effs] in H; [now left|].
  apply IH in H as [H|(r & Hr & ->)]; [|right; exists r; split; [now right|reflexivity]].
  destruct f; prj; auto; try (destruct (listener_alive e); prj; auto; fail).
  rewrite lookup_insert in H. destruct (req =? req0) eqn:E; [|now left].
  apply N.eqb_eq in E. subst req0. injection H as <-. right. exists r. split; [now left|reflexivity].
Qed.
Lemma apply_effs_connects_keep effs : forall e req,
  (forall r, ~ In (Respond req r) effs) -> lookup req (connects (apply_effs e effs)) = lookup req (connects e).
Proof.
  induction effs as [|f effs IH]; intros e req H; cbn [apply_effs]; [reflexivity|].
  rewrite IH by (intros r Hr; apply (H r); now right).
  destruct f; prj; auto; try (destruct (listener_alive e); prj; auto; fail).
  rewrite lookup_insert. destruct (req =? req0) eqn:E; [|reflexivity].
  apply N.eqb_eq in E. subst req0. exfalso. apply (H r). now left.
Qed.
Lemma apply_effs_dropped effs : forall e p, In (DropNumber p) effs -> ~ In p (alloc (apply_effs e effs)).
Proof.
  induction effs as [|f effs IH]; intros e p H; cbn [apply_effs]; [contradiction|].
  destruct H as [->|H]; [|now apply IH].
  intros Hin. apply apply_effs_alloc_sub in Hin. prj. apply In_del in Hin. tauto.
Qed.

Lemma step_disp e a e' o :
  step_opt e a = Some e' -> disp_outcome e a = Some o ->
  exists e1, e' = finish e1 o /\ mx e1 = disp_mux e a /\ alloc e1 = alloc e /\ connects e1 = connects e /\
             dead e1 = dead e /\ panicked e1 = panicked e.
Proof.
  destruct a; cbn [disp_outcome]; try (intros _ [=]; fail); unfold step_opt; (destruct (negb (alive e)); [discriminate|]).
  - destruct (negb (sending e)); [discriminate|]. destruct (chq e) as [|ev q]; [discriminate|].
    intros H1 H2. inj H1. inj H2. eexists. split; [reflexivity|].
    destruct ev; try destruct (lookup p (handles e)); prj; auto 10.
  - destruct (negb (sending e)); [discriminate|]. destruct (cq e) as [|ev q]; [discriminate|].
    intros H1 H2. inj H1. inj H2. eexists. split; [reflexivity|]. prj. auto 10.
  - destruct (_ && _); [|discriminate]. intros H1 H2. inj H1. inj H2. eexists. split; [reflexivity|]. auto 10.
  - destruct (_ && _); [|discriminate]. intros H1 H2. inj H1. inj H2. eexists. split; [reflexivity|]. auto 10.
  - cbv zeta. intros H1 H2. inj H1. inj H2. eexists. split; [reflexivity|]. prj. auto 10.
Qed.

Lemma step_user e a e' :
  step_opt e a = Some e' -> disp_outcome e a = None ->
  (dead e' = dead e /\ goodbye_sent (mx e') = goodbye_sent (mx e) /\ goodbye_received (mx e') = goodbye_received (mx e)) /\
  (forall x, In x (alloc e) -> In x (alloc e')) /\
  (forall p c, lookup p (ports (mx e)) = Some (Connected c) -> is_connected (lookup p (ports (mx e'))) = true) /\
  (forall req s, lookup req (connects e) = Some s -> lookup req (connects e') = Some s).
Proof.
  intros H Hd. revert e' H. apply some_elim. destruct a; cbn [disp_outcome] in Hd; try discriminate;
    unfold step_opt; (destruct (negb (alive e)); [exact I|]);
    crunch_goal; try exact I; try discriminate;
    try (prj; repeat split; auto; intros ? ? Hl; rewrite Hl; reflexivity).
  all: prj; repeat split; auto.
  all: try (destruct wait; reflexivity).
  all: try (intros x Hx; now right).
  all: try (intros x Hx; apply in_or_app; now right).
  all: try (intros p0 c0 Hl; rewrite ?lookup_insert; try destruct (p0 =? p); try reflexivity; now rewrite Hl).
  - (* UConnect: the request id is unused, so no existing cell is overwritten *)
    intros r0 s Hs. rewrite lookup_insert. destruct (r0 =? req) eqn:E0; [|exact Hs].
    apply N.eqb_eq in E0. subst r0. bools. rewrite Hs in H0. discriminate.
  - (* USendPorts: likewise for every id of the batch *)
    intros r0 s Hs. rewrite lookup_fold_insert. destruct (mem r0 (map (fun x => snd x) ps)) eqn:Em; [|exact Hs].
    bools. rewrite forallb_forall in H1. apply mem_In in Em. specialize (H1 _ Em). rewrite Hs in H1. discriminate.
  - intros px cx Hl. destruct wait; prj; now rewrite Hl.
  - intros px cx Hl. rewrite lookup_insert. destruct (px =? p); [reflexivity|now rewrite Hl].
Qed.
