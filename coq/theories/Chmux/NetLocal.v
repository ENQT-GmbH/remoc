(** The composed invariant [Core] is kept by each kind of change one endpoint X makes on its own (link [L]
    leaves X): a frame appended to [L] -- an announcement for a port, a release, a connect request, an accept, a
    reject, a frame that addresses no port -- or a change of an entry or of the event queue that emits nothing. *)
From Remoc Require Import Lib.Base Chmux.Wire Chmux.Mux Chmux.EndpointLemmas Chmux.EndpointInv Chmux.Net Chmux.NetInv
  Chmux.NetFrame Chmux.NetLocal2.

Lemma m_intro_false x m : m_intro x m = false -> m_reqn x m = 0 /\ m_srv x m = false.
Proof.
  unfold m_intro. intros H. apply orb_false_iff in H as [H1 H2]. split; [|exact H2]. apply N.ltb_ge in H1. lia.
Qed.
Lemma m_pox_srv y x m : m_pox y x m = true -> m_srv x m = true.
Proof. destruct m; cbn [m_pox m_srv]; try discriminate. intros H. apply andb_true_iff in H. tauto. Qed.
Lemma cnt_pox_snoc_nosrv y x L fr : m_srv x (fst fr) = false -> cnt (m_pox y x) (L ++ [fr]) = cnt (m_pox y x) L.
Proof.
  intros H. rewrite cnt_snoc. destruct (m_pox y x (fst fr)) eqn:E; [|cbn [b2n]; lia]. apply m_pox_srv in E. congruence.
Qed.
Lemma pstat_snoc_nosrv PY L fr y x : m_srv x (fst fr) = false -> pstat PY (L ++ [fr]) y x = pstat PY L y x.
Proof. intros H. apply pstat_link. now apply cnt_pox_snoc_nosrv. Qed.
Lemma cnt_pox_cons_nosrv y x L fr : m_srv x (fst fr) = false -> cnt (m_pox y x) (fr :: L) = cnt (m_pox y x) L.
Proof.
  intros H. rewrite cnt_cons. destruct (m_pox y x (fst fr)) eqn:E; [|cbn [b2n]; lia]. apply m_pox_srv in E. congruence.
Qed.

Lemma live_partner PY PX OY L' L x c :
  rx_clause PY PX OY L' L x -> lookup x PX = Some (Connected c) ->
  tx_dropped c = false \/ rx_dropped c = false ->
  pstat PY L (remote c) x <> PGone.
Proof.
  unfold rx_clause. intros H Hl Hlive. rewrite Hl in H. destruct H as (_ & _ & _ & _ & Hr & _). intros Hg.
  destruct (r_gone _ _ _ _ Hr Hg) as [G1 G2]. destruct Hlive; congruence.
Qed.

Lemma rx_y_snoc PX PX' PY OX OY L L' x c c' fr y :
  rx_clause PX PY OX L L' y -> rx_clause PY PX OY L' L x -> inj_ok PX ->
  lookup x PX = Some (Connected c) -> remote c = y -> tx_dropped c = false \/ rx_dropped c = false ->
  lookup x PX' = Some (Connected c') -> remote c' = y ->
  m_po y (fst fr) = false -> m_rj y (fst fr) = false ->
  (forall cY, rcl cY (PLive c) y L -> rcl cY (PLive c') y (L ++ [fr])) ->
  rx_clause PX' PY OX (L ++ [fr]) L' y.
Proof.
  intros Hy Hx Hinj Hl Hr Hlive Hl' Hr' Hpo Hrj Hstep.
  pose proof (live_partner _ _ _ _ _ _ _ Hx Hl Hlive) as Hng. rewrite Hr in Hng.
  assert (Ppo : cnt (m_po y) (L ++ [fr]) = cnt (m_po y) L) by (rewrite cnt_snoc, Hpo; apply N.add_0_r).
  assert (Prj : cnt (m_rj y) (L ++ [fr]) = cnt (m_rj y) L) by (rewrite cnt_snoc, Hrj; apply N.add_0_r).
  assert (Ppox : forall x0, cnt (m_pox y x0) (L ++ [fr]) = cnt (m_pox y x0) L).
  { intros x0. rewrite cnt_snoc. destruct (m_pox y x0 (fst fr)) eqn:E; [|apply N.add_0_r]. apply m_pox_po in E. congruence. }
  assert (Plive : pstat PX L' x y = PLive c) by (apply pstat_live_intro; auto).
  assert (Plive' : pstat PX' L' x y = PLive c') by (apply pstat_live_intro; auto).
  unfold rx_clause in *. unfold pstat in Hng. destruct (lookup y PY) as [[r|cY]|]; [| |congruence].
  - (* Connecting: our PortOpened is still in flight *)
    destruct (0 <? cnt (m_pox y x) L) eqn:Epo; [|congruence]. apply N.ltb_lt in Epo.
    destruct Hy as (H1 & H2 & H3 & H4). rewrite Ppo, Prj.
    split; [exact H1|split; [|split]].
    + apply nafter_snoc_other; assumption.
    + intros H0. pose proof (cnt_pox_le_po y x L) as Hle. clear - H0 Hle Epo. lia.
    + intros x0 Hx0. rewrite Ppox in Hx0. destruct (H4 x0 Hx0) as (c0 & P1 & P2).
      apply pstat_live in P1 as [P1 P1r].
      assert (x0 = x) by (eapply Hinj; eauto; congruence). subst x0.
      assert (c0 = c) by congruence. subst c0. exists c'. split; [exact Plive'|]. now apply Hstep.
  - destruct (remote cY =? x) eqn:Ex; [|congruence]. apply N.eqb_eq in Ex.
    destruct Hy as (H1 & H2 & H3 & H4 & H5 & H6). rewrite Ppo, Prj, Ex in *. rewrite Plive in H5. rewrite Plive'.
    split; [exact H1|split; [exact H2|split; [exact H3|split; [exact H4|split]]]].
    + now apply Hstep.
    + discriminate.
Qed.

Lemma rx_x_upd PY PX PX' OY L' L L2 x c c' :
  rx_clause PY PX OY L' L x -> lookup x PX = Some (Connected c) ->
  tx_dropped c = false \/ rx_dropped c = false ->
  lookup x PX' = Some (Connected c') -> remote c' = remote c ->
  rx_open c' = rx_open c -> rrx_closed c' = rrx_closed c -> rrx_dropped c' = rrx_dropped c ->
  reqcount x L2 = reqcount x L -> pstat PY L2 (remote c) x = pstat PY L (remote c) x ->
  rx_clause PY PX' OY L' L2 x.
Proof.
  intros Hx Hl Hlive Hl' Er E1 E2 E3 Eq Ep. pose proof (live_partner _ _ _ _ _ _ _ Hx Hl Hlive) as Hng.
  unfold rx_clause in *. rewrite Hl in Hx. rewrite Hl'. destruct Hx as (H1 & H2 & H3 & H4 & H5 & H6).
  rewrite Er, Eq, Ep. split; [exact H1|split; [exact H2|split; [exact H3|split; [exact H4|split]]]].
  - destruct H5 as [R1 R2 R3 R4 R5 R6 R7 R8 R9 R10]. constructor; rewrite ?E1, ?E2, ?E3; auto; intros Hg; congruence.
  - intros Hg. congruence.
Qed.

Lemma rx_new_connecting PY PX PX' OY L' L L2 p r :
  rx_clause PY PX OY L' L p -> lookup p PX = None -> lookup p PX' = Some (Connecting r) ->
  reqcount p L2 = reqcount p L + 1 ->
  rx_clause PY PX' OY L' L2 p.
Proof.
  intros Hx Hl Hl' Eq. unfold rx_clause in *. rewrite Hl in Hx. rewrite Hl'. destruct Hx as (H1 & H2 & H3).
  rewrite cnt_addr_split in H1. rewrite Eq, H2, H3. cbn [b2n]. split; [lia|split; [|split]].
  - apply nafter_g0. lia.
  - intros _. lia.
  - intros x Hx. pose proof (cnt_pox_le_po p x L'). lia.
Qed.

(** the receiver's accounting when X's end goes from [c] to [c'] and announces it by [fr]: a finish or close frame goes
    with the flag it announces, data needs a live sender, credits a live receiver *)
Lemma rcl_snoc cY c c' y L fr :
  b2n (m_sf y (fst fr)) + b2n (tx_dropped c) = b2n (tx_dropped c') ->
  b2n (m_rf y (fst fr)) + b2n (rx_dropped c) = b2n (rx_dropped c') ->
  b2n (m_rc y (fst fr)) + b2n (rx_closed c || rx_dropped c) <= b2n (rx_closed c' || rx_dropped c') ->
  (m_data y (fst fr) = true -> tx_dropped c = false) ->
  (m_credrc y (fst fr) = true -> rx_dropped c = false) ->
  rcl cY (PLive c) y L -> rcl cY (PLive c') y (L ++ [fr]).
Proof.
  intros A1 A2 A3 A4 A5 [R1 R2 R3 R4 R5 R6 R7 R8 R9 R10]. cbn [txf rxf rxcf] in *.
  constructor; cbn [txf rxf rxcf]; rewrite ?cnt_snoc; try discriminate.
  - clear - R1 A1. lia.
  - clear - R2 A2. lia.
  - clear - R3 A3. lia.
  - apply nafter_snoc; [exact R4|]. intros E. rewrite (A4 E) in R1. clear - R1. cbn [b2n] in R1. lia.
  - intros E. destruct (m_data y (fst fr)); [|now rewrite (R5 E)].
    rewrite (A4 eq_refl), E in R1. clear - R1. cbn [negb b2n] in R1. lia.
  - apply nafter_snoc; [exact R6|]. intros E. rewrite (A5 E) in R2. clear - R2. cbn [b2n] in R2. lia.
  - intros E. destruct (m_credrc y (fst fr)); [|now rewrite (R7 E)].
    rewrite (A5 eq_refl), E in R2. clear - R2. cbn [b2n] in R2. lia.
  - exact R10.
Qed.

(** frames of an established connection: they answer no request and open no port *)
Definition m_port (m : msg) : bool :=
  match m with
  | Data _ _ _ | PortData _ _ _ _ _ _ | PortCredits _ _ | SendFinish _ | ReceiveClose _ | ReceiveFinish _ => true
  | _ => false
  end.
Lemma m_port_spec m : m_port m = true -> forall k, m_po k m = false /\ m_rj k m = false /\ m_srv k m = false /\ m_bad m = false.
Proof. destruct m; try discriminate; auto. Qed.

(** X's port [x] goes from [c] to [c'] and announces it by a frame [fr] for its remote port; the
    frame may carry requests for fresh numbers [ps], which become [Connecting] *)
Section Emit.
  Variables (PX PX' PY : list (N * pstate)) (OX OY : list N) (QX QX' QY : list evt) (L L' : list frame).
  Variables (x : N) (c c' : conn) (fr : frame) (ps : list N).
  Hypothesis HC : Core PX PY OX OY QX QY L L'.
  Hypothesis Hl : lookup x PX = Some (Connected c).
  Hypothesis Hlive : tx_dropped c = false \/ rx_dropped c = false.
  Hypothesis K1 : lookup x PX' = Some (Connected c').
  Hypothesis K2 : forall k, k <> x -> mem k ps = false -> lookup k PX' = lookup k PX.
  Hypothesis K3 : forall k, mem k ps = true -> lookup k PX = None /\ exists r, lookup k PX' = Some (Connecting r).
  Hypothesis K4 : forall k, m_reqn k (fst fr) = b2n (mem k ps).
  Hypothesis Er : remote c' = remote c.
  Hypothesis E1 : rx_open c' = rx_open c.
  Hypothesis E2 : rrx_closed c' = rrx_closed c.
  Hypothesis E3 : rrx_dropped c' = rrx_dropped c.
  Hypothesis Ht : m_target (fst fr) = Some (remote c).
  Hypothesis Hp : m_port (fst fr) = true.
  Hypothesis A1 : b2n (m_sf (remote c) (fst fr)) + b2n (tx_dropped c) = b2n (tx_dropped c').
  Hypothesis A2 : b2n (m_rf (remote c) (fst fr)) + b2n (rx_dropped c) = b2n (rx_dropped c').
  Hypothesis A3 : b2n (m_rc (remote c) (fst fr)) + b2n (rx_closed c || rx_dropped c) <= b2n (rx_closed c' || rx_dropped c').
  Hypothesis A4 : m_data (remote c) (fst fr) = true -> tx_dropped c = false.
  Hypothesis A5 : m_credrc (remote c) (fst fr) = true -> rx_dropped c = false.
  Hypothesis Hch : chq_ok PX' QX'.

  Lemma emit_x_not_ps : mem x ps = false.
  Proof. destruct (mem x ps) eqn:E; [|reflexivity]. destruct (K3 _ E) as [H _]. congruence. Qed.

  Lemma emit_conn : conn_le PX' PX.
  Proof.
    intros k d' H. destruct (N.eq_dec k x) as [->|Hne].
    - exists c. split; [exact Hl|]. rewrite K1 in H. injection H as <-. congruence.
    - destruct (mem k ps) eqn:E.
      + destruct (K3 _ E) as (_ & r & Hk). congruence.
      + rewrite (K2 _ Hne E) in H. eauto.
  Qed.

  Lemma emit_pstat x0 y0 : y0 <> remote c \/ x0 <> x -> pstat PX' L' x0 y0 = pstat PX L' x0 y0.
  Proof.
    intros Hd. destruct (N.eq_dec x0 x) as [->|Hne].
    - destruct Hd as [Hd|Hd]; [|congruence]. rewrite (pstat_conn_other _ _ _ _ _ K1), (pstat_conn_other _ _ _ _ _ Hl); congruence.
    - destruct (mem x0 ps) eqn:E.
      + destruct (K3 _ E) as (Hn & r & Hk). rewrite (pstat_none _ _ _ _ Hn). apply (pstat_connecting_gone _ _ _ _ _ Hk).
        destruct (rx_none _ _ _ _ _ _ (c_yx _ _ _ _ _ _ _ _ HC x0) Hn) as (H1 & _). rewrite cnt_addr_split in H1. clear - H1. lia.
      + unfold pstat. now rewrite (K2 _ Hne E).
  Qed.

  Lemma core_emit : Core PX' PY OX OY QX' QY (L ++ [fr]) L'.
  Proof.
    pose proof HC as [Hxy Hyx Hix Hiy Hox Hoy Hcx Hcy Hbx Hby]. pose proof (m_port_spec _ Hp) as Hs. constructor; auto.
    - intros y0. destruct (N.eq_dec y0 (remote c)) as [->|Hne].
      + apply (rx_y_snoc PX PX' PY OX OY L L' x c c' fr _ (Hxy _) (Hyx x) Hix Hl eq_refl Hlive K1 Er); try apply Hs.
        intros cY. now apply rcl_snoc.
      + eapply rx_frame; [apply Hxy|reflexivity|apply same_for_snoc, (m_addr_other (remote c)); auto|reflexivity|reflexivity|].
        intros x0. apply pst_ok_eq. apply emit_pstat. auto.
    - intros x0. destruct (N.eq_dec x0 x) as [->|Hne].
      + eapply rx_x_upd; eauto; try congruence.
        * rewrite reqcount_snoc, K4, emit_x_not_ps. apply N.add_0_r.
        * apply pstat_snoc_nosrv. apply Hs.
      + destruct (mem x0 ps) eqn:E.
        * destruct (K3 _ E) as (Hn & r & Hk). eapply rx_new_connecting; eauto.
          rewrite reqcount_snoc, K4, E. reflexivity.
        * eapply rx_frame; [apply Hyx|apply (K2 _ Hne E)|apply same_for_refl|reflexivity| |].
          -- rewrite reqcount_snoc, K4, E. apply N.add_0_r.
          -- intros y0. apply pst_ok_eq. apply pstat_snoc_nosrv. apply Hs.
    - exact (inj_ok_le _ _ emit_conn Hix).
    - exact (out_ok_le _ _ _ _ emit_conn (fun _ E => E) Hox).
    - rewrite cnt_snoc, (proj2 (proj2 (proj2 (Hs 0)))), Hbx. reflexivity.
  Qed.
End Emit.

Lemma all4_spec c : all4 c = true -> tx_dropped c = true /\ rx_dropped c = true /\ rx_open c = false /\ rrx_dropped c = true.
Proof.
  unfold all4. intros H. apply andb_true_iff in H as [H H4]. apply andb_true_iff in H as [H H3]. apply andb_true_iff in H as [H1 H2].
  apply negb_true_iff in H3. auto.
Qed.

Lemma no_after_f0 {A} (f g : A -> bool) l : count f l = 0 -> no_after f g l.
Proof.
  induction l as [|a l IH]; [intros; exact I|]. rewrite count_cons. intros H. split.
  - intros Hf. rewrite Hf in H. cbn [b2n] in H. lia.
  - apply IH. lia.
Qed.

Lemma cnt_intro_zero PX PY OX OY L L' x c :
  (forall y, rx_clause PX PY OX L L' y) -> rx_clause PY PX OY L' L x ->
  lookup x PX = Some (Connected c) -> (forall r, lookup (remote c) PY <> Some (Connecting r)) ->
  cnt (m_intro x) L = 0.
Proof.
  intros Hxy Hx Hl Hnc. apply reqcount_intro.
  - unfold rx_clause in Hx. rewrite Hl in Hx. apply Hx.
  - destruct (N.eq_dec (cnt (m_srv x) L) 0) as [E|E]; [exact E|]. exfalso.
    destruct (cnt_srv_pox x L) as (y' & Hy'); [lia|].
    pose proof (cnt_pox_le_po y' x L). destruct (rx_po_connecting _ _ _ _ _ _ (Hxy y')) as (r & Hr); [lia|].
    pose proof (Hxy y') as Hc. unfold rx_clause in Hc. rewrite Hr in Hc. destruct Hc as (_ & _ & _ & H4).
    destruct (H4 x Hy') as (cX & P & _). apply pstat_live in P as [P1 P2]. assert (cX = c) by congruence. subst cX.
    apply (Hnc r). congruence.
Qed.

(** X releases its port [x] once all four directions are finished *)
Section Free.
  Variables (PX PX' PY : list (N * pstate)) (OX OY : list N) (QX QY : list evt) (L L' : list frame).
  Variables (x : N) (c : conn).
  Hypothesis HC : Core PX PY OX OY QX QY L L'.
  Hypothesis Hl : lookup x PX = Some (Connected c).
  Hypothesis Ha : all4 c = true.
  Hypothesis K1 : lookup x PX' = None.
  Hypothesis K2 : forall k, k <> x -> lookup k PX' = lookup k PX.

  Lemma free_pstat x0 y0 : x0 <> x \/ y0 <> remote c -> pstat PX' L' x0 y0 = pstat PX L' x0 y0.
  Proof.
    intros Hd. destruct (N.eq_dec x0 x) as [->|Hne].
    - destruct Hd as [Hd|Hd]; [congruence|]. rewrite (pstat_none _ _ _ _ K1), (pstat_conn_other _ _ _ _ _ Hl); congruence.
    - unfold pstat. now rewrite (K2 _ Hne).
  Qed.

  Lemma core_free : Core PX' PY OX OY QX QY L L'.
  Proof.
    pose proof HC as [Hxy Hyx Hix Hiy Hox Hoy Hcx Hcy Hbx Hby].
    destruct (all4_spec _ Ha) as (A1 & A2 & A3 & A4).
    destruct (rx_connected _ _ _ _ _ _ _ (Hyx x) Hl) as (X1 & X2 & X3 & X4 & X5 & X6).
    assert (Hle : conn_le PX' PX) by (apply (conn_le_other _ _ x K2); intros d; congruence).
    constructor; auto.
    - intros y0. destruct (N.eq_dec y0 (remote c)) as [->|Hne].
      2:{ eapply rx_frame; [apply Hxy|reflexivity|apply same_for_refl|reflexivity|reflexivity|].
          intros x0. apply pst_ok_eq, free_pstat. auto. }
      pose proof (Hxy (remote c)) as Hy. unfold rx_clause in *. destruct (lookup (remote c) PY) as [[r|cY]|] eqn:Ey.
      + (* Connecting: impossible to be waiting for us *)
        destruct Hy as (H1 & H2 & H3 & H4). split; [exact H1|split; [exact H2|split; [exact H3|]]].
        intros x0 Hx0. destruct (H4 x0 Hx0) as (cX & P1 & P2). exists cX. split; [|exact P2].
        rewrite free_pstat; [exact P1|]. left. intros ->. apply pstat_live in P1 as [P1 _]. assert (cX = c) by congruence. subst cX.
        assert (Hp : pstat PY L (remote c) x = PPend).
        { unfold pstat. rewrite Ey. apply N.ltb_lt in Hx0. now rewrite Hx0. }
        rewrite Hp in X5. pose proof (r_sf _ _ _ _ X5) as S. cbn [txf b2n] in S. rewrite A3 in S. cbn [negb b2n] in S. clear - S. lia.
      + destruct Hy as (H1 & H2 & H3 & H4 & H5 & H6).
        split; [exact H1|split; [exact H2|split; [exact H3|split; [exact H4|]]]].
        destruct (N.eq_dec (remote cY) x) as [Ex|Ex].
        2:{ rewrite free_pstat by auto. auto. }
        rewrite Ex in *. rewrite (pstat_none _ _ _ _ K1). rewrite (pstat_live_intro _ _ _ _ _ Hl eq_refl) in H5, H6.
        assert (Hp : pstat PY L (remote c) x = PLive cY) by (apply pstat_live_intro; auto).
        rewrite Hp in X5. pose proof (r_sf _ _ _ _ X5) as S. pose proof (r_rf _ _ _ _ X5) as S2.
        cbn [txf rxf] in S, S2. rewrite A3 in S. rewrite A4 in S2. cbn [negb b2n] in S, S2.
        assert (tx_dropped cY = true) by (destruct (tx_dropped cY); [reflexivity|clear - S; cbn [b2n] in S; lia]).
        assert (rx_dropped cY = true) by (destruct (rx_dropped cY); [reflexivity|clear - S2; cbn [b2n] in S2; lia]).
        split.
        * apply (rcl_pst cY (PLive c) PGone); cbn [txf rxf rxcf]; auto; try discriminate. rewrite A2. now rewrite orb_true_r.
        * intros _. apply no_after_f0. eapply cnt_intro_zero; [exact Hxy|exact (Hyx x)|exact Hl|]. intros r Hr. congruence.
      + exact Hy.
    - intros x0. destruct (N.eq_dec x0 x) as [->|Hne].
      + unfold rx_clause. rewrite K1. split; [|split; [exact X3|exact X4]].
        pose proof (r_sf _ _ _ _ X5) as S. pose proof (r_rf _ _ _ _ X5) as S2.
        pose proof (r_data _ _ _ _ X5 A3) as S3. pose proof (r_cred _ _ _ _ X5 A4) as S4.
        rewrite A3 in S. rewrite A4 in S2. cbn [negb b2n] in S, S2.
        pose proof (b2n_le1 (txf (pstat PY L (remote c) x))). pose proof (b2n_le1 (rxf (pstat PY L (remote c) x))).
        rewrite cnt_addr_split, cnt_other_split, cnt_fin_split. clear - X1 X2 S S2 S3 S4 H H0. lia.
      + eapply rx_frame; [apply Hyx|apply (K2 _ Hne)|apply same_for_refl|reflexivity|reflexivity|].
        intros y0. apply pst_ok_refl.
    - exact (inj_ok_le _ _ Hle Hix).
    - exact (out_ok_le _ _ _ _ Hle (fun _ E => E) Hox).
    - apply (chq_ok_upd _ _ _ x c c Hcx Hix Hl K2 (or_intror K1)); intros E; congruence.
  Qed.
End Free.

Lemma rcl_snoc_irrel c s y L fr : m_other y (fst fr) = false -> rcl c s y L -> rcl c s y (L ++ [fr]).
Proof.
  intros Ho [R1 R2 R3 R4 R5 R6 R7 R8 R9 R10]. destruct (m_other_false _ _ Ho) as (D1 & D2 & D3 & D4 & D5 & D6 & D7).
  constructor; rewrite ?cnt_snoc, ?D1, ?D3, ?D4, ?D5, ?D6, ?Ho; cbn [b2n]; rewrite ?N.add_0_r; auto;
    apply nafter_snoc_other; auto.
Qed.
Lemma rcl_pop_irrel c s y L fr : m_other y (fst fr) = false -> rcl c s y (fr :: L) -> rcl c s y L.
Proof.
  intros Ho [R1 R2 R3 R4 R5 R6 R7 R8 R9 R10]. destruct (m_other_false _ _ Ho) as (D1 & D2 & D3 & D4 & D5 & D6 & D7).
  rewrite ?cnt_cons, ?D1, ?D3, ?D4, ?D5, ?D6, ?Ho in *. cbn [b2n] in *. rewrite ?N.add_0_l in *.
  constructor; auto; eapply nafter_tail; eauto.
Qed.

(** A frame that addresses no port and introduces no number (ClientFinish, ListenerFinish, Goodbye) *)
Lemma core_plain PX PY OX OY QX QX' QY L L' fr :
  Core PX PY OX OY QX QY L L' ->
  (forall y, m_addr y (fst fr) = false) -> (forall x, m_intro x (fst fr) = false) -> m_bad (fst fr) = false ->
  chq_ok PX QX' ->
  Core PX PY OX OY QX' QY (L ++ [fr]) L'.
Proof.
  intros [Hxy Hyx Hix Hiy Hox Hoy Hcx Hcy Hbx Hby] Ha Hi Hb Hq. constructor; auto.
  - intros y. eapply rx_frame; [apply Hxy|reflexivity|apply same_for_snoc; auto|reflexivity|reflexivity|]. intros x. apply pst_ok_refl.
  - intros x. destruct (m_intro_false _ _ (Hi x)) as [I1 I2].
    eapply rx_frame; [apply Hyx|reflexivity|apply same_for_refl|reflexivity| |].
    + rewrite reqcount_snoc, I1. apply N.add_0_r.
    + intros y. apply pst_ok_eq. now apply pstat_snoc_nosrv.
  - rewrite cnt_snoc, Hb, Hbx. reflexivity.
Qed.

Lemma core_chq PX PY OX OY QX QX' QY L L' :
  Core PX PY OX OY QX QY L L' -> chq_ok PX QX' -> Core PX PY OX OY QX' QY L L'.
Proof. intros [Hxy Hyx Hix Hiy Hox Hoy Hcx Hcy Hbx Hby] Hq. constructor; auto. Qed.

(** An entry changes in parts the invariant does not read *)
Lemma core_flags PX PX' PY OX OY QX QY L L' x c c' :
  Core PX PY OX OY QX QY L L' ->
  lookup x PX = Some (Connected c) -> lookup x PX' = Some (Connected c') -> (forall k, k <> x -> lookup k PX' = lookup k PX) ->
  flags_eq c c' -> remote c' = remote c ->
  Core PX' PY OX OY QX QY L L'.
Proof.
  intros [Hxy Hyx Hix Hiy Hox Hoy Hcx Hcy Hbx Hby] Hl K1 K2 Hf Er. pose proof Hf as (F1 & F2 & F3 & F4 & F5 & F6).
  pose proof (conn_le_upd _ _ _ K2 _ _ Hl K1 Er) as Hle.
  constructor; auto.
  - intros y. eapply rx_frame; [apply Hxy|reflexivity|apply same_for_refl|reflexivity|reflexivity|].
    intros x0. destruct (N.eq_dec x0 x) as [->|Hne]; [now apply (pstat_upd _ _ _ _ _ c c')|].
    apply pst_ok_eq. unfold pstat. now rewrite (K2 _ Hne).
  - intros x0. destruct (N.eq_dec x0 x) as [->|Hne].
    + destruct (rx_connected _ _ _ _ _ _ _ (Hyx x) Hl) as (X1 & X2 & X3 & X4 & X5 & X6).
      unfold rx_clause. rewrite K1, Er. repeat (split; [assumption|]). split; [|exact X6]. exact (rcl_flags _ _ _ _ _ Hf X5).
    + eapply rx_frame; [apply Hyx|apply (K2 _ Hne)|apply same_for_refl|reflexivity|reflexivity|]. intros y. apply pst_ok_refl.
  - exact (inj_ok_le _ _ Hle Hix).
  - exact (out_ok_le _ _ _ _ Hle (fun _ E => E) Hox).
  - exact (chq_ok_keep _ _ _ Hcx (conn_keep_upd _ _ _ K2 _ _ Hl K1 Er F4 F5) Hle).
Qed.

(** A connect request for the fresh number [p] is emitted ([OpenPort]) *)
Lemma core_open PX PX' PY OX OY QX QX' QY L L' p r fr :
  Core PX PY OX OY QX QY L L' ->
  lookup p PX = None -> lookup p PX' = Some (Connecting r) -> (forall k, k <> p -> lookup k PX' = lookup k PX) ->
  (forall y, m_addr y (fst fr) = false) -> (forall k, m_reqn k (fst fr) = b2n (k =? p)) -> (forall k, m_srv k (fst fr) = false) ->
  m_bad (fst fr) = false -> chq_ok PX QX' ->
  Core PX' PY OX OY QX' QY (L ++ [fr]) L'.
Proof.
  intros [Hxy Hyx Hix Hiy Hox Hoy Hcx Hcy Hbx Hby] Hl K1 K2 Ha Hr Hs Hb Hq.
  assert (Hle : conn_le PX' PX) by (apply (conn_le_other _ _ p K2); intros d; congruence).
  constructor; auto.
  - intros y. eapply rx_frame; [apply Hxy|reflexivity|apply same_for_snoc; auto|reflexivity|reflexivity|].
    intros x0. apply pst_ok_eq. destruct (N.eq_dec x0 p) as [->|Hne]; [|unfold pstat; now rewrite (K2 _ Hne)].
    rewrite (pstat_none _ _ _ _ Hl). apply (pstat_connecting_gone _ _ _ _ _ K1).
    destruct (rx_none _ _ _ _ _ _ (Hyx p) Hl) as (H1 & _). rewrite cnt_addr_split in H1. clear - H1. lia.
  - intros x0. destruct (N.eq_dec x0 p) as [->|Hne].
    + eapply rx_new_connecting; eauto. rewrite reqcount_snoc, Hr, N.eqb_refl. reflexivity.
    + eapply rx_frame; [apply Hyx|apply (K2 _ Hne)|apply same_for_refl|reflexivity| |].
      * rewrite reqcount_snoc, Hr. apply N.eqb_neq in Hne. rewrite Hne. apply N.add_0_r.
      * intros y. apply pst_ok_eq. apply pstat_snoc_nosrv. apply Hs.
  - exact (inj_ok_le _ _ Hle Hix).
  - exact (out_ok_le _ _ _ _ Hle (fun _ E => E) Hox).
  - apply (chq_ok_keep _ _ _ Hq); [|exact Hle]. apply (conn_keep_other _ _ p K2). intros d; congruence.
  - rewrite cnt_snoc, Hb, Hbx. reflexivity.
Qed.

Lemma rcl_zero c s y L :
  cnt (m_other y) L = 0 -> rx_open c = true -> rrx_closed c = false -> rrx_dropped c = false ->
  txf s = false -> rxf s = false -> s <> PGone ->
  rcl c s y L.
Proof.
  intros H0 F1 F2 F3 T1 T2 Hs. pose proof H0 as Z. rewrite cnt_other_split, cnt_fin_split, cnt_credrc_split in Z.
  assert (Z' : cnt (m_data y) L = 0 /\ cnt (m_credrc y) L = 0 /\ cnt (m_sf y) L = 0 /\ cnt (m_rf y) L = 0 /\ cnt (m_rc y) L = 0)
    by (rewrite cnt_credrc_split; clear - Z; lia).
  destruct Z' as (Z1 & Z2 & Z3 & Z4 & Z5).
  constructor; rewrite ?F1, ?F2, ?F3, ?T1, ?T2, ?Z3, ?Z4, ?Z5; auto using nafter_g0; try reflexivity; try congruence.
  apply N.le_0_l.
Qed.

(** A remote request [y] is accepted with the fresh local number [x] ([PortOpened y x]) *)
Section Accept.
  Variables (PX PX' PY : list (N * pstate)) (OX OX' OY : list N) (QX QX' QY : list evt) (L L' : list frame).
  Variables (x y : N) (c' : conn) (pl : option N).
  Hypothesis HC : Core PX PY OX OY QX QY L L'.
  Hypothesis Hl : lookup x PX = None.
  Hypothesis Hy : mem y OX = true.
  Hypothesis K1 : lookup x PX' = Some (Connected c').
  Hypothesis K2 : forall k, k <> x -> lookup k PX' = lookup k PX.
  Hypothesis Er : remote c' = y.
  Hypothesis Hf : flags_eq fresh_conn c'.
  Hypothesis O1 : forall k, mem k OX' = if k =? y then false else mem k OX.
  Hypothesis Hq : chq_ok PX QX'.

  Let fr : frame := (PortOpened y x, pl).

  Lemma accept_no_remote k d : lookup k PX = Some (Connected d) -> remote d <> remote c'.
  Proof. intros H E. pose proof (c_outx _ _ _ _ _ _ _ _ HC _ _ H). congruence. Qed.

  Lemma core_accept : Core PX' PY OX' OY QX' QY (L ++ [fr]) L'.
  Proof.
    unfold fr. destruct Hf as (F1 & F3 & F2 & F4 & F5 & F6). cbn [fresh_conn rx_open rrx_dropped rrx_closed tx_dropped rx_dropped rx_closed] in *.
    pose proof HC as [Hxy Hyx Hix Hiy Hox Hoy Hcx Hcy Hbx Hby].
    destruct (rx_out_connecting _ _ _ _ _ _ (Hxy y) Hy) as (r & Hyr).
    destruct (rx_connecting _ _ _ _ _ _ _ (Hxy y) Hyr) as (Y1 & Y2 & Y3 & Y4). rewrite Hy in Y1. cbn [b2n] in Y1.
    assert (Hz : cnt (m_po y) L = 0 /\ cnt (m_rj y) L = 0 /\ reqcount y L' = 0) by (clear - Y1; lia).
    destruct Hz as (Ypo & Yrj & Yrq). specialize (Y3 Ypo). clear Y1.
    destruct (rx_none _ _ _ _ _ _ (Hyx x) Hl) as (X1 & X2 & X3). rewrite cnt_addr_split in X1.
    assert (Hz : cnt (m_po x) L' = 0 /\ cnt (m_rj x) L' = 0 /\ cnt (m_other x) L' = 0) by (clear - X1; lia).
    destruct Hz as (Xpo & Xrj & Xo). clear X1.
    assert (Hold : forall d, lookup x PX <> Some (Connected d)) by (intros d; congruence).
    assert (Hpx : forall x0 y0, y0 <> y \/ x0 <> x -> pstat PX' L' x0 y0 = pstat PX L' x0 y0).
    { intros x0 y0 Hd. destruct (N.eq_dec x0 x) as [->|Hne]; [|unfold pstat; now rewrite (K2 _ Hne)].
      destruct Hd as [Hd|Hd]; [|congruence]. rewrite (pstat_none _ _ _ _ Hl), (pstat_conn_other _ _ _ _ _ K1); congruence. }
    assert (Zo : cnt (m_other y) (L ++ [(PortOpened y x, pl)]) = 0) by (rewrite cnt_snoc; mev; now rewrite Y3).
    assert (Zx : forall x0, cnt (m_pox y x0) L = 0).
    { intros x0. pose proof (cnt_pox_le_po y x0 L) as H. rewrite Ypo in H. now apply N.le_0_r in H. }
    constructor; auto.
    - intros y0. destruct (N.eq_dec y0 y) as [->|Hne].
      + unfold rx_clause. rewrite Hyr, O1, !cnt_snoc, Yrq, Ypo, Yrj. mev.
        split; [reflexivity|split; [|split; [discriminate|]]].
        * apply nafter_snoc; [exact Y2|]. intros _. exact Y3.
        * intros x0 Hx0. rewrite cnt_snoc, Zx in Hx0. mev in Hx0.
          destruct (x =? x0) eqn:Ex; [|discriminate]. apply N.eqb_eq in Ex. subst x0.
          exists c'. split; [apply pstat_live_intro; auto|]. apply rcl_zero; cbn [txf rxf]; auto; discriminate.
      + eapply rx_frame; [apply Hxy|reflexivity|apply same_for_snoc| | |].
        * apply (m_addr_other y); auto.
        * rewrite O1. apply N.eqb_neq in Hne. now rewrite Hne.
        * reflexivity.
        * intros x0. apply pst_ok_eq. apply Hpx. auto.
    - intros x0. destruct (N.eq_dec x0 x) as [->|Hne].
      + unfold rx_clause. rewrite K1, Er.
        assert (Hp : pstat PY (L ++ [((PortOpened y x, pl) : frame)]) y x = PPend).
        { unfold pstat. rewrite Hyr, cnt_snoc, Zx. mev. reflexivity. }
        rewrite Hp, reqcount_snoc, X3, Xpo, Xrj. mev. repeat (split; [reflexivity|]). split; [exact X2|split; [reflexivity|split; [|discriminate]]].
        apply rcl_zero; cbn [txf rxf]; auto; discriminate.
      + eapply rx_frame; [apply Hyx|apply (K2 _ Hne)|apply same_for_refl|reflexivity| |].
        * rewrite reqcount_snoc. mev. apply N.add_0_r.
        * intros y0. apply pst_ok_eq. apply pstat_link. rewrite cnt_snoc. mev.
          apply N.eqb_neq in Hne. rewrite (N.eqb_sym x x0), Hne, andb_false_r. apply N.add_0_r.
    - exact (inj_ok_new _ _ _ _ K1 K2 accept_no_remote Hix).
    - intros p d H. rewrite O1. destruct (remote d =? y) eqn:E; [reflexivity|]. destruct (N.eq_dec p x) as [->|N1].
      + rewrite K1 in H. injection H as <-. apply N.eqb_neq in E. congruence.
      + rewrite (K2 _ N1) in H. eauto.
    - exact (chq_ok_new _ _ _ _ K1 K2 Hold accept_no_remote _ Hq).
    - rewrite cnt_snoc, Hbx. reflexivity.
  Qed.
End Accept.

(** A remote request [y] is rejected ([Rejected y]) *)
Lemma core_reject PX PY OX OX' OY QX QX' QY L L' y np pl :
  Core PX PY OX OY QX QY L L' -> mem y OX = true ->
  (forall k, mem k OX' = if k =? y then false else mem k OX) -> chq_ok PX QX' ->
  Core PX PY OX' OY QX' QY (L ++ [(Rejected y np, pl)]) L'.
Proof.
  intros [Hxy Hyx Hix Hiy Hox Hoy Hcx Hcy Hbx Hby] Hy O1 Hq.
  destruct (rx_out_connecting _ _ _ _ _ _ (Hxy y) Hy) as (r & Hyr).
  destruct (rx_connecting _ _ _ _ _ _ _ (Hxy y) Hyr) as (Y1 & Y2 & Y3 & Y4). rewrite Hy in Y1. cbn [b2n] in Y1.
  assert (Hz : cnt (m_po y) L = 0 /\ cnt (m_rj y) L = 0 /\ reqcount y L' = 0) by (clear - Y1; lia).
  destruct Hz as (Ypo & Yrj & Yrq). specialize (Y3 Ypo).
  constructor; auto.
  - intros y0. destruct (N.eq_dec y0 y) as [->|Hne].
    + unfold rx_clause. rewrite Hyr, O1, !cnt_snoc, Yrq, Ypo, Yrj. mev.
      split; [reflexivity|split; [|split]].
      * apply nafter_snoc_other; [exact Y2|reflexivity].
      * intros _. now rewrite Y3.
      * intros x0 Hx0. rewrite cnt_snoc in Hx0. mev in Hx0. pose proof (cnt_pox_le_po y x0 L) as H. rewrite Ypo in H. clear - Hx0 H. lia.
    + eapply rx_frame; [apply Hxy|reflexivity|apply same_for_snoc| | |].
      * apply (m_addr_other y); auto.
      * rewrite O1. apply N.eqb_neq in Hne. now rewrite Hne.
      * reflexivity.
      * intros x0. apply pst_ok_refl.
  - intros x0. eapply rx_frame; [apply Hyx|reflexivity|apply same_for_refl|reflexivity| |].
    + rewrite reqcount_snoc. apply N.add_0_r.
    + intros y0. apply pst_ok_eq. apply pstat_snoc_nosrv. reflexivity.
  - intros p d H. rewrite O1. destruct (remote d =? y); [reflexivity|]. eauto.
  - rewrite cnt_snoc, Hbx. reflexivity.
Qed.
