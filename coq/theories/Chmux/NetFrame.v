(** Frame lemmas for the composed invariant: a change that does not concern port [y] leaves the
    clause of [y] alone. *)
From Remoc Require Import Lib.Base Chmux.Wire Chmux.Mux Chmux.EndpointLemmas Chmux.Net Chmux.NetInv.

Lemma m_other_false y m : m_other y m = false ->
  m_data y m = false /\ m_cred y m = false /\ m_rc y m = false /\ m_sf y m = false /\ m_rf y m = false /\
  m_credrc y m = false /\ m_fin y m = false.
Proof.
  intros H. pose proof H as H0. unfold m_other in H. apply orb_false_iff in H as [H H3]. apply orb_false_iff in H as [H1 H2].
  pose proof H2 as H2'. pose proof H3 as H3'. unfold m_credrc in H2'. unfold m_fin in H3'.
  apply orb_false_iff in H2' as [? ?], H3' as [? ?]. auto 10.
Qed.
Lemma m_addr_false y m : m_addr y m = false -> m_po y m = false /\ m_rj y m = false /\ m_other y m = false.
Proof. unfold m_addr. destruct (m_po y m), (m_rj y m), (m_other y m); cbn [orb]; intros H; try discriminate; auto. Qed.
Lemma m_pox_po y x m : m_pox y x m = true -> m_po y m = true.
Proof. destruct m; cbn [m_pox m_po]; try discriminate. intros H. apply andb_true_iff in H. tauto. Qed.

Lemma sub_sf y m : m_sf y m = true -> m_addr y m = true.
Proof. unfold m_addr, m_other, m_fin. intros ->. now rewrite !orb_true_r. Qed.
Lemma sub_rf y m : m_rf y m = true -> m_addr y m = true.
Proof. unfold m_addr, m_other, m_fin. intros ->. now rewrite !orb_true_r. Qed.
Lemma sub_rc y m : m_rc y m = true -> m_addr y m = true.
Proof. unfold m_addr, m_other, m_credrc. intros ->. now rewrite !orb_true_r. Qed.
Lemma sub_data y m : m_data y m = true -> m_addr y m = true.
Proof. unfold m_addr, m_other. intros ->. now rewrite !orb_true_r. Qed.
Lemma sub_credrc y m : m_credrc y m = true -> m_addr y m = true.
Proof. unfold m_addr, m_other. intros ->. now rewrite !orb_true_r. Qed.
Lemma sub_fin y m : m_fin y m = true -> m_addr y m = true.
Proof. unfold m_addr, m_other. intros ->. now rewrite !orb_true_r. Qed.
Lemma sub_other y m : m_other y m = true -> m_addr y m = true.
Proof. unfold m_addr. intros ->. now rewrite !orb_true_r. Qed.
Lemma sub_po y m : m_po y m = true -> m_addr y m = true.
Proof. unfold m_addr. intros ->. reflexivity. Qed.
Lemma sub_rj y m : m_rj y m = true -> m_addr y m = true.
Proof. unfold m_addr. intros ->. now rewrite !orb_true_r. Qed.
Lemma sub_pox y x m : m_pox y x m = true -> m_addr y m = true.
Proof. intros H. apply sub_po. eapply m_pox_po; eauto. Qed.
Lemma sub_addr y m : m_addr y m = true -> m_addr y m = true. Proof. auto. Qed.
#[global] Hint Resolve sub_sf sub_rf sub_rc sub_data sub_credrc sub_fin sub_other sub_po sub_rj sub_pox sub_addr : msub.

(** two links that agree on everything addressed to [y] *)
Definition same_for (y : N) (L1 L2 : list frame) : Prop :=
  (forall f, (forall m, f m = true -> m_addr y m = true) -> cnt f L2 = cnt f L1) /\
  (forall f g, (forall m, g m = true -> m_addr y m = true) -> nafter f g L1 -> nafter f g L2).

Lemma same_for_refl y L : same_for y L L.
Proof. split; auto. Qed.
Lemma same_for_snoc y L fr : m_addr y (fst fr) = false -> same_for y L (L ++ [fr]).
Proof.
  intros H. split.
  - intros f Hf. rewrite cnt_snoc. destruct (f (fst fr)) eqn:E; [|cbn [b2n]; lia]. apply Hf in E. congruence.
  - intros f g Hg Hn. apply nafter_snoc_other; [exact Hn|]. destruct (g (fst fr)) eqn:E; [|reflexivity]. apply Hg in E. congruence.
Qed.
Lemma same_for_pop y L fr : m_addr y (fst fr) = false -> same_for y (fr :: L) L.
Proof.
  intros H. split.
  - intros f Hf. rewrite cnt_cons. destruct (f (fst fr)) eqn:E; [|cbn [b2n]; lia]. apply Hf in E. congruence.
  - intros f g Hg Hn. eapply nafter_tail; eauto.
Qed.

Lemma rcl_same_for c s y L1 L2 : same_for y L1 L2 -> rcl c s y L1 -> rcl c s y L2.
Proof.
  intros [Hc Hn] [H1 H2 H3 H4 H5 H6 H7 H8 H9 H10].
  constructor; rewrite ?(Hc (m_sf y)), ?(Hc (m_rf y)), ?(Hc (m_rc y)), ?(Hc (m_data y)), ?(Hc (m_credrc y)), ?(Hc (m_other y));
    auto with msub.
Qed.

Lemma rcl_pst c s s' y L :
  txf s' = txf s -> rxf s' = rxf s -> rxcf s' = rxcf s ->
  (s' = PGone -> tx_dropped c = true /\ rx_dropped c = true) ->
  (s' = PPend -> cnt (m_other y) L = 0) ->
  rcl c s y L -> rcl c s' y L.
Proof. intros E1 E2 E3 Hg Hp [H1 H2 H3 H4 H5 H6 H7 H8 H9 H10]. constructor; rewrite ?E1, ?E2, ?E3; auto. Qed.

(** the other end changed in a way this side cannot tell, or came to life *)
Definition pst_ok (s s' : pst) : Prop :=
  txf s' = txf s /\ rxf s' = rxf s /\ rxcf s' = rxcf s /\
  (s' = PGone -> s = PGone) /\ (s' = PPend -> s = PPend) /\ (forall c, s = PLive c -> exists c', s' = PLive c').
Lemma pst_ok_refl s : pst_ok s s.
Proof. unfold pst_ok. repeat split; auto. intros c ->. eauto. Qed.
Lemma pst_ok_eq s s' : s' = s -> pst_ok s s'.
Proof. intros ->. apply pst_ok_refl. Qed.
Lemma rcl_pst_ok c s s' y L : pst_ok s s' -> rcl c s y L -> rcl c s' y L.
Proof.
  intros (E1 & E2 & E3 & E4 & E5 & E6) H. apply (rcl_pst c s s' y L); auto.
  - intros Hs. apply (r_gone _ _ _ _ H). auto.
  - intros Hs. apply (r_pend _ _ _ _ H). auto.
Qed.

Lemma rx_frame PX PX' PY PY' OX OX' L1 L2 L1' L2' y :
  rx_clause PX PY OX L1 L1' y ->
  lookup y PY' = lookup y PY -> same_for y L1 L2 -> mem y OX' = mem y OX -> reqcount y L2' = reqcount y L1' ->
  (forall x, pst_ok (pstat PX L1' x y) (pstat PX' L2' x y)) ->
  rx_clause PX' PY' OX' L2 L2' y.
Proof.
  intros H El Hq Eo Er Ep. unfold rx_clause in *. rewrite El. pose proof Hq as [Hc Hn].
  destruct (lookup y PY) as [[r|c]|].
  - destruct H as (H1 & H2 & H3 & H4). rewrite Eo, Er, (Hc (m_po y)), (Hc (m_rj y)), (Hc (m_other y)); auto with msub.
    split; [exact H1|split; [apply Hn; auto with msub|split; [exact H3|]]].
    intros x Hx. rewrite (Hc (m_pox y x)) in Hx by (intros m; apply sub_pox). destruct (H4 x Hx) as (cX & P1 & P2).
    pose proof (Ep x) as Hp. destruct Hp as (_ & _ & _ & _ & _ & Hl). destruct (Hl _ P1) as (cX' & P1').
    exists cX'. split; [exact P1'|]. rewrite <- P1'. eapply rcl_pst_ok; [apply Ep|]. rewrite P1. eapply rcl_same_for; eauto.
  - destruct H as (H1 & H2 & H3 & H4 & H5 & H6). rewrite Eo, Er, (Hc (m_po y)), (Hc (m_rj y)); auto with msub.
    split; [exact H1|split; [exact H2|split; [exact H3|split; [exact H4|split]]]].
    + eapply rcl_pst_ok; [apply Ep|]. eapply rcl_same_for; eauto.
    + intros Hg. apply Hn; auto with msub. apply H6. destruct (Ep (remote c)) as (_ & _ & _ & Hgone & _). auto.
  - destruct H as (H1 & H2 & H3). rewrite Eo, Er, (Hc (m_addr y)); auto.
Qed.

Lemma pstat_other_key PX x y L p s : x <> p -> pstat (insert p s PX) L x y = pstat PX L x y.
Proof. intros H. unfold pstat. rewrite lookup_insert. apply N.eqb_neq in H. now rewrite H. Qed.
Lemma pstat_other_key_remove PX x y L p : x <> p -> pstat (remove p PX) L x y = pstat PX L x y.
Proof. intros H. unfold pstat. rewrite lookup_remove. apply N.eqb_neq in H. now rewrite H. Qed.
Lemma pstat_link PX L1 L2 x y : cnt (m_pox x y) L2 = cnt (m_pox x y) L1 -> pstat PX L2 x y = pstat PX L1 x y.
Proof. intros H. unfold pstat. now rewrite H. Qed.
Lemma pstat_live PX L x y c : pstat PX L x y = PLive c -> lookup x PX = Some (Connected c) /\ remote c = y.
Proof.
  unfold pstat. destruct (lookup x PX) as [[r|c0]|]; try discriminate.
  - destruct (0 <? _); discriminate.
  - destruct (remote c0 =? y) eqn:E; [|discriminate]. intros [= ->]. apply N.eqb_eq in E. auto.
Qed.
Lemma pstat_live_intro PX L x y c : lookup x PX = Some (Connected c) -> remote c = y -> pstat PX L x y = PLive c.
Proof. intros H <-. unfold pstat. now rewrite H, N.eqb_refl. Qed.
Lemma pstat_pend PX L x y : pstat PX L x y = PPend -> (exists r, lookup x PX = Some (Connecting r)) /\ 0 < cnt (m_pox x y) L.
Proof.
  unfold pstat. destruct (lookup x PX) as [[r|c0]|]; try discriminate.
  - destruct (0 <? cnt (m_pox x y) L) eqn:E; [|discriminate]. intros _. apply N.ltb_lt in E. eauto.
  - destruct (remote c0 =? y); discriminate.
Qed.
Lemma pstat_conn_other PX L x y c : lookup x PX = Some (Connected c) -> remote c <> y -> pstat PX L x y = PGone.
Proof. intros H Hn. unfold pstat. rewrite H. apply N.eqb_neq in Hn. now rewrite Hn. Qed.
Lemma pstat_none PX L x y : lookup x PX = None -> pstat PX L x y = PGone.
Proof. intros H. unfold pstat. now rewrite H. Qed.
Lemma pstat_connecting_gone PX L x y r : lookup x PX = Some (Connecting r) -> cnt (m_po x) L = 0 -> pstat PX L x y = PGone.
Proof.
  intros Hl H0. unfold pstat. rewrite Hl. pose proof (cnt_pox_le_po x y L).
  destruct (0 <? cnt (m_pox x y) L) eqn:E; [apply N.ltb_lt in E; lia|reflexivity].
Qed.
Lemma pstat_upd P P' L x y c c' :
  lookup x P = Some (Connected c) -> lookup x P' = Some (Connected c') -> remote c' = remote c ->
  tx_dropped c' = tx_dropped c -> rx_dropped c' = rx_dropped c -> rx_closed c' = rx_closed c ->
  pst_ok (pstat P L x y) (pstat P' L x y).
Proof.
  intros Hl K1 Er E1 E2 E3. unfold pstat. rewrite Hl, K1, Er. destruct (remote c =? y); [|apply pst_ok_refl].
  unfold pst_ok. cbn [txf rxf rxcf]. rewrite E1, E2, E3. repeat split; auto; try discriminate. intros c0 _. eauto.
Qed.

Lemma pox_two y x1 x2 L : x1 <> x2 -> cnt (m_pox y x1) L + cnt (m_pox y x2) L <= cnt (m_po y) L.
Proof.
  intros Hne. induction L as [|fr L IH]; [rewrite !cnt_nil; lia|]. rewrite !cnt_cons.
  destruct (fst fr); cbn [m_pox m_po b2n]; try lia.
  destruct (client_port =? y); cbn [andb b2n]; [|lia].
  destruct (server_port =? x1) eqn:E1, (server_port =? x2) eqn:E2; cbn [b2n]; lia.
Qed.

Lemma rx_addr_known PX PY OX L L' y : rx_clause PX PY OX L L' y -> 0 < cnt (m_addr y) L -> lookup y PY <> None.
Proof. unfold rx_clause. destruct (lookup y PY); [discriminate|]. intros (H & _) Hp. lia. Qed.
Lemma rx_po_connecting PX PY OX L L' y : rx_clause PX PY OX L L' y -> 0 < cnt (m_po y) L ->
  exists r, lookup y PY = Some (Connecting r).
Proof.
  unfold rx_clause. destruct (lookup y PY) as [[r|c]|].
  - eauto.
  - intros (H & _) Hp. lia.
  - intros (H & _) Hp. pose proof (cnt_le (m_po y) (m_addr y) L (sub_po y)). lia.
Qed.
Lemma rx_out_connecting PX PY OX L L' y : rx_clause PX PY OX L L' y -> mem y OX = true ->
  exists r, lookup y PY = Some (Connecting r).
Proof.
  unfold rx_clause. destruct (lookup y PY) as [[r|c]|].
  - eauto.
  - intros (_ & _ & H & _) Hp. congruence.
  - intros (_ & H & _) Hp. congruence.
Qed.
Lemma rx_req_connecting PX PY OX L L' y : rx_clause PX PY OX L L' y -> 0 < reqcount y L' ->
  exists r, lookup y PY = Some (Connecting r).
Proof.
  unfold rx_clause. destruct (lookup y PY) as [[r|c]|].
  - eauto.
  - intros (_ & _ & _ & H & _) Hp. lia.
  - intros (_ & _ & H) Hp. lia.
Qed.

(** [mev] evaluates the message predicates [m_*] wherever their message argument starts with a
    constructor (so [m_addr y (fst fr)] stays folded), then simplifies the resulting booleans. *)
Ltac head_of t := lazymatch t with ?f _ => head_of f | _ => t end.
Ltac mev_term t :=
  let v := eval cbv beta iota delta [m_addr m_other m_credrc m_fin m_po m_pox m_rj m_data m_cred m_rc m_sf m_rf m_reqn m_srv m_intro m_bad] in t in
  change t with v.
Ltac mev_term_in t H :=
  let v := eval cbv beta iota delta [m_addr m_other m_credrc m_fin m_po m_pox m_rj m_data m_cred m_rc m_sf m_rf m_reqn m_srv m_intro m_bad] in t in
  change t with v in H.
Ltac is_mpred2 p :=
  lazymatch p with
  | m_addr => idtac | m_other => idtac | m_credrc => idtac | m_fin => idtac | m_po => idtac | m_rj => idtac
  | m_data => idtac | m_cred => idtac | m_rc => idtac | m_sf => idtac | m_rf => idtac | m_reqn => idtac
  | m_srv => idtac | m_intro => idtac
  end.
Ltac mev_goal :=
  cbn [fst];
  repeat match goal with
  | |- context [m_pox ?y ?x ?m] => let h := head_of m in is_constructor h; mev_term (m_pox y x m)
  | |- context [m_bad ?m] => let h := head_of m in is_constructor h; mev_term (m_bad m)
  | |- context [?p ?y ?m] => is_mpred2 p; let h := head_of m in is_constructor h; mev_term (p y m)
  end;
  cbn [orb andb b2n]; rewrite ?orb_false_r, ?andb_false_r, ?N.eqb_refl; cbn [orb andb b2n].
Ltac mev_hyp H :=
  cbn [fst] in H;
  repeat match type of H with
  | context [m_pox ?y ?x ?m] => let h := head_of m in is_constructor h; mev_term_in (m_pox y x m) H
  | context [m_bad ?m] => let h := head_of m in is_constructor h; mev_term_in (m_bad m) H
  | context [?p ?y ?m] => is_mpred2 p; let h := head_of m in is_constructor h; mev_term_in (p y m) H
  end;
  cbn [orb andb b2n] in H; rewrite ?orb_false_r, ?andb_false_r, ?N.eqb_refl in H; cbn [orb andb b2n] in H.
Tactic Notation "mev" := mev_goal.
Tactic Notation "mev" "in" hyp(H) := mev_hyp H.

Goal forall y x y0 pl L, y0 <> y -> cnt (m_other y) (L ++ [(PortOpened y x, pl)]) = cnt (m_other y) L /\ m_addr y0 (PortOpened y x) = false.
Proof. intros. rewrite cnt_snoc. mev. split; [lia|]. apply N.eqb_neq. congruence. Qed.
