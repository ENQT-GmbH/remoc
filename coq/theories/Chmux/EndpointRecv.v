(** The two halves of a dispatcher step keep the invariant: a local event ([handle_event]) and an arbitrary received
    message ([handle_received]), each followed by [finish]. *)
From Remoc Require Import Lib.Base Gen.Consts Chmux.Wire Chmux.Mux Chmux.Endpoint Chmux.EndpointLemmas Chmux.EndpointInv
  Chmux.EndpointSteps.
From RecordUpdate Require Import RecordUpdate.

Lemma finish_Done e1 m effs : Good (apply_effs (e1 <| mx := m |>) effs) -> WF (finish e1 (Done m effs)).
Proof.
  intros H. apply Good_WF. cbn [finish]. destruct (goodbye_sent m && goodbye_received m) eqn:Eg; [|exact H].
  (* after both Goodbyes [conn_ok] is not required, and [resolve_waiting] rewrites the reply cells only *)
  destruct H as (Hp & Hd & Hnd & Hlen & [Hqs Hnum Hreq Hh Hpq Hbuf Hlq Hkeys _]).
  split; [exact Hp|split; [exact Hd|split; [exact Hnd|split; [exact Hlen|constructor; try assumption]]]].
  intros Hx. unfold resolve_waiting in Hx. cbn [mx set RecordSet.set] in Hx. rewrite apply_effs_mx in Hx.
  cbn [mx set RecordSet.set] in Hx. congruence.
Qed.

(** a protocol error ends the dispatcher; what is left of the invariant does not depend on [dead] *)
Lemma finish_Proto e1 err effs :
  panicked e1 = None -> NoDup (alloc e1) -> len (alloc e1) <= max_ports e1 ->
  buf_ok (cfg_buffer (mx e1)) (ports (mx e1)) -> lq_ok (mx e1) -> WF (finish e1 (Proto err effs)).
Proof.
  intros Hp Hn Hl Hb Hq. cbn [finish]. unfold resolve_waiting.
  constructor; prj; rewrite ?apply_effs_panicked, ?apply_effs_max_ports, ?apply_effs_mx; auto.
  - now apply apply_effs_alloc_NoDup.
  - pose proof (apply_effs_alloc_len effs e1). lia.
  - discriminate.
Qed.

(** [cbn [apply_effs]] is slow on these goals; unfolding the one constant lazily is not *)
Ltac fin_done := apply finish_Done; lazy beta iota zeta delta [apply_effs]; prj.

Lemma fin_upd_free e1 p c c' :
  panicked e1 = None -> dead e1 = None -> NoDup (alloc e1) -> len (alloc e1) <= max_ports e1 ->
  qs_ok (cq e1) (chq e1) -> req_ok (outstanding (mx e1)) (requests e1) (chq e1) ->
  lookup p (ports (mx e1)) = Some (Connected c) ->
  core_ok (goodbye_sent (mx e1) && goodbye_received (mx e1) = false)
          (alloc e1) (cq e1) (chq e1) (handles e1) (requests e1) (connects e1) (insert p (Connected c') (ports (mx e1))) ->
  buf_ok (cfg_buffer (mx e1)) (ports (mx e1)) -> lq_ok (mx e1) ->
  used c' <= cfg_buffer (mx e1) -> count (fun x => fst x =? 0) (rxq c') <= b2n (negb (rx_open c')) ->
  WF (finish e1 (upd_free (mx e1) p c' [])).
Proof.
  intros Hp Hd Hn Hlen Hqs Hreq Hl Hc Hb Hlq B1 B2. rewrite upd_free_all4.
  destruct (all4 c') eqn:Ea; cbn [app]; fin_done; apply Good_of; prj; auto.
  - now apply NoDup_del.
  - clear - Hlen. pose proof (len_del p (alloc e1)). lia.
  - eapply core_free; [exact Hc| |exact Ea]. now rewrite lookup_insert, N.eqb_refl.
  - intros p0 c0. rewrite lookup_remove, lookup_insert. destruct (p0 =? p); [discriminate|apply Hb].
  - now apply buf_ok_upd.
Qed.
Lemma finish_upd_free_emit e1 m p c' w pl :
  finish e1 (upd_free m p c' [Emit w pl]) = finish (e1 <| sent := sent e1 ++ [(w, pl)] |>) (upd_free m p c' []).
Proof. rewrite !upd_free_all4. now destruct (all4 c'). Qed.

Lemma ev_SenderDropped e p q :
  Good e -> chq e = ESenderDropped p :: q ->
  WF (finish (match lookup p (handles e) with Some h => set_handle (e <| chq := q |>) p (h <| h_tx := Gone |>) | None => e <| chq := q |> end)
              (handle_event (mx e) (ESenderDropped p))).
Proof.
  intros HG Hq. pose proof (core_of e HG) as Hc. revert HG. good_intro. rewrite Hq in *.
  destruct (sd_head _ _ _ _ Hh) as (h & c & E0 & Etx & El & T1 & Hp1).
  rewrite E0, he_SenderDropped, El, T1. destruct (Hbuf _ _ El) as (B1 & B2 & _).
  rewrite finish_upd_free_emit. set (e1 := _ <| sent := _ |>). change (mx e) with (mx e1).
  apply (fin_upd_free e1 p c); subst e1; prj; auto.
  eapply core_hset; [exact Hc|reflexivity|reflexivity|neutral_other|exact E0|exact El|reflexivity|reflexivity|apply Hp1; reflexivity].
Qed.

Lemma ev_ReceiverDropped e p q :
  Good e -> chq e = EReceiverDropped p :: q ->
  WF (finish (match lookup p (handles e) with Some h => set_handle (e <| chq := q |>) p (h <| h_rx := Gone |>) | None => e <| chq := q |> end)
              (handle_event (mx e) (EReceiverDropped p))).
Proof.
  intros HG Hq. pose proof (core_of e HG) as Hc. revert HG. good_intro. rewrite Hq in *.
  destruct (rd_head _ _ _ _ Hh) as (h & c & E0 & Erx & El & T1 & Hp1).
  rewrite E0, he_ReceiverDropped, El, T1. destruct (Hbuf _ _ El) as (B1 & B2 & _).
  rewrite finish_upd_free_emit. set (e1 := _ <| sent := _ |>). change (mx e) with (mx e1).
  apply (fin_upd_free e1 p c); subst e1; prj; auto.
  eapply core_hset; [exact Hc|reflexivity|reflexivity|neutral_other|exact E0|exact El| |reflexivity|apply Hp1; reflexivity].
  prj. now rewrite Erx.
Qed.

Lemma ev_ReceiverClosed e p q :
  Good e -> chq e = EReceiverClosed p :: q ->
  WF (finish (match lookup p (handles e) with Some h => set_handle (e <| chq := q |>) p (h <| h_rxc := Gone |>) | None => e <| chq := q |> end)
              (handle_event (mx e) (EReceiverClosed p))).
Proof.
  intros HG Hq. pose proof (core_of e HG) as Hc. revert HG. good_intro. rewrite Hq in *.
  destruct (rc_head _ _ _ _ Hh) as (h & c & E0 & Erc & El & T1 & T2 & Hp1).
  cbn [handle_event]. rewrite E0, El, T1, T2. destruct (Hbuf _ _ El) as (B1 & B2 & B3).
  fin_done. apply Good_of; prj; auto.
  - eapply core_hset; [exact Hc|reflexivity|reflexivity|neutral_other|exact E0|exact El|reflexivity|reflexivity|apply Hp1; reflexivity].
  - apply buf_ok_upd; [assumption|]. auto.
Qed.

Lemma ev_ConnectReq e port id wait req q :
  Good e -> cq e = EConnectReq port id wait req :: q ->
  WF (finish (e <| cq := q |>) (handle_event (mx e) (EConnectReq port id wait req))).
Proof.
  good_intro. intros Hq. rewrite Hq in *.
  pose proof (proj1 (num_ok_iff _ _ _ _) Hnum) as Hn. cbn [q_nums flat_map ev_nums app] in Hn.
  assert (Hc : goodbye_sent (mx e) && goodbye_received (mx e) = false ->
               conn_ok' (connects e) (req :: q_reqs q ++ q_reqs (chq e)) (ports (mx e))).
  { intros Hg. exact (proj1 (conn_ok_iff _ _ _ _) (Hconn Hg)). }
  unfold handle_event. destruct (remote_listener_dropped (mx e)) eqn:Erl; cbn [negb].
  - fin_done. good_split.
    + now apply NoDup_del.
    + clear - Hlen. pose proof (len_del port (alloc e)). lia.
    + now apply num_ok_iff, num_release.
    + intros Hg. now apply conn_ok_iff, conn_answer, Hc.
  - destruct (num_step _ _ _ _ port (Connecting req) (fun x => occ_cons x port _) Hn) as [Hl Hn'].
    rewrite Hl. fin_done.
    destruct (tab_ok_insert_connecting _ _ _ _ _ port req Hl (conj Hh (conj Hpq (conj Hbuf Hkeys)))) as (T1 & T2 & T3 & T4).
    good_split.
    + now apply num_ok_iff.
    + intros Hg. apply conn_ok_iff. eapply conn_step; [exact Hkeys|exact Hl| |exact (Hc Hg)]. intros x. apply occ_cons.
Qed.

Lemma ev_SendPorts e rp f l w ps q :
  Good e -> alive e = true -> chq e = ESendPorts rp f l w ps :: q ->
  WF (finish (e <| chq := q |>) (handle_event (mx e) (ESendPorts rp f l w ps))).
Proof.
  good_intro. intros Ha Hq. rewrite Hq in *. specialize (Hconn (proj2 (proj2 (alive_spec _ Ha)))).
  pose proof (num_ok_head_chq _ _ _ _ _ Hnum) as Hn. pose proof (conn_ok_head_chq _ _ _ _ _ Hconn) as Hc.
  cbn [ev_nums ev_reqs] in Hn, Hc.
  apply handle_ok_pop in Hh; [|intros; repeat split; reflexivity].
  rewrite ins_ports_eq.
  destruct (ins_ports_ok _ _ _ _ _ _ _ _ ps _ Hn Hc (conj Hh (conj Hpq (conj Hbuf Hkeys)))) as (pt' & E & N1 & C1 & T1 & T2 & T3 & T4).
  rewrite E. fin_done. apply req_ok_pop in Hreq; [|reflexivity]. good_split.
  - apply num_ok_iff. exact N1.
  - intros _. apply conn_ok_iff. exact C1.
Qed.

Lemma reply_head out reqs q ev r :
  req_ok out reqs (ev :: q) -> is_reply r ev = true ->
  lookup r reqs = Some RAnswered /\ mem r out = true /\ count (is_reply r) q = 0.
Proof.
  intros H Hev. specialize (H r). rewrite count_cons, Hev in H. cbn [b2n] in H. destruct H as [H1 H2].
  destruct (lookup r reqs) as [[]|]; cbn [is_answered is_some b2n] in *; try lia. repeat split; auto. lia.
Qed.
Lemma req_ok_reply_done out reqs q ev r :
  req_ok out reqs (ev :: q) -> (forall r0, is_reply r0 ev = (r =? r0)) ->
  req_ok (del r out) (remove r reqs) q.
Proof.
  intros H Hev r0. pose proof (H r0) as [H1 H2]. rewrite count_cons, Hev in H1.
  rewrite lookup_remove, mem_del, (N.eqb_sym r0 r). destruct (r =? r0) eqn:E; cbn [b2n is_answered is_some] in *.
  - apply N.eqb_eq in E. subst r0. pose proof (b2n_le1 (is_answered (lookup r reqs))). split; [lia|reflexivity].
  - split; [lia|exact H2].
Qed.

Lemma ev_Accepted e local r q :
  Good e -> chq e = EAccepted local r :: q ->
  WF (finish (e <| chq := q |> <| requests := remove r (requests e) |>) (handle_event (mx e) (EAccepted local r))).
Proof.
  good_intro. intros Hq. rewrite Hq in *.
  destruct (reply_head _ _ _ _ r Hreq) as (R1 & R2 & R3); [cbn [is_reply]; apply N.eqb_refl|].
  pose proof (num_ok_head_chq _ _ _ _ _ Hnum) as Hn. cbn [ev_nums app] in Hn.
  destruct (num_step _ _ (q_nums (cq e) ++ q_nums q) _ local (Connected (new_conn (mx e) r)) (fun x => occ_cons x local _) Hn) as [Hl Hn'].
  apply handle_ok_pop in Hh; [|intros; repeat split; reflexivity].
  unfold handle_event. rewrite R2, Hl. cbn [negb]. fin_done.
  destruct (tab_newport _ _ (remove r (requests e)) _ _ local (mx e) r (conj Hh (conj (portq_ok_remove_req _ _ _ r ltac:(now rewrite R1) Hpq) (conj Hbuf Hkeys))))
    as (T1 & T2 & T3 & T4); [now rewrite Hl|].
  good_split.
  - apply num_ok_iff. exact Hn'.
  - eapply req_ok_reply_done; [exact Hreq|]. reflexivity.
  - intros Hg. apply conn_ok_insert; [exact Hkeys|now rewrite Hl|]. eapply conn_ok_pop_chq; [|apply Hconn, Hg]. reflexivity.
Qed.

Lemma ev_Rejected e r np q :
  Good e -> chq e = ERejected r np :: q ->
  WF (finish (e <| chq := q |> <| requests := remove r (requests e) |>) (handle_event (mx e) (ERejected r np))).
Proof.
  good_intro. intros Hq. rewrite Hq in *.
  destruct (reply_head _ _ _ _ r Hreq) as (R1 & R2 & R3); [cbn [is_reply]; apply N.eqb_refl|].
  apply handle_ok_pop in Hh; [|intros; repeat split; reflexivity].
  apply num_ok_pop_chq in Hnum; [|reflexivity].
  unfold handle_event. rewrite R2. cbn [negb]. fin_done.
  good_split.
  - eapply req_ok_reply_done; [exact Hreq|]. reflexivity.
  - apply portq_ok_remove_req; [now rewrite R1|assumption].
Qed.

Lemma ev_plain_chq e ev q m :
  Good e -> chq e = ev :: q -> ev_nums ev = [] -> ev_reqs ev = [] -> (forall r, is_reply r ev = false) ->
  (forall p, neutral_h p ev) ->
  WF (finish (e <| chq := q |>) (Done (mx e) [Emit m None])) /\
  forall n, WF (finish (e <| chq := q |>) (Done (mx e) [Emit m (Some n)])).
Proof.
  good_intro. intros Hq E1 E2 E3 E4. rewrite Hq in *.
  apply handle_ok_pop in Hh; [|exact E4]. apply num_ok_pop_chq in Hnum; [|exact E1]. apply req_ok_pop in Hreq; [|exact E3].
  assert (Hc : goodbye_sent (mx e) && goodbye_received (mx e) = false -> conn_ok (connects e) (cq e) q (ports (mx e))).
  { intros Hg. eapply conn_ok_pop_chq; [exact E2|apply Hconn, Hg]. }
  assert (Hq' : qs_ok (cq e) q) by (apply qs_ok_pop_chq in Hqs; tauto).
  split; [|intros n]; fin_done; destruct e; prj; good_split.
Qed.

Lemma step_DPort e e' : Good e -> step_opt e DPort = Some e' -> WF e'.
Proof.
  intros HG H. unfold step_opt in H. destruct (negb (alive e)) eqn:Ea; [discriminate|]. apply negb_false_iff in Ea.
  destruct (negb (sending e)); [discriminate|]. destruct (chq e) as [|ev q] eqn:Hq; [discriminate|].
  injection H as <-.
  assert (Hev : chq_ev ev = true).
  { destruct HG as (_ & _ & _ & _ & [Hqs _ _ _ _ _ _ _ _]). rewrite Hq in Hqs. apply qs_ok_pop_chq in Hqs. tauto. }
  destruct ev; try discriminate; prj.
  - now apply ev_Accepted.
  - now apply ev_Rejected.
  - refine (proj2 (ev_plain_chq e _ q _ HG Hq eq_refl eq_refl _ _) _); intros; repeat split; reflexivity.
  - now apply ev_SendPorts.
  - refine (proj1 (ev_plain_chq e _ q _ HG Hq eq_refl eq_refl _ _)); intros; repeat split; reflexivity.
  - now apply ev_SenderDropped.
  - now apply ev_ReceiverClosed.
  - now apply ev_ReceiverDropped.
Qed.

Lemma step_DConn e e' : Good e -> step_opt e DConn = Some e' -> WF e'.
Proof.
  intros HG H. unfold step_opt in H. destruct (negb (alive e)) eqn:Ea; [discriminate|]. apply negb_false_iff in Ea.
  destruct (negb (sending e)); [discriminate|]. destruct (cq e) as [|ev q] eqn:Hq; [discriminate|].
  injection H as <-.
  assert (Hev : cq_ev ev = true).
  { destruct HG as (_ & _ & _ & _ & [Hqs _ _ _ _ _ _ _ _]). rewrite Hq in Hqs. apply qs_ok_pop_cq in Hqs. tauto. }
  destruct ev; try discriminate; prj.
  - now apply ev_ConnectReq.
  - revert HG. good_intro. rewrite Hq in *. cbn [handle_event]. fin_done. good_split.
Qed.

Lemma step_DListenerDropped e e' : Good e -> step_opt e DListenerDropped = Some e' -> WF e'.
Proof.
  good_intro. intros H. unfold step_opt in H. cases. inj H.
  unfold handle_event. fin_done. good_split.
Qed.

Lemma step_DGoodbye e e' : Good e -> step_opt e DGoodbye = Some e' -> WF e'.
Proof.
  good_intro. intros H. unfold step_opt in H. cases. inj H.
  unfold handle_event. fin_done. good_split.
  intros Hg. apply Hconn. cbn [andb] in Hg. rewrite Hg. apply andb_false_r.
Qed.

Ltac core_split := unfold core_ok; prj; (split; [|split; [|split; [|split]]]); auto.
Ltac lq_split := unfold lq_ok; prj; split; try assumption; try lia.
Ltac fin_proto := apply finish_Proto; assumption.

Section Recv.
Variable e : ep.
Hypothesis HG : Good e.

Let Hp : panicked e = None. Proof. apply HG. Qed.
Let Hd : dead e = None. Proof. apply HG. Qed.
Let Hnd : NoDup (alloc e). Proof. apply HG. Qed.
Let Hlen : len (alloc e) <= max_ports e. Proof. apply HG. Qed.
Let Hqs : qs_ok (cq e) (chq e). Proof. destruct HG as (_ & _ & _ & _ & []). assumption. Qed.
Let Hreq : req_ok (outstanding (mx e)) (requests e) (chq e). Proof. destruct HG as (_ & _ & _ & _ & []). assumption. Qed.
Let Hbuf : buf_ok (cfg_buffer (mx e)) (ports (mx e)). Proof. destruct HG as (_ & _ & _ & _ & []). assumption. Qed.
Let Hlq : lq_ok (mx e). Proof. destruct HG as (_ & _ & _ & _ & []). assumption. Qed.
Let Hcore := core_of e HG.

Lemma rv_simple n : WF (finish e (handle_received (mx e) Reset n)) /\ WF (finish e (handle_received (mx e) Ping n)).
Proof.
  split; cbn [handle_received].
  - fin_proto.
  - fin_done. apply Good_of; prj; auto.
Qed.

Lemma rv_upd p c c' :
  lookup p (ports (mx e)) = Some (Connected c) ->
  tx_dropped c' = tx_dropped c -> rx_dropped c' = rx_dropped c -> rx_closed c' = rx_closed c ->
  flat_map snd (rxq c') = flat_map snd (rxq c) ->
  (used c' <= cfg_buffer (mx e) /\ count (fun x => fst x =? 0) (rxq c') <= b2n (negb (rx_open c')) /\ all4 c' = false) ->
  WF (finish e (Done (mx e <| ports := insert p (Connected c') (ports (mx e)) |>) [])).
Proof.
  intros Hl E1 E2 E3 E4 Hb. fin_done. apply Good_of; prj; auto.
  - eapply core_upd; eauto.
  - now apply buf_ok_upd.
Qed.

Lemma rv_Data p f l n : WF (finish e (handle_received (mx e) (Data p f l) n)).
Proof.
  cbn [handle_received]. destruct (lookup p (ports (mx e))) as [[|c]|] eqn:El; try fin_proto.
  destruct (rx_open c) eqn:Eo; [|fin_proto].
  destruct ((n <? 4294967296) && (n <=? cfg_chunk (mx e))); [|fin_proto].
  destruct ((used c + N.max DATA_MIN_COST n <? 4294967296) && (used c + N.max DATA_MIN_COST n <=? cfg_buffer (mx e))) eqn:Ec; [|fin_proto].
  destruct (Hbuf _ _ El) as (B1 & B2 & B3). bools. apply N.leb_le in H0.
  eapply rv_upd; eauto; prj.
  - rewrite flat_map_app. cbn [flat_map snd app]. apply app_nil_r.
  - clear - B1 B2 B3 H0. unfold used, all4 in *. prj. rewrite map_app, sum_app, count_snoc. cbn [map fst sum]. repeat split; auto; try lia.
    change DATA_MIN_COST with 1 in *. destruct (N.max 1 n =? 0) eqn:E0; [apply N.eqb_eq in E0; lia|]. cbn [b2n]. lia.
Qed.

Lemma rv_PortCredits p cr n : WF (finish e (handle_received (mx e) (PortCredits p cr) n)).
Proof.
  cbn [handle_received]. destruct (lookup p (ports (mx e))) as [[|c]|] eqn:El; try fin_proto.
  destruct (pool c + cr <? 4294967296); [|fin_proto].
  eapply rv_upd; eauto. exact (Hbuf _ _ El).
Qed.

Lemma rv_upd_free p c c' :
  lookup p (ports (mx e)) = Some (Connected c) ->
  tx_dropped c' = tx_dropped c -> rx_dropped c' = rx_dropped c -> rx_closed c' = rx_closed c ->
  flat_map snd (rxq c') = flat_map snd (rxq c) ->
  used c' <= cfg_buffer (mx e) -> count (fun x => fst x =? 0) (rxq c') <= b2n (negb (rx_open c')) ->
  WF (finish e (upd_free (mx e) p c' [])).
Proof. intros Hl E1 E2 E3 E4 B1 B2. apply (fin_upd_free e p c); auto. eapply core_upd; eauto. Qed.

Lemma rv_ReceiveClose p n : WF (finish e (handle_received (mx e) (ReceiveClose p) n)).
Proof.
  rewrite hr_ReceiveClose. destruct (lookup p (ports (mx e))) as [[|c]|] eqn:El; try fin_proto.
  destruct (negb (rrx_closed c)); [|fin_proto]. destruct (Hbuf _ _ El) as (B1 & B2 & _).
  now apply (rv_upd_free p c).
Qed.

Lemma rv_SendFinish p n : WF (finish e (handle_received (mx e) (SendFinish p) n)).
Proof.
  rewrite hr_SendFinish. destruct (lookup p (ports (mx e))) as [[|c]|] eqn:El; try fin_proto.
  destruct (rx_open c) eqn:Eo; [|fin_proto]. destruct (Hbuf _ _ El) as (B1 & B2 & _).
  apply (rv_upd_free p c); auto; unfold used in *; prj.
  - rewrite flat_map_app. apply app_nil_r.
  - clear - B1. rewrite map_app, sum_app. cbn [map fst sum]. lia.
  - clear - B2 Eo. rewrite count_snoc, Eo in *. cbn [fst negb b2n] in *. rewrite N.eqb_refl. cbn [b2n]. lia.
Qed.

Lemma rv_ReceiveFinish p n : WF (finish e (handle_received (mx e) (ReceiveFinish p) n)).
Proof.
  rewrite hr_ReceiveFinish. destruct (lookup p (ports (mx e))) as [[|c]|] eqn:El; try fin_proto.
  destruct (Hbuf _ _ El) as (B1 & B2 & _). now apply (rv_upd_free p c).
Qed.

Lemma rv_flags n :
  WF (finish e (handle_received (mx e) ListenerFinish n)) /\ WF (finish e (handle_received (mx e) Goodbye n)).
Proof.
  destruct Hcore as (C1 & C2 & C3 & C4 & C5).
  split; cbn [handle_received]; fin_done; apply Good_of; prj; auto; core_split.
  intros Hg. apply C5. rewrite andb_true_r in Hg. rewrite Hg. reflexivity.
Qed.

Lemma rv_Hello v c n : WF (finish e (handle_received (mx e) (Hello v c) n)).
Proof. cbn [handle_received]. fin_proto. Qed.

Lemma rv_ClientFinish n : WF (finish e (handle_received (mx e) ClientFinish n)).
Proof.
  destruct Hcore as (C1 & C2 & C3 & C4 & C5). destruct Hlq as [L1 L2].
  cbn [handle_received]. destruct (listen_open (mx e)).
  - destruct ((cfg_connect_queue (mx e) + 1 <=? lq_wait (mx e)) || (cfg_connect_queue (mx e) + 1 <=? lq_nowait (mx e))) eqn:Eq; [fin_proto|].
    apply orb_false_iff in Eq as [Q1 Q2]. apply N.leb_gt in Q1, Q2.
    fin_done; apply Good_of; prj; auto; try core_split; try (clear - L1 L2 Q1 Q2; lq_split).
  - fin_done; apply Good_of; prj; auto; try core_split; try lq_split.
Qed.

Lemma req_ok_new out reqs chq r s :
  mem r out = false -> is_answered (Some s) = false -> req_ok out reqs chq -> req_ok (r :: out) (insert r s reqs) chq.
Proof.
  intros Hm Hs H r0. pose proof (H r0) as [H1 H2]. rewrite lookup_insert, mem_cons. destruct (r0 =? r) eqn:E.
  - apply N.eqb_eq in E. subst r0. rewrite Hm in H2. destruct (lookup r reqs); [discriminate|].
    rewrite Hs. cbn [orb is_some is_answered] in *. auto.
  - cbn [orb]. auto.
Qed.
Lemma req_none r : mem r (outstanding (mx e)) = false -> lookup r (requests e) = None.
Proof. intros Hm. destruct (Hreq r) as [_ H2]. rewrite Hm in H2. now destruct (lookup r (requests e)). Qed.

Lemma rv_OpenPort cp w id n : WF (finish e (handle_received (mx e) (OpenPort cp w id) n)).
Proof.
  destruct Hcore as (C1 & C2 & C3 & C4 & C5). destruct Hlq as [L1 L2].
  cbn [handle_received]. destruct (mem cp (outstanding (mx e))) eqn:Em; [fin_proto|].
  pose proof (req_none _ Em) as Hn.
  destruct (listen_open (mx e)).
  - match goal with |- context [if ?c then Proto _ _ else _] => destruct c eqn:Eq end; [fin_proto|]. apply N.leb_gt in Eq.
    destruct w; fin_done; destruct (listener_alive e); prj; apply Good_of; prj; auto;
      lazymatch goal with
      | |- req_ok _ _ _ => apply req_ok_new; now auto
      | |- core_ok _ _ _ _ _ _ _ _ => core_split; now apply (portq_ok_set _ _ _ _ None)
      | |- lq_ok _ => clear - L1 L2 Eq; lq_split
      end.
  - fin_done. apply Good_of; prj; auto;
      lazymatch goal with
      | |- req_ok _ _ _ => apply req_ok_new; now auto
      | |- core_ok _ _ _ _ _ _ _ _ => core_split; now apply (portq_ok_set _ _ _ _ None)
      | |- lq_ok _ => lq_split
      end.
Qed.

Lemma rv_PortOpened cp sp n : WF (finish e (handle_received (mx e) (PortOpened cp sp) n)).
Proof.
  destruct Hcore as (C1 & C2 & C3 & C4 & C5).
  cbn [handle_received]. destruct (lookup cp (ports (mx e))) as [[req|c]|] eqn:El; try fin_proto.
  destruct (tab_newport _ _ _ _ _ cp (mx e) sp (conj C2 (conj C3 (conj Hbuf C4)))) as (T1 & T2 & T3 & T4); [now rewrite El|].
  fin_done. apply Good_of; prj; auto. core_split.
  - eapply num_ok_upd; eauto.
  - intros Hg. eapply conn_ok_resolve_insert; eauto.
Qed.

Lemma rv_Rejected cp np n : WF (finish e (handle_received (mx e) (Rejected cp np) n)).
Proof.
  destruct Hcore as (C1 & C2 & C3 & C4 & C5).
  cbn [handle_received]. destruct (lookup cp (ports (mx e))) as [[req|c]|] eqn:El; try fin_proto.
  fin_done. apply Good_of; prj; auto.
  - now apply NoDup_del.
  - clear - Hlen. pose proof (len_del cp (alloc e)). lia.
  - core_split.
    + apply num_ok_remove; [congruence|assumption].
    + apply handle_ok_remove_nonconn; [now rewrite El|assumption].
    + apply portq_ok_remove; auto. now rewrite El.
    + now apply NoDup_keys_remove.
    + intros Hg. eapply conn_ok_resolve_remove; eauto.
  - now apply buf_ok_remove.
Qed.

Lemma rv_PortData p f l w ps ids n : WF (finish e (handle_received (mx e) (PortData p f l w ps ids) n)).
Proof.
  destruct Hcore as (C1 & C2 & C3 & C4 & C5).
  rewrite hr_PortData. destruct (lookup p (ports (mx e))) as [[|c]|] eqn:El; try fin_proto.
  destruct (rx_open c) eqn:Eo; [|fin_proto].
  destruct (is_nil ps) eqn:Eps; [fin_proto|].
  assert (Hlen1 : 1 <= len ps) by (destruct ps; [discriminate|rewrite len_cons; clear; lia]).
  destruct (ins_out ps (outstanding (mx e))) as [o|] eqn:Ei; [|fin_proto]. cbv zeta.
  destruct ((PORT_COST * len ps <? 4294967296) && (PORT_COST * len ps <=? cfg_chunk (mx e))); [|fin_proto].
  destruct ((used c + PORT_COST * len ps <? 4294967296) && (used c + PORT_COST * len ps <=? cfg_buffer (mx e))) eqn:Ec; [|fin_proto].
  bools. apply N.leb_le in H0. change PORT_COST with 4 in *.
  pose proof (ins_out_spec _ _ _ Ei) as Hi.
  destruct (Hbuf _ _ El) as (B1 & B2 & B3).
  set (st := match lookup p (handles e) with Some h => match h_rx h with Alive => RPortQ | _ => RDropped end | None => RDropped end).
  assert (Hst : is_answered (Some st) = false) by (subst st; destruct (lookup p (handles e)) as [h|]; [destruct (h_rx h)|]; reflexivity).
  assert (Hal : is_portq (Some st) = is_alive (h_rx (hget (handles e) p))).
  { subst st. unfold hget. destruct (lookup p (handles e)) as [h|]; [destruct (h_rx h)|]; reflexivity. }
  fin_done. fold st. apply Good_of; prj; auto.
  - intros r. destruct (Hreq r) as [R1 R2]. destruct (Hi r) as (I1 & I2 & I3). rewrite lookup_fold_insert, I1.
    destruct (mem r ps) eqn:Em; cbn [orb]; [|auto].
    specialize (I2 eq_refl). rewrite (req_none _ I2) in R1. rewrite Hst. cbn [is_some]. auto.
  - core_split.
    + exact (num_ok_upd _ _ _ _ _ _ _ El C1).
    + now apply (handle_ok_upd _ _ _ _ c).
    + intros r. pose proof (C3 r) as Hr. destruct (Hi r) as (I1 & I2 & I3). rewrite lookup_fold_insert. unfold portq_reqs in *.
      pose proof (tab_insert (pq_ent (handles e)) r p (Connected (c <| rxq := rxq c ++ [(4 * len ps, ps)] |>)) _ C4 (pq_ent_None _)) as T.
      rewrite El in T.
      destruct (is_alive (h_rx (hget (handles e) p))) eqn:Eal.
      * rewrite !(pq_ent_alive _ _ _ Eal) in T. cbn [queued_of] in T. prj. rewrite flat_map_app in T.
        cbn [flat_map snd] in T. rewrite app_nil_r, !occ_app in T.
        destruct (mem r ps) eqn:Em.
        -- specialize (I2 eq_refl). rewrite (req_none _ I2) in Hr. rewrite Hal. cbn [is_portq b2n] in *. clear - Hr T I3. lia.
        -- cbn [b2n] in I3. clear - Hr T I3. lia.
      * rewrite !(pq_ent_dead _ _ _ Eal), !occ_nil in T.
        destruct (mem r ps) eqn:Em.
        -- specialize (I2 eq_refl). rewrite (req_none _ I2) in Hr. rewrite Hal. cbn [is_portq b2n] in *. clear - Hr T. lia.
        -- clear - Hr T. lia.
    + now apply NoDup_keys_insert.
    + intros Hg. apply conn_ok_insert; [assumption|now rewrite El|auto].
  - apply buf_ok_upd; [assumption|]. clear - B1 B2 B3 H0 Eo Hlen1. unfold used, all4 in *. prj. rewrite map_app, sum_app, count_snoc. cbn [map fst sum].
    destruct (4 * len ps =? 0) eqn:E0; [apply N.eqb_eq in E0; lia|]. cbn [b2n]. repeat split; auto; lia.
Qed.
End Recv.

(** the mux a received message is handled on: the occupancy of a closed listener queue is 0 *)
Definition recv_mux (e : ep) : mux :=
  if listener_alive e then mx e else mx e <| lq_wait := 0 |> <| lq_nowait := 0 |>.

Lemma Good_recv_mux e : Good e -> Good (e <| mx := recv_mux e |>).
Proof.
  good_intro. unfold recv_mux. destruct (listener_alive e); good_split. clear. split; prj; lia.
Qed.

Lemma step_Recv e m n e' : Good e -> step_opt e (Recv m n) = Some e' -> WF e'.
Proof.
  intros HG0 H. unfold step_opt in H. destruct (negb (alive e)); [discriminate|].
  cbv zeta in H. fold (recv_mux e) in H. inj H.
  pose proof (Good_recv_mux e HG0) as HG.
  set (e0 := e <| mx := recv_mux e |>) in *. change (recv_mux e) with (mx e0). destruct m.
  - apply rv_simple; assumption.
  - now apply rv_Hello.
  - apply rv_simple; assumption.
  - now apply rv_OpenPort.
  - now apply rv_PortOpened.
  - now apply rv_Rejected.
  - now apply rv_Data.
  - now apply rv_PortData.
  - now apply rv_PortCredits.
  - now apply rv_SendFinish.
  - now apply rv_ReceiveClose.
  - now apply rv_ReceiveFinish.
  - now apply rv_ClientFinish.
  - apply rv_flags; assumption.
  - apply rv_flags; assumption.
Qed.
