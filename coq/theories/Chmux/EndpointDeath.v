(** Fail-stop at the endpoint: when the dispatcher ends -- with a protocol/reset error caused by what it
    received, or after Goodbye was sent and received -- it stops for good, and no local connect request
    is left waiting: each has an outcome. *)
From Remoc Require Import Lib.Base Chmux.Wire Chmux.Mux Chmux.Endpoint Chmux.EndpointLemmas Chmux.EndpointEffects.
From RecordUpdate Require Import RecordUpdate.

Definition no_waiting (e : ep) : Prop := forall req, lookup req (connects e) <> Some CWaiting.

Lemma resolve_no_waiting e : no_waiting (resolve_waiting e).
Proof. intros req. rewrite lookup_resolve. now destruct (lookup req (connects e)) as [[]|]. Qed.

Definition ended (e : ep) : Prop :=
  dead e <> None \/ (goodbye_sent (mx e) && goodbye_received (mx e) = true).

Lemma alive_false_of_ended e : ended e -> alive e = false.
Proof.
  unfold ended, alive. intros [H|H].
  - destruct (dead e); [reflexivity|congruence].
  - destruct (dead e), (panicked e); try reflexivity. now rewrite H.
Qed.

Lemma classic_ended e : ended e \/ ~ ended e.
Proof.
  unfold ended. destruct (dead e); [left; left; discriminate|].
  destruct (goodbye_sent (mx e) && goodbye_received (mx e)); [left; right; reflexivity|].
  right. intros [H|H]; [congruence|discriminate].
Qed.

Lemma ended_stuck e a : ended e -> step_opt e a = None.
Proof. intros H. unfold step_opt. now rewrite (alive_false_of_ended e H). Qed.

Lemma finish_ended e o :
  ended (finish e o) -> ~ ended e -> no_waiting (finish e o).
Proof.
  intros He Hn. destruct o as [m effs|err effs|site]; cbn [finish] in *.
  - destruct (goodbye_sent m && goodbye_received m) eqn:Eg; [apply resolve_no_waiting|].
    exfalso. destruct He as [He|He].
    + rewrite apply_effs_dead in He. cbn in He. apply Hn. now left.
    + rewrite apply_effs_mx in He. cbn in He. congruence.
  - apply resolve_no_waiting.
  - exfalso. apply Hn. destruct He as [He|He]; cbn in He; [left|right]; exact He.
Qed.

Lemma same_end e e' :
  dead e' = dead e -> goodbye_sent (mx e') = goodbye_sent (mx e) -> goodbye_received (mx e') = goodbye_received (mx e) ->
  ended e' -> ended e.
Proof. unfold ended. intros -> -> ->. auto. Qed.

(** every step that makes the endpoint end is a dispatcher step through [finish] *)
Lemma step_ended e a e' :
  step_opt e a = Some e' -> ~ ended e -> ended e' -> no_waiting e'.
Proof.
  intros H Hn He. destruct (disp_outcome e a) as [o|] eqn:Ho.
  - destruct (step_disp _ _ _ _ H Ho) as (e1 & -> & E1 & _ & _ & E4 & _). apply finish_ended; [exact He|].
    intros Hx. apply Hn. destruct (disp_mux_same e a) as (_ & _ & G1 & G2).
    refine (same_end e e1 _ _ _ Hx); rewrite ?E1; auto.
  - destruct (step_user _ _ _ H Ho) as ((D & G1 & G2) & _). exfalso. apply Hn. exact (same_end e e' D G1 G2 He).
Qed.

Lemma run_cons a acts e : run (a :: acts) e = run acts (step e a).
Proof. reflexivity. Qed.

Lemma run_stuck acts : forall e, ended e -> run acts e = e.
Proof.
  induction acts as [|x l IH]; intros e He; [reflexivity|].
  rewrite run_cons. unfold step. rewrite (ended_stuck e x He). now apply IH.
Qed.

Theorem ended_no_waiting acts : forall e,
  ~ ended e -> ended (run acts e) -> no_waiting (run acts e).
Proof.
  induction acts as [|a acts IH]; intros e Hn He.
  - exfalso. apply Hn. exact He.
  - rewrite run_cons in *. unfold step in *.
    destruct (step_opt e a) as [e'|] eqn:E.
    + destruct (classic_ended e') as [He'|Hn'].
      * rewrite (run_stuck acts e' He') in *. eapply step_ended; eauto.
      * apply IH; assumption.
    + apply IH; assumption.
Qed.
