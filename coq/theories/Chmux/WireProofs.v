(** The wire codec [Wire.v] against the version-3 table [Spec3.v]: the encoder renders the table's layout,
    the decoder inverts the encoder on well-formed messages, never exhausts its fuel, accepts only
    well-formed messages and rejects what the table does not know; framing and frame lengths. *)
From Remoc Require Import Lib.Base Gen.Consts Chmux.Wire Chmux.Spec3.

#[global] Arguments le : simpl never.
#[global] Arguments rd : simpl never.

(** evaluate closed comparisons *)
Ltac ceval :=
  lazy beta iota zeta delta
    [N.eqb Pos.eqb MSG_RESET MSG_HELLO MSG_PING MSG_OPEN_PORT MSG_PORT_OPENED MSG_REJECTED MSG_DATA MSG_PORT_DATA
     MSG_PORT_CREDITS MSG_SEND_FINISH MSG_RECEIVE_CLOSE MSG_RECEIVE_FINISH MSG_CLIENT_FINISH MSG_LISTENER_FINISH MSG_GOODBYE].

Lemma le_S k x : le (S k) x = x mod 256 :: le k (x / 256).
Proof. reflexivity. Qed.

Lemma le_length k x : length (le k x) = k.
Proof. revert x; induction k as [|k IH]; intros x; [reflexivity|]. rewrite le_S. cbn [length]. now rewrite IH. Qed.

Lemma le_bytes_ok k x : bytes_ok (le k x) = true.
Proof.
  revert x; induction k as [|k IH]; intros x; [reflexivity|].
  rewrite le_S. unfold bytes_ok in *. cbn [forallb]. rewrite IH.
  unfold is_byte. rewrite andb_true_r. apply N.ltb_lt. apply N.mod_lt. lia.
Qed.

Lemma le_val_le k x : x < 256 ^ N.of_nat k -> le_val (le k x) = x.
Proof.
  revert x; induction k as [|k IH]; intros x Hx.
  - change (256 ^ N.of_nat 0) with 1 in Hx. change (le 0 x) with (@nil N). cbn [le_val]. lia.
  - rewrite le_S. cbn [le_val]. rewrite IH.
    + pose proof (N.div_mod x 256). lia.
    + replace (N.of_nat (S k)) with (N.succ (N.of_nat k)) in Hx by lia.
      rewrite N.pow_succ_r' in Hx. apply N.div_lt_upper_bound; lia.
Qed.

Lemma firstn_app_exact {A} (l1 l2 : list A) k : length l1 = k -> firstn k (l1 ++ l2) = l1.
Proof. intros <-. apply firstn_app_all. Qed.
Lemma skipn_app_exact {A} (l1 l2 : list A) k : length l1 = k -> skipn k (l1 ++ l2) = l2.
Proof. intros <-. rewrite skipn_app, Nat.sub_diag, skipn_all. reflexivity. Qed.

(** [u8], [u16], [u32], [u64] are this bound for 1, 2, 4, 8 bytes, up to computation: a hypothesis
    [u32 x = true] discharges the premise of [rd_le_b 4] by [assumption] *)
Lemma rd_le_b k x r : (x <? 256 ^ N.of_nat k) = true -> rd k (le k x ++ r) = Some (x, r).
Proof.
  intros Hx. apply N.ltb_lt in Hx. unfold rd. rewrite app_length, le_length.
  destruct (Nat.ltb_spec (k + length r) k) as [H|H]; [lia|].
  rewrite firstn_app_exact, skipn_app_exact by apply le_length. now rewrite le_val_le.
Qed.
Lemma rd_le_nil k x : (x <? 256 ^ N.of_nat k) = true -> rd k (le k x) = Some (x, []).
Proof. intros H. rewrite <- (app_nil_r (le k x)). now apply rd_le_b. Qed.
Lemma rd1 x r : u8 x = true -> rd 1 (x :: r) = Some (x, r).
Proof. intros H. unfold u8 in H. unfold rd. cbn. f_equal. f_equal. lia. Qed.

Lemma rd_short k bs : (length bs < k)%nat -> rd k bs = None.
Proof. intros H. unfold rd. destruct (Nat.ltb_spec (length bs) k); [reflexivity|lia]. Qed.

Lemma rd_some k bs x r : rd k bs = Some (x, r) -> (k <= length bs)%nat /\ r = skipn k bs /\ x = le_val (firstn k bs).
Proof. unfold rd. destruct (Nat.ltb_spec (length bs) k); [discriminate|]. intros [= <- <-]. auto. Qed.

Lemma le_val_bound bs : bytes_ok bs = true -> le_val bs < 256 ^ N.of_nat (length bs).
Proof.
  induction bs as [|b bs IH]; intros H.
  - cbn. lia.
  - unfold bytes_ok in *. cbn [forallb] in H. apply andb_true_iff in H as [Hb Hbs]. unfold is_byte in Hb.
    specialize (IH Hbs). cbn [le_val length]. replace (N.of_nat (S (length bs))) with (N.succ (N.of_nat (length bs))) by lia.
    rewrite N.pow_succ_r'. lia.
Qed.

Lemma le_le_val bs : bytes_ok bs = true -> le (length bs) (le_val bs) = bs.
Proof.
  induction bs as [|b bs IH]; intros H; [reflexivity|].
  unfold bytes_ok in *. cbn [forallb] in H. apply andb_true_iff in H as [Hb Hbs]. unfold is_byte in Hb.
  cbn [length le_val]. rewrite le_S. f_equal.
  - rewrite (N.mul_comm 256), N.mod_add by lia. apply N.mod_small. lia.
  - rewrite (N.mul_comm 256), N.div_add by lia.
    rewrite N.div_small by lia. rewrite N.add_0_l. exact (IH Hbs).
Qed.

Lemma bytes_ok_app a b : bytes_ok (a ++ b) = bytes_ok a && bytes_ok b.
Proof. unfold bytes_ok. apply forallb_app. Qed.

Lemma bytes_ok_firstn k bs : bytes_ok bs = true -> bytes_ok (firstn k bs) = true.
Proof.
  unfold bytes_ok. rewrite !forallb_forall. intros H x Hx. apply H.
  rewrite <- (firstn_skipn k bs). apply in_or_app. now left.
Qed.
Lemma bytes_ok_skipn k bs : bytes_ok bs = true -> bytes_ok (skipn k bs) = true.
Proof.
  unfold bytes_ok. rewrite !forallb_forall. intros H x Hx. apply H.
  rewrite <- (firstn_skipn k bs). apply in_or_app. now right.
Qed.

Lemma rd_ok_b k bs x r : bytes_ok bs = true -> rd k bs = Some (x, r) ->
  (x <? 256 ^ N.of_nat k) = true /\ bytes_ok r = true.
Proof.
  intros Hb H. apply rd_some in H as (Hk & -> & ->). split; [|now apply bytes_ok_skipn]. apply N.ltb_lt.
  pose proof (le_val_bound (firstn k bs) (bytes_ok_firstn _ _ Hb)) as HB.
  now rewrite firstn_length, Nat.min_l in HB by lia.
Qed.
Definition rd_ok2 bs x r : bytes_ok bs = true -> rd 2 bs = Some (x, r) -> u16 x = true /\ bytes_ok r = true := rd_ok_b 2 bs x r.
Definition rd_ok4 bs x r : bytes_ok bs = true -> rd 4 bs = Some (x, r) -> u32 x = true /\ bytes_ok r = true := rd_ok_b 4 bs x r.
Definition rd_ok8 bs x r : bytes_ok bs = true -> rd 8 bs = Some (x, r) -> u64 x = true /\ bytes_ok r = true := rd_ok_b 8 bs x r.

Lemma codes_match :
  all_codes = Spec3.codes /\ MAGIC = Spec3.magic /\ PROTOCOL_VERSION = 3 /\
  PROTOCOL_VERSION_PORT_ID = Spec3.first_version_with_ids /\
  (MSG_OPEN_PORT_FLAG_WAIT, MSG_OPEN_PORT_FLAG_ID) = (1, 2) /\
  MSG_REJECTED_FLAG_NO_PORTS = 1 /\
  (MSG_DATA_FLAG_FIRST, MSG_DATA_FLAG_LAST) = (1, 2) /\
  (MSG_PORT_DATA_FLAG_FIRST, MSG_PORT_DATA_FLAG_LAST, MSG_PORT_DATA_FLAG_WAIT, MSG_PORT_DATA_FLAG_IDS) = (1, 2, 4, 8) /\
  MAX_MSG_LENGTH = 16 /\
  (XCFG_MIN_CHUNK_SIZE, XCFG_MIN_RECEIVE_BUFFER, XCFG_MIN_CONNECT_QUEUE) = (4, 4, 1).
Proof. repeat split; reflexivity. Qed.

Lemma le1_small x : u8 x = true -> le 1 x = [x].
Proof. intros H. unfold u8 in H. unfold le. f_equal. apply N.mod_small. lia. Qed.

Lemma enc_ports_layout ports : enc_ports ports = render (map F32 ports).
Proof. induction ports as [|p r IH]; [reflexivity|]. cbn [enc_ports map]. unfold render in *. cbn [flat_map render_field]. now rewrite IH. Qed.

Lemma enc_ports_ids_layout ports ids : enc_ports_ids ports ids = render (interleave ports ids).
Proof.
  revert ids; induction ports as [|p r IH]; intros [|i ri]; try reflexivity.
  cbn [enc_ports_ids interleave]. unfold render in *. cbn [flat_map render_field]. rewrite IH. now rewrite app_assoc.
Qed.

Lemma render_app a b : render (a ++ b) = render a ++ render b.
Proof. unfold render. apply flat_map_app. Qed.

Lemma timeout_millis_wire t : timeout_millis t = wire_timeout t.
Proof.
  unfold timeout_millis, wire_timeout, NS_PER_MS, U64_MAX. destruct t as [ns|]; [|reflexivity].
  cbv zeta. generalize (ns / 1000000). intros q. destruct (N.ltb_spec q 1); [lia|].
  destruct (N.ltb_spec q 18446744073709551615); lia.
Qed.

Theorem enc_layout3 m : wf m = true -> enc m = Some (render (layout3 m)).
Proof.
  destruct m as [|v c| |p w id|c s|c np|p f l|p f l w ports ids|p c|p|p|p| | |]; cbn [wf]; intros H; try reflexivity.
  - apply andb_true_iff in H as [Hv _].
    unfold enc, layout3, render, enc_cfg. cbn [flat_map render_field]. rewrite (le1_small v Hv), timeout_millis_wire, app_nil_r.
    reflexivity.
  - destruct w, id; reflexivity.
  - destruct np; reflexivity.
  - destruct f, l; reflexivity.
  - destruct ids as [is|].
    + apply andb_true_iff in H as [_ H]. apply andb_true_iff in H as [_ H].
      unfold enc. rewrite H. unfold layout3. rewrite render_app, <- enc_ports_ids_layout.
      destruct f, l, w; reflexivity.
    + unfold enc, layout3. rewrite render_app, <- enc_ports_layout. destruct f, l, w; reflexivity.
Qed.

Ltac hasval :=
  repeat match goal with
  | |- context [has ?a ?b] => let v := eval vm_compute in (has a b) in change (has a b) with v
  end.
Ltac flagval :=
  match goal with
  | |- context [rd 1 (?f :: ?r)] => let v := eval vm_compute in f in change f with v
  end.

Lemma dec_ports_enc_noid ports fuel :
  forallb u32 ports = true -> (length (enc_ports ports) < fuel)%nat ->
  dec_ports fuel false (enc_ports ports) = POk ports [].
Proof.
  revert fuel; induction ports as [|p r IH]; intros fuel Hp Hf.
  - destruct fuel; [cbn in Hf; lia|]. reflexivity.
  - cbn [forallb] in Hp. apply andb_true_iff in Hp as [Hp Hr]. cbn [enc_ports] in *.
    rewrite app_length, le_length in Hf. destruct fuel as [|fuel]; [lia|].
    cbn [dec_ports]. rewrite (rd_le_b 4) by assumption. rewrite IH by (auto; lia). reflexivity.
Qed.

Lemma dec_ports_enc_ids ports ids fuel :
  forallb u32 ports = true -> forallb u32 ids = true -> length ports = length ids ->
  (length (enc_ports_ids ports ids) < fuel)%nat ->
  dec_ports fuel true (enc_ports_ids ports ids) = POk ports ids.
Proof.
  revert ids fuel; induction ports as [|p r IH]; intros [|i ri] fuel Hp Hi Hl Hf; try discriminate.
  - destruct fuel; [cbn in Hf; lia|]. reflexivity.
  - cbn [forallb] in Hp, Hi. apply andb_true_iff in Hp as [Hp Hr]. apply andb_true_iff in Hi as [Hi Hri].
    cbn [enc_ports_ids] in *. rewrite !app_length, !le_length in Hf. destruct fuel as [|fuel]; [lia|].
    cbn [dec_ports]. rewrite (rd_le_b 4) by assumption. rewrite (rd_le_b 4) by assumption.
    rewrite IH; auto; cbn [length] in Hl; lia.
Qed.

(** what the decoder makes of an encoded configuration: the timeout truncated to whole
    milliseconds, and "none" if that is zero *)
Definition exchanged (c : xcfg) : xcfg :=
  {| x_timeout := let ms := timeout_millis (x_timeout c) in if ms =? 0 then None else Some (ms * NS_PER_MS);
     x_chunk := x_chunk c; x_buffer := x_buffer c; x_queue := x_queue c |}.

Lemma dec_cfg_enc c r :
  wf_cfg c = true ->
  dec_cfg (enc_cfg c ++ r) =
    if x_chunk c <? XCFG_MIN_CHUNK_SIZE then CInvalid
    else if x_buffer c <? XCFG_MIN_RECEIVE_BUFFER then CInvalid
    else if x_queue c <? XCFG_MIN_CONNECT_QUEUE then CInvalid
    else COk (exchanged c).
Proof.
  unfold wf_cfg. intros H. apply andb_true_iff in H as [H Hq]. apply andb_true_iff in H as [Hc Hb].
  unfold dec_cfg, enc_cfg. rewrite <- !app_assoc.
  rewrite (rd_le_b 8).
  2:{ unfold u64, timeout_millis, U64_MAX. destruct (x_timeout c); lia. }
  rewrite (rd_le_b 4) by assumption. destruct (x_chunk c <? XCFG_MIN_CHUNK_SIZE); [reflexivity|].
  rewrite (rd_le_b 4) by assumption. destruct (x_buffer c <? XCFG_MIN_RECEIVE_BUFFER); [reflexivity|].
  rewrite (rd_le_b 2) by assumption. destruct (x_queue c <? XCFG_MIN_CONNECT_QUEUE); reflexivity.
Qed.

Lemma exchanged_exact c : exact_cfg c = true -> exchanged c = c.
Proof.
  unfold exact_cfg. intros H. apply andb_true_iff in H as [_ H].
  destruct c as [t cs b q]. unfold exchanged. cbn [x_timeout x_chunk x_buffer x_queue] in *. f_equal.
  destruct t as [ns|]; [|reflexivity].
  apply andb_true_iff in H as [H Hle]. apply andb_true_iff in H as [Hmod Hpos].
  apply N.eqb_eq in Hmod. apply N.ltb_lt in Hpos. apply N.leb_le in Hle.
  apply N.div_exact in Hmod; [|discriminate]. unfold timeout_millis.
  (* from here on the quotient is just a number *)
  revert Hmod Hle. generalize (ns / NS_PER_MS). unfold NS_PER_MS, U64_MAX. intros ms Hms Hle.
  replace (N.max 1 (N.min ms 18446744073709551615)) with ms by lia.
  destruct (N.eqb_spec ms 0) as [E0|E0]; [lia|]. f_equal. lia.
Qed.

Lemma dec_hello v c : u8 v = true -> wf_cfg c = true ->
  dec (MSG_HELLO :: MAGIC ++ [v] ++ enc_cfg c) =
    if (x_chunk c <? XCFG_MIN_CHUNK_SIZE) || (x_buffer c <? XCFG_MIN_RECEIVE_BUFFER)
       || (x_queue c <? XCFG_MIN_CONNECT_QUEUE)
    then DInvalid else DOk (Hello v (exchanged c)).
Proof.
  intros Hv Hc. unfold dec. ceval. unfold MAGIC. cbn [app length Nat.ltb Nat.leb firstn skipn combine forallb fst snd]. ceval.
  cbn [andb negb]. rewrite rd1 by assumption. rewrite <- (app_nil_r (enc_cfg c)). rewrite dec_cfg_enc by assumption.
  destruct (x_chunk c <? _), (x_buffer c <? _), (x_queue c <? _); reflexivity.
Qed.

Theorem hello_exchange v c :
  u8 v = true -> wf_cfg c = true ->
  XCFG_MIN_CHUNK_SIZE <= x_chunk c -> XCFG_MIN_RECEIVE_BUFFER <= x_buffer c -> XCFG_MIN_CONNECT_QUEUE <= x_queue c ->
  exists bs, enc (Hello v c) = Some bs /\ dec bs = DOk (Hello v (exchanged c)).
Proof.
  intros Hv Hc H1 H2 H3. eexists. split; [reflexivity|]. rewrite dec_hello by assumption.
  apply N.ltb_ge in H1, H2, H3. now rewrite H1, H2, H3.
Qed.

Theorem dec_enc m : wf m = true -> exists bs, enc m = Some bs /\ dec bs = DOk m.
Proof.
  destruct m as [|v c| |p w id|c s|c np|p f l|p f l w ports ids|p c|p|p|p| | |]; cbn [wf]; intros H.
  (* by position among the constructors: the three messages that carry a port and nothing else;
     [PortOpened] and [PortCredits], a port and one more word *)
  10-12: eexists; (split; [reflexivity|]); unfold dec, on_port; ceval; rewrite (rd_le_nil 4) by assumption; reflexivity.
  5, 9: apply andb_true_iff in H as [H1 H2]; eexists; (split; [reflexivity|]); unfold dec; ceval;
    rewrite (rd_le_b 4), (rd_le_nil 4) by assumption; reflexivity.
  all: try (eexists; split; reflexivity).
  - apply andb_true_iff in H as [Hv Hc]. pose proof Hc as Hex. unfold exact_cfg in Hc.
    apply andb_true_iff in Hc as [Hc _]. apply andb_true_iff in Hc as [Hc H3].
    apply andb_true_iff in Hc as [Hc H2]. apply andb_true_iff in Hc as [Hc H1].
    destruct (hello_exchange v c Hv Hc ltac:(lia) ltac:(lia) ltac:(lia)) as (bs & E & D).
    exists bs. split; [exact E|]. rewrite D. now rewrite exchanged_exact.
  - apply andb_true_iff in H as [Hp Hi]. eexists. split; [reflexivity|].
    unfold dec. ceval. rewrite (rd_le_b 4) by assumption.
    destruct w, id as [i|]; cbn [flag app]; flagval; rewrite rd1 by reflexivity; cbv beta iota; hasval; cbv iota;
      try rewrite (rd_le_nil 4) by assumption; reflexivity.
  - eexists. split; [reflexivity|]. unfold dec. ceval. rewrite (rd_le_b 4) by assumption.
    destruct np; cbn [flag]; flagval; rewrite rd1 by reflexivity; hasval; reflexivity.
  - eexists. split; [reflexivity|]. unfold dec. ceval. rewrite (rd_le_b 4) by assumption.
    destruct f, l; cbn [flag]; flagval; rewrite rd1 by reflexivity; hasval; reflexivity.
  - apply andb_true_iff in H as [H Hids]. apply andb_true_iff in H as [Hp Hports].
    destruct ids as [is|].
    + apply andb_true_iff in Hids as [His Hlen]. unfold enc. rewrite Hlen. apply Nat.eqb_eq in Hlen.
      eexists. split; [reflexivity|]. unfold dec. ceval. rewrite (rd_le_b 4) by assumption.
      destruct f, l, w; cbn [flag app]; flagval; rewrite rd1 by reflexivity; cbv beta iota zeta; hasval; cbv iota;
        rewrite dec_ports_enc_ids by (auto; lia); reflexivity.
    + eexists. split; [reflexivity|]. unfold dec. ceval. rewrite (rd_le_b 4) by assumption.
      destruct f, l, w; cbn [flag app]; flagval; rewrite rd1 by reflexivity; cbv beta iota zeta; hasval; cbv iota;
        rewrite dec_ports_enc_noid by (auto; lia); reflexivity.
Qed.

Lemma dec_ports_no_fuel fuel ids bs : (length bs < fuel)%nat -> dec_ports fuel ids bs <> PFuel.
Proof.
  revert bs; induction fuel as [|fuel IH]; intros bs Hf; [lia|].
  cbn [dec_ports]. destruct (rd 4 bs) as [[p r]|] eqn:E; [|discriminate].
  apply rd_some in E as (Hk & -> & _).
  destruct ids.
  - destruct (rd 4 (skipn 4 bs)) as [[i r']|] eqn:E2; [|discriminate].
    apply rd_some in E2 as (Hk2 & -> & _).
    specialize (IH (skipn 4 (skipn 4 bs))). rewrite !skipn_length in IH, Hk2.
    destruct (dec_ports fuel true (skipn 4 (skipn 4 bs))); try discriminate. apply IH. rewrite skipn_length. lia.
  - specialize (IH (skipn 4 bs)). rewrite skipn_length in IH.
    destruct (dec_ports fuel false (skipn 4 bs)); try discriminate. apply IH. lia.
Qed.

Theorem dec_no_fuel bs : dec bs <> DFuel.
Proof.
  unfold dec, on_port. destruct bs as [|c r]; [discriminate|].
  repeat match goal with
  | |- (if ?b then _ else _) <> _ => destruct b
  | |- match rd ?k ?x with _ => _ end <> _ => destruct (rd k x) as [[? ?]|]
  | |- match dec_cfg ?x with _ => _ end <> _ => destruct (dec_cfg x)
  | |- _ => discriminate
  end.
  match goal with |- context [dec_ports (S (length ?l)) ?i ?l] =>
    pose proof (dec_ports_no_fuel (S (length l)) i l ltac:(lia)); destruct (dec_ports (S (length l)) i l) end;
  congruence.
Qed.

Lemma dec_ports_wf fuel ids bs ps is :
  bytes_ok bs = true -> dec_ports fuel ids bs = POk ps is ->
  forallb u32 ps = true /\ forallb u32 is = true /\ (if ids then length ps = length is else is = []).
Proof.
  revert bs ps is; induction fuel as [|fuel IH]; intros bs ps is Hb H; [discriminate|].
  cbn [dec_ports] in H. destruct (rd 4 bs) as [[p r]|] eqn:E.
  2:{ injection H as <- <-. destruct ids; auto. }
  destruct (rd_ok4 _ _ _ Hb E) as [Hp Hr].
  destruct ids.
  - destruct (rd 4 r) as [[i r']|] eqn:E2; [|discriminate].
    destruct (rd_ok4 _ _ _ Hr E2) as [Hi Hr'].
    destruct (dec_ports fuel true r') as [ps' is'| |] eqn:E3; try discriminate.
    injection H as <- <-. destruct (IH _ _ _ Hr' E3) as (A & B & C).
    cbn [forallb length]. rewrite Hp, Hi, A, B. auto.
  - destruct (dec_ports fuel false r) as [ps' is'| |] eqn:E3; try discriminate.
    injection H as <- <-. destruct (IH _ _ _ Hr E3) as (A & B & C).
    cbn [forallb]. rewrite Hp, A, B. auto.
Qed.

Lemma dec_cfg_wf bs c : bytes_ok bs = true -> dec_cfg bs = COk c -> exact_cfg c = true.
Proof.
  intros Hb H. unfold dec_cfg in H.
  destruct (rd 8 bs) as [[ms r1]|] eqn:E1; [|discriminate]. destruct (rd_ok8 _ _ _ Hb E1) as [Hms H1].
  destruct (rd 4 r1) as [[cs r2]|] eqn:E2; [|discriminate]. destruct (rd_ok4 _ _ _ H1 E2) as [Hcs H2].
  destruct (N.ltb_spec cs XCFG_MIN_CHUNK_SIZE) as [|Lc]; [discriminate|].
  destruct (rd 4 r2) as [[prb r3]|] eqn:E3; [|discriminate]. destruct (rd_ok4 _ _ _ H2 E3) as [Hprb H3].
  destruct (N.ltb_spec prb XCFG_MIN_RECEIVE_BUFFER) as [|Lb]; [discriminate|].
  destruct (rd 2 r3) as [[cq r4]|] eqn:E4; [|discriminate]. destruct (rd_ok2 _ _ _ H3 E4) as [Hcq H4].
  destruct (N.ltb_spec cq XCFG_MIN_CONNECT_QUEUE) as [|Lq]; [discriminate|].
  injection H as <-. unfold exact_cfg, wf_cfg. cbn [x_timeout x_chunk x_buffer x_queue].
  rewrite Hcs, Hprb, Hcq. cbn [andb].
  rewrite (proj2 (N.leb_le _ _) Lc), (proj2 (N.leb_le _ _) Lb), (proj2 (N.leb_le _ _) Lq). cbn [andb].
  destruct (N.eqb_spec ms 0) as [E0|E0]; [reflexivity|].
  unfold NS_PER_MS, U64_MAX, u64 in *. rewrite N.mod_mul, N.div_mul by discriminate.
  change (0 =? 0) with true. cbn [andb]. clear - Hms E0. apply andb_true_iff. split; lia.
Qed.

(** one read in the decoder's chain, on well-formed bytes: it fails (no message), or yields a value within the
    width read and leaves well-formed bytes *)
Ltac rd_step H :=
  match type of H with
  | match rd ?k ?bs with _ => _ end = _ =>
      let E := fresh "E" in
      destruct (rd k bs) as [[? ?]|] eqn:E; [|discriminate];
      match goal with Hb : bytes_ok bs = true |- _ => destruct (rd_ok_b k bs _ _ Hb E) end
  end.
Ltac wf_fields := cbn [wf]; repeat (apply andb_true_iff; split); first [assumption | reflexivity].

Theorem dec_wf bs m : bytes_ok bs = true -> dec bs = DOk m -> wf m = true.
Proof.
  intros Hb H. unfold dec, on_port in H. destruct bs as [|c r]; [discriminate|].
  unfold bytes_ok in Hb. cbn [forallb] in Hb. apply andb_true_iff in Hb as [_ Hr]. fold (bytes_ok r) in Hr.
  pose proof (bytes_ok_skipn (length MAGIC) r Hr) as Hs.
  repeat match type of H with
  | (if ?b then _ else _) = _ => destruct b eqn:?
  end; try discriminate; repeat rd_step H; try (injection H as <-; wf_fields).
  - destruct (dec_cfg _) as [cfg| |] eqn:E2; try discriminate. injection H as <-.
    cbn [wf]. apply andb_true_iff. split; [assumption|eapply dec_cfg_wf; eassumption].
  - destruct (has _ _); [rd_step H|]; injection H as <-; wf_fields.
  - cbv zeta in H.
    destruct (dec_ports _ _ _) as [ps is| |] eqn:E3; try discriminate.
    injection H as <-. edestruct dec_ports_wf as (A & B & C); [|exact E3|]; [assumption|].
    cbn [wf]. destruct (has _ MSG_PORT_DATA_FLAG_IDS); repeat (apply andb_true_iff; split); auto.
    rewrite C. apply Nat.eqb_refl.
Qed.

(** every accepted byte string decodes to a message that has an encoding, and that encoding
    decodes to the same message *)
Theorem dec_canonical bs m :
  bytes_ok bs = true -> dec bs = DOk m -> exists bs', enc m = Some bs' /\ dec bs' = DOk m.
Proof. intros Hb H. apply dec_enc. eapply dec_wf; eauto. Qed.

(** the encoder emits bytes: every field of the layout is rendered by [le], the magic consists of bytes *)
Definition field_bytes (f : field) : bool := match f with FRaw bs => bytes_ok bs | _ => true end.

Lemma render_bytes fs : forallb field_bytes fs = true -> bytes_ok (render fs) = true.
Proof.
  unfold render. induction fs as [|f fs IH]; [reflexivity|]. cbn [forallb flat_map]. intros H.
  apply andb_true_iff in H as [Hf H]. rewrite bytes_ok_app, (IH H), andb_true_r.
  destruct f; cbn [render_field]; auto using le_bytes_ok.
Qed.

Lemma layout3_bytes m : forallb field_bytes (layout3 m) = true.
Proof.
  destruct m as [|v c| |p w id|c s|c np|p f l|p f l w ports ids|p c|p|p|p| | |]; try reflexivity.
  - destruct id; reflexivity.
  - cbn [layout3]. rewrite forallb_app. destruct ids as [is|]; cbn [andb field_bytes forallb].
    + revert is; induction ports as [|q r IH]; intros [|i ri]; cbn [interleave forallb field_bytes andb]; auto.
    + induction ports; cbn; auto.
Qed.

Theorem enc_bytes m bs : wf m = true -> enc m = Some bs -> bytes_ok bs = true.
Proof. intros Hw H. rewrite (enc_layout3 m Hw) in H. injection H as <-. apply render_bytes, layout3_bytes. Qed.

Theorem dec_empty : dec [] = DEof.
Proof. reflexivity. Qed.

Theorem dec_unknown_code c r : ~ In c Spec3.codes -> dec (c :: r) = DInvalid.
Proof.
  intros H. unfold dec.
  repeat match goal with
  | |- (if ?c =? ?k then _ else _) = _ =>
      destruct (N.eqb_spec c k) as [->|_]; [exfalso; apply H; repeat first [left; reflexivity | right]|]
  end. reflexivity.
Qed.

Theorem cfg_rejects v c :
  u8 v = true -> wf_cfg c = true ->
  (x_chunk c < 4 \/ x_buffer c < 4 \/ x_queue c < 1) ->
  exists bs, enc (Hello v c) = Some bs /\ dec bs = DInvalid.
Proof.
  intros Hv Hc H. eexists. split; [reflexivity|]. rewrite dec_hello by assumption.
  change XCFG_MIN_CHUNK_SIZE with 4. change XCFG_MIN_RECEIVE_BUFFER with 4. change XCFG_MIN_CONNECT_QUEUE with 1.
  destruct H as [H|[H|H]]; apply N.ltb_lt in H; rewrite H, ?orb_true_r; reflexivity.
Qed.

Theorem bad_magic_rejected r :
  (length MAGIC <= length r)%nat -> firstn (length MAGIC) r <> MAGIC -> dec (MSG_HELLO :: r) = DInvalid.
Proof.
  intros Hl Hne. unfold dec. ceval.
  destruct (Nat.ltb_spec (length r) (length MAGIC)); [lia|].
  replace (forallb _ _) with false; [reflexivity|].
  symmetry. apply not_true_is_false. intros Hall. apply Hne.
  assert (Hlen : length (firstn (length MAGIC) r) = length MAGIC) by (rewrite firstn_length; lia).
  revert Hlen Hall. generalize (firstn (length MAGIC) r) as a. generalize MAGIC as b.
  induction b as [|y b IH]; intros [|x a] Hlen Hall; try discriminate; [reflexivity|].
  cbn [combine forallb fst snd] in Hall. apply andb_true_iff in Hall as [E Hall]. apply N.eqb_eq in E. subst.
  f_equal. apply IH; auto.
Qed.

Theorem deframe_frame max payload rest :
  u32 (len payload) = true -> len payload <= max ->
  deframe max (frame payload ++ rest) = FOk payload rest.
Proof.
  intros Hu Hm. unfold deframe, frame. rewrite <- app_assoc. rewrite (rd_le_b 4) by assumption.
  destruct (N.ltb_spec max (len payload)); [lia|].
  unfold len. rewrite Nat2N.id. rewrite app_length.
  destruct (Nat.ltb_spec (length payload + length rest) (length payload)); [lia|].
  now rewrite firstn_app_exact, skipn_app_exact.
Qed.

Theorem deframe_too_long max payload rest :
  u32 (len payload) = true -> max < len payload -> deframe max (frame payload ++ rest) = FTooLong.
Proof.
  intros Hu Hm. unfold deframe, frame. rewrite <- app_assoc. rewrite (rd_le_b 4) by assumption.
  destruct (N.ltb_spec max (len payload)); [reflexivity|lia].
Qed.

(** every protocol message fits [MAX_MSG_LENGTH] except [Hello], which is longer, and port data, which is
    bounded by the ports it carries *)
Definition fixed_size (m : msg) : bool := match m with PortData _ _ _ _ _ _ | Hello _ _ => false | _ => true end.

Theorem fixed_msg_length m bs : fixed_size m = true -> enc m = Some bs -> len bs <= MAX_MSG_LENGTH.
Proof.
  destruct m as [|v c| |p w id|c s|c np|p f l|p f l w ports ids|p c|p|p|p| | |]; cbn [fixed_size]; intros Hf H;
    try discriminate; injection H as <-; unfold len; cbn [length app]; rewrite ?app_length, ?le_length;
    cbn [length]; try (vm_compute; discriminate).
  destruct id; rewrite ?le_length; cbn [length]; vm_compute; discriminate.
Qed.

Theorem hello_length v c bs : enc (Hello v c) = Some bs -> len bs = HELLO_MSG_LENGTH.
Proof.
  cbn [enc]. intros [= <-]. unfold len, enc_cfg. cbn [length app]. rewrite !app_length, !le_length. reflexivity.
Qed.

Lemma enc_ports_length ps : length (enc_ports ps) = (4 * length ps)%nat.
Proof. induction ps as [|p r IH]; [reflexivity|]. cbn [enc_ports length]. rewrite app_length, le_length, IH. lia. Qed.
Lemma enc_ports_ids_length ps : forall is, length ps = length is -> length (enc_ports_ids ps is) = (8 * length ps)%nat.
Proof.
  induction ps as [|p r IH]; intros [|i ri] Hl; try discriminate; [reflexivity|].
  cbn [enc_ports_ids length]. rewrite !app_length, !le_length, IH by (cbn [length] in Hl; lia). lia.
Qed.

(** what a peer may send to an endpoint that announced [chunk]: any message, with port batches limited
    to [chunk / 4] ports (the dispatcher rejects larger ones) *)
Definition admissible (chunk : N) (m : msg) : bool :=
  match m with PortData _ _ _ _ ports _ => 4 * len ports <=? chunk | _ => true end.

(** every admissible message that can be length-prefixed at all -- and every payload frame, which has at most
    [chunk] bytes -- fits the frame length the endpoint accepts on a stream transport *)
Lemma max_frame_bounds chunk L : max_frame_length chunk = Some L ->
  MAX_MSG_LENGTH + chunk <= L /\ HELLO_MSG_LENGTH <= L /\
  forall x, x <= MAX_MSG_LENGTH + 2 * chunk -> x <= 4294967295 -> x <= L.
Proof.
  unfold max_frame_length, sat32. destruct (u32 (MAX_MSG_LENGTH + chunk)); [|discriminate]. intros [= <-].
  generalize MAX_MSG_LENGTH HELLO_MSG_LENGTH. intros a h. repeat split; intros; lia.
Qed.

Theorem frames_fit chunk L m bs :
  max_frame_length chunk = Some L -> admissible chunk m = true -> enc m = Some bs -> u32 (len bs) = true ->
  len bs <= L /\ chunk <= L.
Proof.
  intros HL Ha He H32. apply max_frame_bounds in HL as (Hd & Hh & Hp). apply N.ltb_lt in H32.
  assert (HM : MAX_MSG_LENGTH = 16) by reflexivity. split; [|lia].
  destruct (fixed_size m) eqn:Hf.
  - pose proof (fixed_msg_length _ _ Hf He). lia.
  - destruct m as [|v c| |p w id|c s|c np|p f l|p f l w ports ids|p c|p|p|p| | |]; try discriminate.
    + apply hello_length in He. now rewrite He.
    + (* a port batch: at most 8 bytes per port, 4 of which are within the chunk size *)
      cbn [admissible] in Ha. apply N.leb_le in Ha. apply Hp; [|lia]. cbn [enc] in He. clear - Ha He HM.
      destruct ids as [ids|]; [destruct (Nat.eqb_spec (length ports) (length ids)) as [Hl|]; [|discriminate]|];
        injection He as <-; unfold len in *; cbn [length app];
        rewrite ?app_length, ?le_length, ?enc_ports_length, ?enc_ports_ids_length by assumption; cbn [length]; lia.
Qed.

Theorem handshake_layout c : exact_cfg c = true -> handshake c = map Some (Spec3.handshake3 c).
Proof.
  intros H. unfold handshake, handshake3. cbn [map]. f_equal. f_equal.
  apply enc_layout3. cbn [wf]. now rewrite H.
Qed.

(** a configured timeout is never exchanged as "none" (and "none" never as a timeout) *)
Theorem timeout_presence_exchanged c :
  (x_timeout c = None <-> x_timeout (exchanged c) = None) /\
  (forall ns, x_timeout c = Some ns -> exists ms, 1 <= ms /\ x_timeout (exchanged c) = Some (ms * NS_PER_MS)).
Proof.
  unfold exchanged, timeout_millis, NS_PER_MS, U64_MAX. cbn [x_timeout].
  destruct (x_timeout c) as [ns|]; cbv zeta.
  - pose proof (N.le_max_l 1 (N.min (ns / 1000000) 18446744073709551615)) as Hms.
    revert Hms. generalize (N.max 1 (N.min (ns / 1000000) 18446744073709551615)). intros ms Hms.
    destruct (N.eqb_spec ms 0) as [E|E]; [lia|].
    split; [split; discriminate|]. intros ns' [= <-]. now exists ms.
  - change (0 =? 0) with true. cbv iota. split; [tauto|]. discriminate.
Qed.
