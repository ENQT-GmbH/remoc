(** For C07 of the composed system: the "no user object left" condition and the measure; every system action of
    one endpoint keeps the former and decreases the latter. *)
From Remoc Require Import Lib.Base Chmux.Wire Chmux.Mux Chmux.Endpoint Chmux.EndpointLemmas Chmux.EndpointInv
  Chmux.EndpointSteps Chmux.EndpointEffects Chmux.EndpointRecv Chmux.Net Chmux.NetInv Chmux.NetShape.
From RecordUpdate Require Import RecordUpdate.

Definition is_acd (ev : evt) : bool := match ev with EAllClientsDropped => true | _ => false end.
Definition is_gbe (ev : evt) : bool := match ev with EGoodbye => true | _ => false end.
Definition is_lde (ev : evt) : bool := match ev with EListenerDropped => true | _ => false end.
Definition is_acc (ev : evt) : bool := match ev with EAccepted _ _ => true | _ => false end.
Definition m_gb (m : msg) : bool := match m with Goodbye => true | _ => false end.
Definition m_ispo (m : msg) : bool := match m with PortOpened _ _ => true | _ => false end.

Definition is_newport (f : eff) : bool := match f with NewPort _ _ => true | _ => false end.
Definition eff_reqs (f : eff) : N :=
  match f with ToListener _ | DropRequest _ => 1 | PortRequests _ rs => len rs | _ => 0 end.

Record tflags := mk_tf { tf_acd : bool; tf_lo : bool; tf_gs : bool; tf_gr : bool }.
Definition flags_of (m : mux) : tflags :=
  {| tf_acd := all_clients_dropped m; tf_lo := listen_open m; tf_gs := goodbye_sent m; tf_gr := goodbye_received m |}.

(** weights for the termination measure: a frame, an event, a dropped half or request each weigh
    more than everything they can still cause *)
Definition w_msg (m : msg) : N :=
  match m with OpenPort _ _ _ => 6 | PortData _ _ _ _ ps _ => 1 + 5 * len ps | _ => 1 end.
Definition w_frame (fr : frame) : N := w_msg (fst fr).
Definition w_ev (ev : evt) : N :=
  match ev with EConnectReq _ _ _ _ => 8 | ESendPorts _ _ _ _ ps => 3 + 5 * len ps | _ => 2 end.

Definition w_flags (m : mux) : N := (if listen_open m then 2 else 0) + (if goodbye_sent m then 0 else 2).

Lemma upd_free_tf m p c' pre m' effs : upd_free m p c' pre = Done m' effs ->
  flags_of m' = flags_of m /\ (effs = pre \/ effs = pre ++ [DropNumber p]).
Proof. unfold upd_free. destruct (_ && _); intros H; apply done_inj in H as [<- <-]; auto. Qed.

Lemma he_flags m ev m' effs : handle_event m ev = Done m' effs ->
  flags_of m' = {| tf_acd := all_clients_dropped m || is_acd ev; tf_lo := listen_open m && negb (is_lde ev);
                   tf_gs := goodbye_sent m || is_gbe ev; tf_gr := goodbye_received m |} /\
  cnt m_gb (emits effs) = b2n (is_gbe ev) /\ cnt m_ispo (emits effs) = b2n (is_acc ev) /\
  count is_newport effs = b2n (is_acc ev) /\ sum (map eff_reqs effs) = 0 /\
  sum (map w_frame (emits effs)) + 1 <= w_ev ev.
Proof.
  revert m' effs. apply done_elim.
  destruct ev; rewrite ?ins_ports_eq, ?he_SenderDropped, ?he_ReceiverDropped; cbn [handle_event is_acd is_lde is_gbe is_acc b2n w_ev negb];
    crunch_goal; try exact I;
    try (apply done_intro; intros m2 effs2 Hu; apply upd_free_tf in Hu as (-> & [-> | ->]);
         unfold flags_of; rewrite !orb_false_r, andb_true_r; repeat split; reflexivity);
    unfold flags_of; prj; repeat split; try reflexivity;
    try (rewrite ?orb_false_r, ?andb_true_r, ?andb_false_r, ?orb_true_r; reflexivity);
    cbn [app emits map sum w_frame w_msg fst cnt count m_gb m_ispo is_newport eff_reqs b2n]; rewrite ?len_map; lia.
Qed.

Lemma hr_flags m msg n m' effs : handle_received m msg n = Done m' effs ->
  flags_of m' = {| tf_acd := all_clients_dropped m; tf_lo := listen_open m; tf_gs := goodbye_sent m;
                   tf_gr := goodbye_received m || m_gb msg |} /\
  count is_newport effs = b2n (m_ispo msg) /\ 3 * sum (map eff_reqs effs) + 1 <= w_msg msg.
Proof.
  revert m' effs. apply done_elim.
  destruct msg; rewrite ?hr_PortData, ?hr_SendFinish, ?hr_ReceiveClose, ?hr_ReceiveFinish; cbn [handle_received m_ispo m_gb b2n w_msg];
    try exact I; crunch_goal; try exact I;
    try (apply done_intro; intros m2 effs2 Hu; apply upd_free_tf in Hu as (-> & [-> | ->]);
         unfold flags_of; rewrite orb_false_r; repeat split; reflexivity);
    repeat match goal with |- context [if ?b then _ else _] => destruct b end;
    unfold flags_of; cbn [all_clients_dropped listen_open goodbye_sent goodbye_received set RecordSet.set];
    repeat split; try reflexivity; try congruence; try (rewrite ?orb_false_r, ?orb_true_r; congruence); cbn [app map eff_reqs sum]; lia.
Qed.

Definition wsum {A} (f : A -> N) (l : list (N * A)) : N := sum (map (fun x => f (snd x)) l).
Lemma wsum_cons {A} (f : A -> N) k v l : wsum f ((k, v) :: l) = f v + wsum f l. Proof. reflexivity. Qed.
Lemma wsum_remove_le {A} (f : A -> N) k l : wsum f (remove k l) <= wsum f l.
Proof.
  induction l as [|[k1 v] l IH]; cbn [remove]; [lia|]. destruct (k =? k1); rewrite ?wsum_cons; lia.
Qed.
Lemma wsum_remove_lookup {A} (f : A -> N) k l old : lookup k l = Some old -> wsum f (remove k l) + f old <= wsum f l.
Proof.
  induction l as [|[k1 v] l IH]; cbn [remove lookup]; [discriminate|]. destruct (k =? k1).
  - intros [= ->]. pose proof (wsum_remove_le f k l). rewrite wsum_cons. lia.
  - intros H. specialize (IH H). rewrite !wsum_cons. lia.
Qed.
Lemma wsum_insert_le {A} (f : A -> N) k v l : wsum f (insert k v l) <= f v + wsum f l.
Proof. unfold insert. rewrite wsum_cons. pose proof (wsum_remove_le f k l). lia. Qed.
Lemma wsum_insert_lookup {A} (f : A -> N) k v l old : lookup k l = Some old -> wsum f (insert k v l) + f old <= f v + wsum f l.
Proof. intros H. unfold insert. rewrite wsum_cons. pose proof (wsum_remove_lookup f k l old H). lia. Qed.
Lemma wsum_fold_insert {A} (f : A -> N) st rs : forall l,
  wsum f (fold_left (fun acc r => insert r st acc) rs l) <= len rs * f st + wsum f l.
Proof.
  induction rs as [|r rs IH]; intros l; cbn [fold_left]; [unfold len; cbn; lia|].
  specialize (IH (insert r st l)). pose proof (wsum_insert_le f r st l). rewrite len_cons. lia.
Qed.

(** No user object left at an endpoint, and none on its way: handling a queued [EAccepted] would hand out the
    two halves of a new port ([q_acc], [q_acq]; for the same reason [nquiet] wants no [PortOpened] in flight) *)
Record equiet (e : ep) : Prop := mk_equiet {
  q_cl : clients_alive e = false;
  q_li : listener_alive e = false;
  q_h : forall p h, lookup p (handles e) = Some h -> h_tx h <> Alive /\ h_rx h <> Alive;
  q_r : forall r s, lookup r (requests e) = Some s -> s = RDropped \/ s = RAnswered;
  q_acc : count is_acc (chq e) = 0;
  q_acq : count is_acc (cq e) = 0
}.

Definition w_life (l : life) : N := match l with Dropped => 3 | _ => 0 end.
Definition w_handle (h : handle) : N := w_life (h_tx h) + w_life (h_rx h).
Definition w_req (s : rlife) : N := match s with RDropped => 3 | _ => 0 end.
Definition w_ep (e : ep) : N :=
  sum (map w_ev (chq e)) + sum (map w_ev (cq e)) + wsum w_handle (handles e) + wsum w_req (requests e) +
  (if listen_open (mx e) then 2 else 0) + (if goodbye_sent (mx e) then 0 else 2).

Definition w_parts (e : ep) : N :=
  sum (map w_ev (chq e)) + sum (map w_ev (cq e)) + wsum w_handle (handles e) + wsum w_req (requests e).
Lemma w_ep_eq e : w_ep e = w_parts e + w_flags (mx e).
Proof. unfold w_ep, w_parts, w_flags. lia. Qed.

Lemma equiet_ext e e' :
  clients_alive e' = clients_alive e -> listener_alive e' = listener_alive e -> handles e' = handles e ->
  requests e' = requests e -> count is_acc (chq e') = count is_acc (chq e) -> count is_acc (cq e') = count is_acc (cq e) ->
  equiet e -> equiet e'.
Proof. intros E1 E2 E3 E4 E5 E6 [Q1 Q2 Q3 Q4 Q5 Q6]. constructor; rewrite ?E1, ?E2, ?E3, ?E4, ?E5, ?E6; assumption. Qed.

Lemma equiet_set_handle e p h h' : equiet e -> lookup p (handles e) = Some h ->
  (h_tx h' = Alive -> h_tx h = Alive) -> (h_rx h' = Alive -> h_rx h = Alive) ->
  equiet (set_handle e p h') /\ wsum w_handle (handles (set_handle e p h')) + w_handle h <= w_handle h' + wsum w_handle (handles e).
Proof.
  intros [Q1 Q2 Q3 Q4 Q5 Q6] Hl T R. split; [|exact (wsum_insert_lookup w_handle p h' _ _ Hl)].
  constructor; auto. unfold set_handle. prj. intros p0 h0. rewrite lookup_insert. destruct (p0 =? p); [|apply Q3].
  intros [= <-]. destruct (Q3 _ _ Hl). split; auto.
Qed.

Lemma apply_effs_cq effs e : cq (apply_effs e effs) = cq e.
Proof. apply (apply_effs_keeps cq). eff_frame. Qed.
Lemma apply_effs_clients effs e : clients_alive (apply_effs e effs) = clients_alive e.
Proof. apply (apply_effs_keeps clients_alive). eff_frame. Qed.
Lemma apply_effs_listener effs e : listener_alive (apply_effs e effs) = listener_alive e.
Proof.
  apply (apply_effs_keeps listener_alive). intros e0 f. destruct f; try reflexivity. cbn [apply_eff].
  destruct (listener_alive e0) eqn:E; exact E.
Qed.

Definition r_quiet (s : rlife) : Prop := s = RDropped \/ s = RAnswered.

Lemma apply_effs_reqs effs : forall e,
  count is_newport effs = 0 -> listener_alive e = false ->
  (forall p h, lookup p (handles e) = Some h -> h_rx h <> Alive) ->
  (forall r s, lookup r (requests e) = Some s -> r_quiet s) ->
  handles (apply_effs e effs) = handles e /\
  wsum w_req (requests (apply_effs e effs)) <= wsum w_req (requests e) + 3 * sum (map eff_reqs effs) /\
  (forall r s, lookup r (requests (apply_effs e effs)) = Some s -> r_quiet s).
Proof.
  induction effs as [|f effs IH]; intros e Hn Hli Hh Hq; [cbn [map sum apply_effs]; repeat split; auto; lia|].
  rewrite apply_effs_cons. rewrite count_cons in Hn. cbn [map sum].
  assert (Hstep : handles (apply_eff e f) = handles e /\ listener_alive (apply_eff e f) = false /\
            wsum w_req (requests (apply_eff e f)) <= wsum w_req (requests e) + 3 * eff_reqs f /\
            (forall r s, lookup r (requests (apply_eff e f)) = Some s -> r_quiet s)).
  { destruct f as [m0 pl0|req0 cr0|l0 rp0|lr0|p0 rs0|rp0| |p0]; cbn [is_newport b2n] in Hn; try lia; cbn [apply_eff eff_reqs];
      rewrite ?Hli; prj; repeat split; auto; try lia.
    - pose proof (wsum_insert_le w_req (lr_remote lr0) RDropped (requests e)). cbn [w_req] in *. lia.
    - intros r0 s. rewrite lookup_insert. destruct (r0 =? lr_remote lr0); [intros [= <-]; now left|eauto].
    - destruct (lookup p0 (handles e)) as [h|] eqn:El; [specialize (Hh _ _ El); destruct (h_rx h); try congruence|];
        pose proof (wsum_fold_insert w_req RDropped rs0 (requests e)); cbn [w_req] in *; lia.
    - intros r0 s. rewrite lookup_fold_insert. destruct (mem r0 rs0); [|eauto]. intros [= <-].
      destruct (lookup p0 (handles e)) as [h|] eqn:El; [specialize (Hh _ _ El); destruct (h_rx h); try congruence|]; now left.
    - pose proof (wsum_insert_le w_req rp0 RDropped (requests e)). cbn [w_req] in *. lia.
    - intros r0 s. rewrite lookup_insert. destruct (r0 =? rp0); [intros [= <-]; now left|eauto]. }
  destruct Hstep as (E1 & E2 & E3 & E4). destruct (IH (apply_eff e f)) as (I1 & I2 & I3); [lia|exact E2|now rewrite E1|exact E4|].
  rewrite I1, E1. repeat split; auto. lia.
Qed.

Lemma q_apply e effs : equiet e -> count is_newport effs = 0 ->
  equiet (apply_effs e effs) /\ w_parts (apply_effs e effs) <= w_parts e + 3 * sum (map eff_reqs effs).
Proof.
  intros [Q1 Q2 Q3 Q4 Q5 Q6] Hn.
  destruct (apply_effs_reqs effs e Hn Q2 (fun p h Hl => proj2 (Q3 p h Hl)) Q4) as (R1 & R2 & R3). split.
  - constructor; rewrite ?apply_effs_clients, ?apply_effs_listener, ?R1, ?apply_effs_chq, ?apply_effs_cq; auto.
  - unfold w_parts. rewrite R1, apply_effs_chq, apply_effs_cq. lia.
Qed.

Lemma equiet_mx e m : equiet e -> equiet (e <| mx := m |>).
Proof. now apply equiet_ext. Qed.
Lemma w_parts_mx e m : w_parts (e <| mx := m |>) = w_parts e.
Proof. reflexivity. Qed.

Lemma finish_Done_quiet e1 m effs :
  let e2 := apply_effs (e1 <| mx := m |>) effs in
  (equiet e2 -> equiet (finish e1 (Done m effs))) /\ w_ep (finish e1 (Done m effs)) = w_parts e2 + w_flags m.
Proof.
  cbv zeta. rewrite w_ep_eq. destruct (finish_Done_view e1 m effs) as (-> & _).
  cbn [finish]. destruct (goodbye_sent m && goodbye_received m); [|auto]. split; [now apply equiet_ext|reflexivity].
Qed.

Lemma q_finish e1 m effs : equiet e1 -> count is_newport effs = 0 ->
  equiet (finish e1 (Done m effs)) /\
  w_ep (finish e1 (Done m effs)) <= w_parts e1 + 3 * sum (map eff_reqs effs) + w_flags m.
Proof.
  intros Hq Hn. destruct (q_apply _ effs (equiet_mx e1 m Hq) Hn) as [A1 A2].
  destruct (finish_Done_quiet e1 m effs) as [B1 B2]. cbv zeta in *. split; [auto|]. rewrite B2.
  rewrite w_parts_mx in A2. lia.
Qed.

Lemma q_task e a e' : step_opt e a = Some e' -> match a with NTx _ | NRx _ | NReq _ => True | _ => False end -> equiet e ->
  equiet e' /\ w_ep e' + 1 <= w_ep e /\ mx e' = mx e /\ sent e' = sent e /\ dead e' = dead e.
Proof.
  intros H Ha Hq. rewrite !w_ep_eq. unfold w_parts. destruct a; try contradiction; open_step H; cases; inj H.
  - destruct (equiet_set_handle e p h (h <| h_tx := Queued |>) Hq E) as [A1 A2]; [discriminate|auto|].
    split; [|prj; rewrite map_app, sum_app; unfold w_handle in *; prj; rewrite E0 in A2; cbn [map sum w_ev w_life] in *; repeat split; lia].
    apply (equiet_ext (set_handle e p (h <| h_tx := Queued |>))); auto. unfold set_handle. prj. rewrite count_snoc. apply N.add_0_r.
  - destruct (equiet_set_handle e p h (h <| h_rx := Queued |>) Hq E) as [A1 A2]; [auto|discriminate|].
    split; [|prj; rewrite map_app, sum_app; unfold w_handle in *; prj; rewrite E0 in A2; cbn [map sum w_ev w_life] in *; repeat split; lia].
    apply (equiet_ext (set_handle e p (h <| h_rx := Queued |>))); auto. unfold set_handle. prj. rewrite count_snoc. apply N.add_0_r.
  - pose proof (wsum_insert_lookup w_req r RAnswered _ _ E) as W. destruct Hq as [Q1 Q2 Q3 Q4 Q5 Q6].
    split; [|prj; rewrite map_app, sum_app; cbn [map sum w_ev w_req] in *; repeat split; lia].
    constructor; prj; auto; [|now rewrite count_snoc, Q5].
    intros k s. rewrite lookup_insert. destruct (k =? r); [intros [= <-]; now right|apply Q4].
Qed.

Definition queued (a : act) : bool := match a with DPort | DConn => true | _ => false end.
Lemma q_pre e a ev : equiet e -> is_disp a = true -> disp_ev e a = Some ev ->
  equiet (pre_finish e a) /\ is_acc ev = false /\ w_parts (pre_finish e a) + (if queued a then w_ev ev else 0) <= w_parts e.
Proof.
  intros Hq Ha Hev. pose proof Hq as [Q1 Q2 Q3 Q4 Q5 Q6]. unfold w_parts.
  destruct a; try discriminate; cbn [disp_ev pre_finish queued] in Hev |- *.
  - destruct (chq e) as [|ev0 q] eqn:Eq; [discriminate|]. injection Hev as ->. rewrite count_cons in Q5.
    assert (Ha' : is_acc ev = false /\ count is_acc q = 0) by (clear - Q5; destruct (is_acc ev); cbn [b2n] in Q5; [lia|split; [reflexivity|lia]]).
    destruct Ha' as [Hacc Hq0]. split; [|split; [exact Hacc|]].
    + assert (Hbase : equiet (e <| chq := q |>)) by (apply (equiet_ext e); auto; prj; now rewrite Eq, count_cons, Hacc).
      destruct ev as [| | | | | |p|p|p| | |]; try exact Hbase; try discriminate.
      * destruct Hbase as [B1 B2 B3 B4 B5 B6]. constructor; auto. prj. intros r s. rewrite lookup_remove. destruct (r =? remote_port); [discriminate|apply Q4].
      * destruct (lookup p (handles e)) as [h|] eqn:El; [|exact Hbase]. apply (equiet_set_handle _ p h _ Hbase El); [discriminate|auto].
      * destruct (lookup p (handles e)) as [h|] eqn:El; [|exact Hbase]. apply (equiet_set_handle _ p h _ Hbase El); auto.
      * destruct (lookup p (handles e)) as [h|] eqn:El; [|exact Hbase]. apply (equiet_set_handle _ p h _ Hbase El); [auto|discriminate].
    + cbn [map sum]. clear - Hacc. destruct ev as [| | | | | |p|p|p| | |]; try discriminate; prj; try lia.
      * pose proof (wsum_remove_le w_req remote_port (requests e)). lia.
      * destruct (lookup p (handles e)) as [h|] eqn:El; [|prj; lia]. unfold set_handle. prj.
        pose proof (wsum_insert_lookup w_handle p (h <| h_tx := Gone |>) _ _ El) as W. unfold w_handle in W |- *. prj. cbn [w_life] in W. lia.
      * destruct (lookup p (handles e)) as [h|] eqn:El; [|prj; lia]. unfold set_handle. prj.
        pose proof (wsum_insert_lookup w_handle p (h <| h_rxc := Gone |>) _ _ El) as W. unfold w_handle in W |- *. prj. lia.
      * destruct (lookup p (handles e)) as [h|] eqn:El; [|prj; lia]. unfold set_handle. prj.
        pose proof (wsum_insert_lookup w_handle p (h <| h_rx := Gone |>) _ _ El) as W. unfold w_handle in W |- *. prj. cbn [w_life] in W. lia.
  - destruct (cq e) as [|ev0 q] eqn:Eq; [discriminate|]. injection Hev as ->. rewrite count_cons in Q6.
    assert (Ha' : is_acc ev = false /\ count is_acc q = 0) by (clear - Q6; destruct (is_acc ev); cbn [b2n] in Q6; [lia|split; [reflexivity|lia]]).
    destruct Ha' as [Hacc Hq0]. split; [|split; [exact Hacc|prj; cbn [tl map sum]; lia]].
    apply (equiet_ext e); auto. prj. now rewrite Eq, count_cons, Hacc.
  - injection Hev as <-. split; [exact Hq|split; [reflexivity|lia]].
  - injection Hev as <-. split; [exact Hq|split; [reflexivity|lia]].
Qed.

(** the event taken from a queue, or the pending announcement (ListenerFinish, Goodbye) the step makes, pays for the frames *)
Lemma q_disp e a e' : step_opt e a = Some e' -> is_disp a = true -> equiet e -> panicked e' = None ->
  equiet e' /\ w_ep e' + sum (map w_frame (new_frames e e')) + 1 <= w_ep e /\ cnt m_ispo (new_frames e e') = 0 /\ dead e' = dead e.
Proof.
  intros H Ha Hq Hp. destruct (step_done _ _ _ H Ha Hp) as (ev & m & effs & Hev & He & -> & _ & _ & E3 & E4).
  rewrite (new_frames_app _ _ _ E3). destruct (q_pre _ _ _ Hq Ha Hev) as (Q1 & Hacc & W1).
  destruct (he_flags _ _ _ _ He) as (Hf & _ & Hpo & Hn & Hr & Hw). rewrite Hacc in Hpo, Hn.
  destruct (q_finish _ m effs Q1 Hn) as [A1 A2]. split; [exact A1|split; [|split; [exact Hpo|exact E4]]].
  assert (Hfl : w_flags m + (if queued a then 0 else w_ev ev) <= w_flags (mx e)).
  { unfold flags_of in Hf. injection Hf as _ F2 F3 _. unfold w_flags. rewrite F2, F3. clear - H Ha Hev.
    destruct (step_pre _ _ _ H Ha) as (_ & _ & _ & ->).
    destruct a; try discriminate; open_step H; cbn [disp_ev queued] in *.
    - destruct (listen_open (mx e)), (is_lde ev), (is_gbe ev); cbn; lia.
    - destruct (listen_open (mx e)), (is_lde ev), (is_gbe ev); cbn; lia.
    - injection Hev as <-. cases. apply andb_true_iff in E as [_ ->]. cbn. lia.
    - injection Hev as <-. destruct (listen_open (mx e)); cbn; lia. }
  rewrite (w_ep_eq e). destruct (queued a); lia.
Qed.

Lemma q_Recv e msg n e' : step_opt e (Recv msg n) = Some e' -> equiet e -> m_ispo msg = false -> dead e' = None ->
  equiet e' /\ w_ep e' + 1 <= w_ep e + w_msg msg /\ sent e' = sent e.
Proof.
  intros H Hq Hpo Hd. pose proof (view_Recv _ _ _ _ H) as Hv. unfold recv_view in Hv. apply step_pre_recv in H. subst e'.
  pose proof (handle_received_never_panics (recv_mux e) msg n) as Hnp.
  destruct (handle_received (recv_mux e) msg n) as [m' effs|err effs|s] eqn:Hr; [|congruence|contradiction].
  destruct Hv as (_ & _ & V3 & _). destruct (hr_flags _ _ _ _ _ Hr) as (Hf & Hn & Hw). rewrite Hpo in Hn.
  destruct (q_finish _ m' effs (equiet_mx e (recv_mux e) Hq) Hn) as [A1 A2]. split; [exact A1|split; [|exact V3]].
  assert (w_flags m' = w_flags (mx e)).
  { unfold flags_of in Hf. injection Hf as _ G2 G3 _. unfold w_flags. rewrite G2, G3. unfold recv_mux. destruct (listener_alive e); reflexivity. }
  cbn [pre_finish] in *. rewrite w_parts_mx in A2. rewrite (w_ep_eq e). lia.
Qed.
