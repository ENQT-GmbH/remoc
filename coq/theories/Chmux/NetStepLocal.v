(** The composed invariant survives each dispatcher event of X, at the level of the multiplexer state. *)
From Remoc Require Import Lib.Base Chmux.Wire Chmux.Mux Chmux.Endpoint Chmux.EndpointLemmas Chmux.EndpointInv
  Chmux.EndpointSteps Chmux.EndpointEffects Chmux.Net Chmux.NetInv Chmux.NetFrame Chmux.NetShape Chmux.NetLocal2
  Chmux.NetLocal.
From RecordUpdate Require Import RecordUpdate.

(** the invariant with X's multiplexer state [m] and event queue [q] made explicit *)
Definition CoreM (m : mux) (q : list evt) (Y : ep) (L L' : list frame) : Prop :=
  Core (ports m) (ports (mx Y)) (outstanding m) (outstanding (mx Y)) q (chq Y) L L'.

Lemma maybe_free_core m1 p c1 m2 effs q Y L L' :
  CoreM m1 q Y L L' -> lookup p (ports m1) = Some (Connected c1) -> maybe_free m1 p = Some (m2, effs) ->
  CoreM m2 q Y L L' /\ emits effs = [] /\ outstanding m2 = outstanding m1.
Proof.
  unfold CoreM, maybe_free. intros HC Hl H. rewrite Hl in H. fold (all4 c1) in H. destruct (all4 c1) eqn:Ea.
  - apply some_pair_inj in H as [<- <-]. prj. split; [|split; reflexivity].
    exact (core_free _ _ _ _ _ _ _ _ _ p c1 HC Hl Ea (lookup_remove_eq _ _) (fun k Hk => lookup_remove_ne _ _ _ Hk)).
  - apply some_pair_inj in H as [<- <-]. auto.
Qed.

Section Events.
  Variables (m : mux) (q : list evt) (Y : ep) (L L' : list frame).

  Lemma ev_flag fr m' :
    CoreM m q Y L L' -> ports m' = ports m -> outstanding m' = outstanding m ->
    (forall y, m_addr y (fst fr) = false) -> (forall x, m_intro x (fst fr) = false) -> m_bad (fst fr) = false ->
    CoreM m' q Y (L ++ [fr]) L'.
  Proof.
    unfold CoreM. intros HC -> -> A1 A2 A3. eapply core_plain; eauto. eapply c_chx; eauto.
  Qed.

  Lemma ev_global ev m' effs : ev = EAllClientsDropped \/ ev = EListenerDropped \/ ev = EGoodbye ->
    CoreM m q Y L L' -> handle_event m ev = Done m' effs -> CoreM m' q Y (L ++ emits effs) L'.
  Proof. intros [-> | [-> | ->]] HC H; apply done_inj in H as [<- <-]; cbn [emits]; now apply ev_flag. Qed.

  Lemma ev_plain ev fr m' :
    CoreM m (ev :: q) Y L L' -> ports m' = ports m -> outstanding m' = outstanding m ->
    (forall y, m_addr y (fst fr) = false) -> (forall x, m_intro x (fst fr) = false) -> m_bad (fst fr) = false ->
    CoreM m' q Y (L ++ [fr]) L'.
  Proof.
    unfold CoreM. intros HC -> -> A1 A2 A3. eapply core_plain; eauto. eapply chq_ok_pop_any. eapply c_chx; eauto.
  Qed.

  Lemma ev_port ev p c c1 fr :
    CoreM m (ev :: q) Y L L' -> lookup p (ports m) = Some (Connected c) -> tx_dropped c = false \/ rx_dropped c = false ->
    remote c1 = remote c -> rx_open c1 = rx_open c -> rrx_closed c1 = rrx_closed c -> rrx_dropped c1 = rrx_dropped c ->
    m_target (fst fr) = Some (remote c) -> m_port (fst fr) = true -> (forall k, m_reqn k (fst fr) = 0) ->
    b2n (m_sf (remote c) (fst fr)) + b2n (tx_dropped c) = b2n (tx_dropped c1) ->
    b2n (m_rf (remote c) (fst fr)) + b2n (rx_dropped c) = b2n (rx_dropped c1) ->
    b2n (m_rc (remote c) (fst fr)) + b2n (rx_closed c || rx_dropped c) <= b2n (rx_closed c1 || rx_dropped c1) ->
    (m_data (remote c) (fst fr) = true -> tx_dropped c = false) ->
    (m_credrc (remote c) (fst fr) = true -> rx_dropped c = false) ->
    (tx_dropped c = false -> tx_dropped c1 = true -> is_sd p ev = true) ->
    (rx_dropped c = false -> rx_dropped c1 = true -> is_rd p ev = true) ->
    CoreM (m <| ports := insert p (Connected c1) (ports m) |>) q Y (L ++ [fr]) L'.
  Proof.
    unfold CoreM. prj. intros HC Hl Hlive Er E1 E2 E3 Ht Hp Hn A1 A2 A3 A4 A5 S1 S2.
    pose proof (c_chx _ _ _ _ _ _ _ _ HC) as Hq. destruct (ch_ord _ _ Hq _ _ Hl) as [O1 O2].
    apply (core_emit _ _ _ _ _ _ _ _ _ _ p c c1 fr [] HC Hl Hlive (lookup_insert_eq _ _ _) (fun k Hk _ => lookup_insert_ne _ _ _ _ Hk));
      auto; [discriminate|].
    apply (chq_ok_upd _ _ _ p c c1 (chq_ok_pop_any _ _ _ Hq) (c_injx _ _ _ _ _ _ _ _ HC) Hl (fun k Hk => lookup_insert_ne _ _ _ _ Hk)
             (or_introl (conj (lookup_insert_eq _ _ _) Er))).
    - intros T0 [Hx|T1]; [rewrite lookup_insert_eq in Hx; discriminate|]. exact (proj1 O1 (S1 T0 T1)).
    - intros T0 [Hx|T1]; [rewrite lookup_insert_eq in Hx; discriminate|]. exact (proj1 O2 (S2 T0 T1)).
  Qed.

  Lemma ev_SendData rp f l n m' effs :
    CoreM m (ESendData rp f l n :: q) Y L L' -> handle_event m (ESendData rp f l n) = Done m' effs -> CoreM m' q Y (L ++ emits effs) L'.
  Proof.
    intros HC H. apply done_inj in H as [<- <-]. cbn [emits]. pose proof (c_chx _ _ _ _ _ _ _ _ HC) as Hq.
    destruct (ch_send _ _ Hq rp) as (x & c & H1 & <- & H3); [rewrite count_cons; cbn [ev_sends]; rewrite N.eqb_refl; cbn [b2n]; lia|].
    apply (core_emit _ _ _ _ _ _ _ _ _ _ x c c _ [] HC H1 (or_introl H3) H1); auto; try discriminate; try reflexivity.
    exact (chq_ok_pop_any _ _ _ Hq).
  Qed.

  Lemma ev_ReturnCredits rp n m' effs :
    CoreM m (EReturnCredits rp n :: q) Y L L' -> handle_event m (EReturnCredits rp n) = Done m' effs -> CoreM m' q Y (L ++ emits effs) L'.
  Proof.
    intros HC H. apply done_inj in H as [<- <-]. cbn [emits]. pose proof (c_chx _ _ _ _ _ _ _ _ HC) as Hq.
    destruct (ch_cred _ _ Hq rp) as (x & c & H1 & <- & H3); [rewrite count_cons; cbn [ev_creds]; rewrite N.eqb_refl; cbn [b2n]; lia|].
    apply (core_emit _ _ _ _ _ _ _ _ _ _ x c c _ [] HC H1 (or_intror H3) H1); auto; try discriminate; try reflexivity.
    exact (chq_ok_pop_any _ _ _ Hq).
  Qed.

  Lemma ev_SendPorts rp f l w ps m' effs :
    CoreM m (ESendPorts rp f l w ps :: q) Y L L' -> handle_event m (ESendPorts rp f l w ps) = Done m' effs ->
    CoreM m' q Y (L ++ emits effs) L'.
  Proof.
    rewrite ins_ports_eq. intros HC H. destruct (ins_ports ps (ports m)) as [pt'|] eqn:Hi; [|discriminate].
    apply done_inj in H as [<- <-]. cbn [emits]. unfold CoreM in *. prj. pose proof (c_chx _ _ _ _ _ _ _ _ HC) as Hq.
    destruct (ch_send _ _ Hq rp) as (x & c & H1 & H2 & H3); [rewrite count_cons; cbn [ev_sends]; rewrite N.eqb_refl; cbn [b2n]; lia|].
    destruct (ins_ports_spec _ _ _ Hi) as (I1 & I2 & I3). cbn zeta in *.
    set (nums := map (fun x => fst (fst x)) ps) in *.
    assert (Hx : mem x nums = false).
    { destruct (mem x nums) eqn:E; [|reflexivity]. destruct (I2 _ E) as [A _]. congruence. }
    assert (Hch : chq_ok pt' q).
    { apply (chq_ok_keep _ _ _ (chq_ok_pop_any _ _ _ Hq)).
      - intros k d A. exists d. destruct (mem k nums) eqn:E; [destruct (I2 _ E) as [B _]; congruence|]. now rewrite (I1 _ E).
      - intros k d A. exists d. destruct (mem k nums) eqn:E; [destruct (I2 _ E) as (_ & r & B); congruence|]. now rewrite <- (I1 _ E). }
    subst rp. apply (core_emit _ pt' _ _ _ _ q _ _ _ x c c _ nums HC H1 (or_introl H3)); auto; try discriminate; try reflexivity.
    now rewrite (I1 _ Hx).
  Qed.

  Lemma ev_SenderDropped p m' effs :
    CoreM m (ESenderDropped p :: q) Y L L' -> handle_event m (ESenderDropped p) = Done m' effs -> CoreM m' q Y (L ++ emits effs) L'.
  Proof.
    intros HC H. cbn [handle_event] in H. destruct (lookup p (ports m)) as [[r|c]|] eqn:El; try discriminate.
    destruct (tx_dropped c) eqn:Et; [discriminate|].
    destruct (maybe_free _ p) as [[m2 effs2]|] eqn:Em; [|discriminate]. apply done_inj in H as [<- <-].
    assert (H1 : CoreM (m <| ports := insert p (Connected (c <| tx_dropped := true |>)) (ports m) |>) q Y (L ++ [(SendFinish (remote c), None)]) L').
    { apply (ev_port _ p c _ _ HC El (or_introl Et)); try reflexivity; try discriminate; mev; rewrite ?Et; try reflexivity.
      - intros _ _. apply N.eqb_refl.
      - intros E1 E2. prj. congruence. }
    destruct (maybe_free_core _ p _ _ _ _ _ _ _ H1 (lookup_insert_eq _ _ _) Em) as (H2 & H3 & _).
    cbn [emits]. now rewrite H3.
  Qed.

  Lemma ev_ReceiverDropped p m' effs :
    CoreM m (EReceiverDropped p :: q) Y L L' -> handle_event m (EReceiverDropped p) = Done m' effs -> CoreM m' q Y (L ++ emits effs) L'.
  Proof.
    intros HC H. cbn [handle_event] in H. destruct (lookup p (ports m)) as [[r|c]|] eqn:El; try discriminate.
    destruct (rx_dropped c) eqn:Et; [discriminate|].
    destruct (maybe_free _ p) as [[m2 effs2]|] eqn:Em; [|discriminate]. apply done_inj in H as [<- <-].
    assert (H1 : CoreM (m <| ports := insert p (Connected (c <| rx_dropped := true |>)) (ports m) |>) q Y (L ++ [(ReceiveFinish (remote c), None)]) L').
    { apply (ev_port _ p c _ _ HC El (or_intror Et)); try reflexivity; try discriminate; mev; prj; rewrite ?Et, ?orb_true_r; try reflexivity.
      - apply b2n_le1.
      - intros E1 E2. congruence.
      - intros _ _. apply N.eqb_refl. }
    destruct (maybe_free_core _ p _ _ _ _ _ _ _ H1 (lookup_insert_eq _ _ _) Em) as (H2 & H3 & _).
    cbn [emits]. now rewrite H3.
  Qed.

  Lemma ev_ReceiverClosed p m' effs :
    CoreM m (EReceiverClosed p :: q) Y L L' -> handle_event m (EReceiverClosed p) = Done m' effs -> CoreM m' q Y (L ++ emits effs) L'.
  Proof.
    intros HC H. cbn [handle_event] in H. destruct (lookup p (ports m)) as [[r|c]|] eqn:El; try discriminate.
    destruct (rx_closed c || rx_dropped c) eqn:Et; [discriminate|]. pose proof Et as Et'. apply orb_false_iff in Et' as [Et1 Et2].
    apply done_inj in H as [<- <-]. cbn [emits].
    apply (ev_port _ p c _ _ HC El (or_intror Et2)); try reflexivity; try discriminate; mev; prj; rewrite ?Et; try reflexivity; auto; intros E1 E2; congruence.
  Qed.

  Lemma ev_Accepted l r m' effs :
    CoreM m (EAccepted l r :: q) Y L L' -> lookup l (ports m) = None ->
    handle_event m (EAccepted l r) = Done m' effs -> CoreM m' q Y (L ++ emits effs) L'.
  Proof.
    intros HC Hl H. cbn [handle_event] in H. destruct (mem r (outstanding m)) eqn:Er; [|discriminate]. cbn [negb] in H.
    rewrite Hl in H. apply done_inj in H as [<- <-]. cbn [emits]. unfold CoreM in *. prj.
    apply (core_accept _ _ _ _ _ _ _ _ _ _ _ l r (new_conn m r) None HC Hl Er (lookup_insert_eq _ _ _)
             (fun k Hk => lookup_insert_ne _ _ _ _ Hk) eq_refl);
      [repeat split|intros k; apply mem_del|exact (chq_ok_pop_any _ _ _ (c_chx _ _ _ _ _ _ _ _ HC))].
  Qed.

  Lemma ev_Rejected r np m' effs :
    CoreM m (ERejected r np :: q) Y L L' -> handle_event m (ERejected r np) = Done m' effs -> CoreM m' q Y (L ++ emits effs) L'.
  Proof.
    intros HC H. cbn [handle_event] in H. destruct (mem r (outstanding m)) eqn:Er; [|discriminate]. cbn [negb] in H.
    apply done_inj in H as [<- <-]. cbn [emits]. unfold CoreM in *. prj.
    exact (core_reject _ _ _ _ _ _ _ _ _ _ _ _ _ HC Er (fun k => mem_del _ _ _) (chq_ok_pop_any _ _ _ (c_chx _ _ _ _ _ _ _ _ HC))).
  Qed.

  Lemma ev_ConnectReq port id wait req m' effs :
    CoreM m q Y L L' -> handle_event m (EConnectReq port id wait req) = Done m' effs ->
    CoreM m' q Y (L ++ emits effs) L'.
  Proof.
    intros HC H. cbn [handle_event] in H. destruct (negb (remote_listener_dropped m)).
    - destruct (lookup port (ports m)) eqn:El; [discriminate|]. apply done_inj in H as [<- <-]. cbn [emits]. unfold CoreM in *. prj.
      eapply core_open; [exact HC|exact El|apply lookup_insert_eq|intros k Hk; apply lookup_insert_ne, Hk| | | | |eapply c_chx; eauto];
        try reflexivity.
      intros k. mev. now rewrite N.eqb_sym.
    - apply done_inj in H as [<- <-]. cbn [emits]. now rewrite app_nil_r.
  Qed.
End Events.
