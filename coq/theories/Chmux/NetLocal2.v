(** The clauses of the composed invariant that speak of one endpoint alone -- injective remote
    numbers, outstanding requests, queued events -- under the changes a step makes to the port table
    and to the event queue. *)
From Remoc Require Import Lib.Base Chmux.Mux Chmux.EndpointLemmas Chmux.EndpointInv Chmux.NetInv.

(** every connected entry of [P'] is one of [P] with the same remote number *)
Definition conn_le (P' P : list (N * pstate)) : Prop :=
  forall k c', lookup k P' = Some (Connected c') -> exists c, lookup k P = Some (Connected c) /\ remote c = remote c'.
(** every connected entry of [P] is still in [P'], with its remote number and its two local flags *)
Definition conn_keep (P P' : list (N * pstate)) : Prop :=
  forall k d, lookup k P = Some (Connected d) ->
    exists d', lookup k P' = Some (Connected d') /\ remote d' = remote d /\ tx_dropped d' = tx_dropped d /\ rx_dropped d' = rx_dropped d.

Lemma inj_ok_le P P' : conn_le P' P -> inj_ok P -> inj_ok P'.
Proof.
  intros H Hi p1 p2 c1 c2 H1 H2 Hr. destruct (H _ _ H1) as (d1 & D1 & R1). destruct (H _ _ H2) as (d2 & D2 & R2).
  apply (Hi _ _ _ _ D1 D2). congruence.
Qed.
Lemma out_ok_le P P' O O' : conn_le P' P -> (forall r, mem r O' = true -> mem r O = true) -> out_ok P O -> out_ok P' O'.
Proof.
  intros H Ho Hi p c' H1. destruct (H _ _ H1) as (c & D1 & R1). specialize (Hi _ _ D1). rewrite <- R1.
  destruct (mem (remote c) O') eqn:E; [|reflexivity]. apply Ho in E. congruence.
Qed.

Section Upd1.
  Variables (P P' : list (N * pstate)) (x : N).
  Hypothesis K2 : forall k, k <> x -> lookup k P' = lookup k P.

  Lemma conn_le_upd c c' : lookup x P = Some (Connected c) -> lookup x P' = Some (Connected c') -> remote c' = remote c -> conn_le P' P.
  Proof.
    intros Hl K1 Er k d' H. destruct (N.eq_dec k x) as [->|Hne]; [|rewrite (K2 _ Hne) in H; eauto].
    exists c. split; [exact Hl|congruence].
  Qed.
  Lemma conn_keep_upd c c' : lookup x P = Some (Connected c) -> lookup x P' = Some (Connected c') ->
    remote c' = remote c -> tx_dropped c' = tx_dropped c -> rx_dropped c' = rx_dropped c -> conn_keep P P'.
  Proof.
    intros Hl K1 Er E1 E2 k d H. destruct (N.eq_dec k x) as [->|Hne]; [|rewrite <- (K2 _ Hne) in H; eauto 6].
    exists c'. assert (d = c) by congruence. subst d. auto.
  Qed.
  Lemma conn_le_other : (forall d, lookup x P' <> Some (Connected d)) -> conn_le P' P.
  Proof. intros K1 k d H. destruct (N.eq_dec k x) as [->|Hne]; [destruct (K1 _ H)|rewrite (K2 _ Hne) in H; eauto]. Qed.
  Lemma conn_keep_other : (forall d, lookup x P <> Some (Connected d)) -> conn_keep P P'.
  Proof. intros K1 k d H. destruct (N.eq_dec k x) as [->|Hne]; [destruct (K1 _ H)|rewrite <- (K2 _ Hne) in H; eauto 6]. Qed.
End Upd1.

Lemma chq_ok_pop_any P ev q : chq_ok P (ev :: q) -> chq_ok P q.
Proof.
  intros [C1 C2 C3]. constructor.
  - intros y Hy. apply C1. rewrite count_cons. clear - Hy. lia.
  - intros y Hy. apply C2. rewrite count_cons. clear - Hy. lia.
  - intros x c H. destruct (C3 _ _ H) as [A B]. split; eapply no_after_tail; eauto.
Qed.
Lemma chq_ok_pop P ev q :
  chq_ok P (ev :: q) -> (forall y, ev_sends y ev = false) -> (forall y, ev_creds y ev = false) -> chq_ok P q.
Proof. intros H _ _. exact (chq_ok_pop_any _ _ _ H). Qed.

Lemma chq_ok_push_other P q ev :
  chq_ok P q -> (forall y, ev_sends y ev = false) -> (forall y, ev_creds y ev = false) -> chq_ok P (q ++ [ev]).
Proof.
  intros [C1 C2 C3] S1 S2. constructor.
  - intros y Hy. apply C1. rewrite count_snoc, S1 in Hy. cbn [b2n] in Hy. lia.
  - intros y Hy. apply C2. rewrite count_snoc, S2 in Hy. cbn [b2n] in Hy. lia.
  - intros x c H. destruct (C3 _ _ H) as [A B]. split; apply no_after_snoc; auto; rewrite ?S1, ?S2; discriminate.
Qed.

Lemma chq_ok_push_send P q ev p c :
  chq_ok P q -> inj_ok P -> lookup p P = Some (Connected c) -> tx_dropped c = false -> count (is_sd p) q = 0 ->
  ev_sends (remote c) ev = true -> (forall y, y <> remote c -> ev_sends y ev = false) -> (forall y, ev_creds y ev = false) ->
  chq_ok P (q ++ [ev]).
Proof.
  intros [C1 C2 C3] Hi Hl Ht Hs E1 E2 E3. constructor.
  - intros y Hy. destruct (N.eq_dec y (remote c)) as [->|Hne]; [eauto|].
    apply C1. rewrite count_snoc, (E2 _ Hne) in Hy. cbn [b2n] in Hy. lia.
  - intros y Hy. apply C2. rewrite count_snoc, E3 in Hy. cbn [b2n] in Hy. lia.
  - intros x d H. destruct (C3 _ _ H) as [A B]. split; apply no_after_snoc; auto; [|rewrite E3; discriminate].
    intros Hg. destruct (N.eq_dec (remote d) (remote c)) as [E|E].
    + assert (x = p) by (eapply Hi; eauto). subst x. exact Hs.
    + rewrite (E2 _ E) in Hg. discriminate.
Qed.
Lemma chq_ok_push_cred P q n p c :
  chq_ok P q -> inj_ok P -> lookup p P = Some (Connected c) -> rx_dropped c = false -> count (is_rd p) q = 0 ->
  chq_ok P (q ++ [EReturnCredits (remote c) n]).
Proof.
  intros [C1 C2 C3] Hi Hl Ht Hs. constructor.
  - intros y Hy. apply C1. rewrite count_snoc in Hy. cbn [ev_sends b2n] in Hy. lia.
  - intros y Hy. destruct (N.eq_dec y (remote c)) as [->|Hne]; [eauto|].
    apply C2. rewrite count_snoc in Hy. cbn [ev_creds] in Hy. apply N.eqb_neq in Hne. rewrite N.eqb_sym, Hne in Hy. cbn [b2n] in Hy. lia.
  - intros x d H. destruct (C3 _ _ H) as [A B]. split; apply no_after_snoc; auto; [cbn [ev_sends]; discriminate|].
    cbn [ev_creds]. intros Hg. apply N.eqb_eq in Hg. assert (x = p) by (eapply Hi; eauto). subst x. exact Hs.
Qed.

Lemma chq_ok_upd P P' q x c c' :
  chq_ok P q -> inj_ok P -> lookup x P = Some (Connected c) ->
  (forall k, k <> x -> lookup k P' = lookup k P) ->
  (lookup x P' = Some (Connected c') /\ remote c' = remote c \/ lookup x P' = None) ->
  (tx_dropped c = false -> (lookup x P' = None \/ tx_dropped c' = true) -> count (ev_sends (remote c)) q = 0) ->
  (rx_dropped c = false -> (lookup x P' = None \/ rx_dropped c' = true) -> count (ev_creds (remote c)) q = 0) ->
  chq_ok P' q.
Proof.
  intros [C1 C2 C3] Hi Hl K2 K1 S1 S2. constructor.
  - intros y Hy. destruct (C1 y Hy) as (x0 & c0 & P1 & P2 & P3). destruct (N.eq_dec x0 x) as [->|Hne].
    + assert (c0 = c) by congruence. subst c0. destruct K1 as [[K1 Er]|K1].
      * exists x, c'. split; [exact K1|split; [congruence|]]. destruct (tx_dropped c') eqn:Et; [|reflexivity].
        rewrite <- P2 in Hy. rewrite S1 in Hy; auto. clear - Hy. lia.
      * rewrite <- P2 in Hy. rewrite S1 in Hy; auto. clear - Hy. lia.
    + exists x0, c0. rewrite (K2 _ Hne). auto.
  - intros y Hy. destruct (C2 y Hy) as (x0 & c0 & P1 & P2 & P3). destruct (N.eq_dec x0 x) as [->|Hne].
    + assert (c0 = c) by congruence. subst c0. destruct K1 as [[K1 Er]|K1].
      * exists x, c'. split; [exact K1|split; [congruence|]]. destruct (rx_dropped c') eqn:Et; [|reflexivity].
        rewrite <- P2 in Hy. rewrite S2 in Hy; auto. clear - Hy. lia.
      * rewrite <- P2 in Hy. rewrite S2 in Hy; auto. clear - Hy. lia.
    + exists x0, c0. rewrite (K2 _ Hne). auto.
  - intros x0 d H. destruct (N.eq_dec x0 x) as [->|Hne].
    + destruct K1 as [[K1 Er]|K1]; [|congruence]. assert (d = c') by congruence. subst d. rewrite Er. eauto.
    + rewrite (K2 _ Hne) in H. eauto.
Qed.

Lemma chq_ok_keep P P' q : chq_ok P q -> conn_keep P P' -> conn_le P' P -> chq_ok P' q.
Proof.
  intros [C1 C2 C3] H1 H2. constructor.
  - intros y Hy. destruct (C1 y Hy) as (x0 & c0 & P1 & P2 & P3). destruct (H1 _ _ P1) as (d' & D1 & D2 & D3 & D4).
    exists x0, d'. repeat split; congruence.
  - intros y Hy. destruct (C2 y Hy) as (x0 & c0 & P1 & P2 & P3). destruct (H1 _ _ P1) as (d' & D1 & D2 & D3 & D4).
    exists x0, d'. repeat split; congruence.
  - intros x0 d' H. destruct (H2 _ _ H) as (d & D1 & D2). rewrite <- D2. eauto.
Qed.

Section NewEntry.
  Variables (P P' : list (N * pstate)) (x : N) (c' : conn).
  Hypothesis K1 : lookup x P' = Some (Connected c').
  Hypothesis K2 : forall k, k <> x -> lookup k P' = lookup k P.
  Hypothesis Hold : forall d, lookup x P <> Some (Connected d).
  Hypothesis Hnew : forall k d, lookup k P = Some (Connected d) -> remote d <> remote c'.

  Lemma inj_ok_new : inj_ok P -> inj_ok P'.
  Proof.
    intros Hi p1 p2 c1 c2 H1 H2 Hr. destruct (N.eq_dec p1 x) as [->|N1], (N.eq_dec p2 x) as [->|N2]; auto.
    - rewrite K1 in H1. injection H1 as <-. rewrite (K2 _ N2) in H2. destruct (Hnew _ _ H2). congruence.
    - rewrite K1 in H2. injection H2 as <-. rewrite (K2 _ N1) in H1. destruct (Hnew _ _ H1). congruence.
    - rewrite (K2 _ N1) in H1. rewrite (K2 _ N2) in H2. eauto.
  Qed.

  Lemma chq_ok_new q : chq_ok P q -> chq_ok P' q.
  Proof.
    intros [C1 C2 C3].
    assert (Hk : forall x0 c0, lookup x0 P = Some (Connected c0) -> lookup x0 P' = Some (Connected c0)).
    { intros x0 c0 H. rewrite K2; [exact H|]. intros ->. exact (Hold _ H). }
    constructor.
    - intros y Hy. destruct (C1 y Hy) as (x0 & c0 & A1 & A2). eauto.
    - intros y Hy. destruct (C2 y Hy) as (x0 & c0 & A1 & A2). eauto.
    - intros p d A. destruct (N.eq_dec p x) as [->|N1]; [|rewrite (K2 _ N1) in A; eauto].
      rewrite K1 in A. injection A as <-. split; apply no_after_g0.
      + destruct (N.eq_dec (count (ev_sends (remote c')) q) 0) as [E|E]; [exact E|].
        destruct (C1 (remote c')) as (x0 & c0 & A1 & A2 & _); [clear - E; lia|]. destruct (Hnew _ _ A1 A2).
      + destruct (N.eq_dec (count (ev_creds (remote c')) q) 0) as [E|E]; [exact E|].
        destruct (C2 (remote c')) as (x0 & c0 & A1 & A2 & _); [clear - E; lia|]. destruct (Hnew _ _ A1 A2).
  Qed.
End NewEntry.
