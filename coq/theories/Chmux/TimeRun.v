(** Keep-alive over an arbitrarily long idle period ([mux.rs]: [send_task], [recv_task]).

    [Time.v] bounds ONE gap between two received messages.  This file runs the two timers over a whole
    timeline of unbounded length and proves by induction over it that

    * on a healthy link the receive timer never fires, however long the connection stays idle
      ([idle_run_never_times_out]);
    * after ANY prefix of such a timeline, silence is noticed exactly [enforced t] after the last re-arm of
      the receive timer, which is no later than the latest arrival ([silence_after_any_prefix]), i.e. in
      bounded time.

    The sending side ([send_task]): after every message handed to the transport the ping timer is re-armed
    with the interval [P]; when it fires a Ping is sent.  So the [k+1]-th message leaves [g <= P] after the
    [k]-th one ([g < P] when the application sent something earlier).  Each message takes a one-way delay
    [d] with [dmin <= d <= dmin + jitter].  The receiving side ([recv_task]): a timer with the enforced
    timeout [L] is re-armed by every received message; when it fires the dispatcher ends with [Timeout]. *)
From Remoc Require Import Lib.Base Gen.Consts Chmux.Wire Chmux.Time.

(** sending instants: the next message leaves [g] after the previous one *)
Fixpoint sends (s : N) (gs : list N) : list N :=
  match gs with [] => [] | g :: gs => (s + g) :: sends (s + g) gs end.

(** arrival instants *)
Fixpoint arrivals (ss ds : list N) : list N :=
  match ss, ds with s :: ss, d :: ds => (s + d) :: arrivals ss ds | _, _ => [] end.

(** the receive timer: [Some t] = fired at [t]; [last] = instant of the last re-arm.  The clock is
    monotone, so a message that the transport hands over "earlier" than the previous one (re-ordered
    delays) re-arms at the current instant. *)
Fixpoint recv_run (L last : N) (arr : list N) : option N :=
  match arr with
  | [] => None
  | a :: arr => if last + L <=? a then Some (last + L) else recv_run L (N.max last a) arr
  end.

(** instant of the last re-arm after a run without timeout *)
Fixpoint recv_last (L last : N) (arr : list N) : N :=
  match arr with
  | [] => last
  | a :: arr => if last + L <=? a then last else recv_last L (N.max last a) arr
  end.

Definition gaps_ok (P : N) (gs : list N) : Prop := Forall (fun g => g <= P) gs.
Definition delays_ok (dmin jitter : N) (ds : list N) : Prop := Forall (fun d => dmin <= d /\ d <= dmin + jitter) ds.

Lemma recv_run_healthy P L dmin jitter : P + jitter < L ->
  forall gs ds s last, gaps_ok P gs -> delays_ok dmin jitter ds ->
    s + dmin <= last -> recv_run L last (arrivals (sends s gs) ds) = None.
Proof.
  intros HL. induction gs as [|g gs IH]; intros ds s last Hg Hd Hl; [reflexivity|].
  destruct ds as [|d ds]; [reflexivity|].
  cbn [sends arrivals recv_run].
  inversion Hg as [|? ? Hg1 Hg2]; subst. inversion Hd as [|? ? [Hd1 Hd1'] Hd2]; subst.
  destruct (last + L <=? s + g + d) eqn:E; [lia|].
  apply IH; [assumption|assumption|lia].
Qed.

(** An idle healthy connection of ANY length: the peer pings at least every [ping_interval t]; with a
    delay jitter below half the enforced timeout the receive timer never fires. *)
Theorem idle_run_never_times_out t jitter dmin gs ds s0 d0 :
  t <= 18446744073709551615 * MS -> 2 * jitter < enforced t ->
  gaps_ok (ping_interval t) gs -> delays_ok dmin jitter ds -> dmin <= d0 ->
  recv_run (enforced t) (s0 + d0) (arrivals (sends s0 gs) ds) = None.
Proof.
  intros Ht Hj Hg Hd H0. pose proof (idle_never_times_out t jitter Ht Hj) as Hgap. unfold max_gap in Hgap.
  eapply recv_run_healthy; eauto. lia.
Qed.

Lemma recv_run_silence L : forall arr last a rest,
  recv_run L last arr = None -> recv_last L last arr + L <= a ->
  recv_run L last (arr ++ a :: rest) = Some (recv_last L last arr + L).
Proof.
  induction arr as [|x arr IH]; intros last a rest Hn Ha; cbn [recv_run recv_last app] in *.
  - destruct (last + L <=? a) eqn:E; [reflexivity|lia].
  - destruct (last + L <=? x) eqn:E; [discriminate|]. apply IH; assumption.
Qed.

Fixpoint maxl (m : N) (l : list N) : N := match l with [] => m | x :: l => maxl (N.max m x) l end.
Lemma maxl_ge l : forall m, m <= maxl m l.
Proof. induction l as [|x l IH]; intros m; cbn [maxl]; [lia|]. specialize (IH (N.max m x)). lia. Qed.

Lemma recv_last_le L : forall arr last, recv_last L last arr <= maxl last arr.
Proof.
  induction arr as [|x arr IH]; intros last; cbn [recv_last maxl]; [lia|].
  destruct (last + L <=? x); [|apply IH]. pose proof (maxl_ge arr (N.max last x)). lia.
Qed.

Theorem silence_after_any_prefix t jitter dmin gs ds s0 d0 a rest :
  t <= 18446744073709551615 * MS -> 2 * jitter < enforced t ->
  gaps_ok (ping_interval t) gs -> delays_ok dmin jitter ds -> dmin <= d0 ->
  let arr := arrivals (sends s0 gs) ds in
  let last := recv_last (enforced t) (s0 + d0) arr in
  last + enforced t <= a ->
  recv_run (enforced t) (s0 + d0) (arr ++ a :: rest) = Some (last + enforced t) /\
  last <= maxl (s0 + d0) arr.
Proof.
  intros Ht Hj Hg Hd H0 arr last Ha. split.
  - apply recv_run_silence; [|exact Ha]. eapply idle_run_never_times_out; eauto.
  - apply recv_last_le.
Qed.

(** before the repair of F9 a sub-millisecond timeout was announced as "none": the peer never pinged,
    and the timeline with no message at all times out on a healthy link *)
Example no_pings_time_out : recv_run (enforced 900000) 0 [5000000] = Some 1000000.
Proof. vm_compute. reflexivity. Qed.
Example pings_keep_alive :
  recv_run (enforced 900000) 0 (arrivals (sends 0 [500000; 500000; 500000; 400000]) [100; 300000; 0; 299999]) = None.
Proof. vm_compute. reflexivity. Qed.
