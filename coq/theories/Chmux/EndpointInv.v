(** The well-formedness invariant [WF] of an endpoint ([Endpoint.v]) and how its components react to
    the elementary updates performed by the steps.

    [WF e] = no panic so far, the allocator holds pairwise distinct numbers, at most [max_ports] of
    them, every receive queue respects the advertised buffer and the listener queues their capacity
    (these hold even after the connection has been terminated), and -- while the dispatcher has not
    ended with an error -- [Inv e]:

    - [qs_ok]      [cq] carries only connect requests and the all-clients-dropped marker, [chq] only port events;
    - [num_ok]     for every number [p]: (occurrences of [p] in the pending [EConnectReq]/[EAccepted]/
                   [ESendPorts] events) + (1 if [p] is a key of the port table) <= (1 if [p] is allocated).
                   Hence pending numbers are allocated, pairwise distinct, not keys of the table, and
                   every key is allocated;
    - [req_ok]     [outstanding] is exactly the set of live [Request] objects ([requests]); the reply event
                   ([EAccepted _ r]/[ERejected r _]) of [r] is queued exactly once iff the request is in
                   state [RAnswered], and not at all otherwise;
    - [handle_ok]  for every port [p] with handle [h]: [ESenderDropped p] is queued once iff [h_tx = Queued]
                   (never otherwise), same for [EReceiverDropped]/[h_rx] and [EReceiverClosed]/[h_rxc]; no
                   [EReceiverClosed p] is queued behind an [EReceiverDropped p]; [h_rx = Gone] excludes
                   [h_rxc = Queued]; a [Connected] entry has a handle and [tx_dropped = (h_tx = Gone)],
                   [rx_dropped = (h_rx = Gone)], [rx_closed = (h_rxc = Gone)]; a port that is not
                   [Connected] has both halves [Gone] (so a half that is not [Gone] implies [Connected]);
    - [portq_ok]   a request is in state [RPortQ] iff it occurs (exactly once) in the receive queue of a
                   connected port whose receiver is alive;
    - [buf_ok]     per connected port: [used <= receive_buffer], at most one zero-cost item and only after
                   [SendFinish] (so [len rxq <= used + 1]), and NOT all four release flags (else it
                   would have been freed);
    - [lq_ok]      [lq_wait], [lq_nowait] [<= connect_queue + 1];
    - keys of the port table are unique;
    - [conn_ok]    (while not both Goodbyes) a local connect request in state [CWaiting] has exactly one
                   carrier: its queued [EConnectReq]/[ESendPorts] entry or its [Connecting] table entry;
                   a resolved or unknown request id has none.

    What is assumed about local users is exactly the enabledness of the [U..]/[N..] actions in
    [Endpoint.step_opt], i.e. what Rust ownership gives:
    - [UConnect]/[UAccept]/[USendPorts] bring numbers that are [fresh]: a [PortNumber] is obtained from
      THIS endpoint's allocator, is unique while it exists, and at most [max_ports] exist (a [PortNumber]
      of another multiplexer's allocator passed to [connect_ext]/[accept_from]/[Sender::connect] is
      outside the model);
    - [UConnect]/[USendPorts] bring new reply cells (fresh request ids);
    - [UDropTx]/[UDropRx]/[UCloseRx]/[USendData]/[USendPorts]/[UConsume]/[UReturnCredits] need the
      [Sender]/[Receiver] to be [Alive] (a value is dropped once; [close] takes [&mut Receiver] and is
      guarded by [closed]); the notifier tasks [NTx]/[NRx]/[NReq] fire once (oneshot);
    - [UAccept]/[UReject]/[UDropRequest] consume a [Request] that is held (by value);
      [UListenerTake]/[UDropListener] need the [Listener]. *)
From Remoc Require Import Lib.Base Gen.Consts Chmux.Wire Chmux.Mux Chmux.Endpoint Chmux.EndpointLemmas.
From RecordUpdate Require Import RecordUpdate.

(** port numbers ([PortNumber] objects) travelling inside an event *)
Definition ev_nums (ev : evt) : list N :=
  match ev with
  | EConnectReq p _ _ _ => [p]
  | EAccepted l _ => [l]
  | ESendPorts _ _ _ _ ps => map (fun x => fst (fst x)) ps
  | _ => []
  end.

Definition q_nums (l : list evt) : list N := flat_map ev_nums l.

(** local connect-request ids (response cells) travelling inside an event *)
Definition ev_reqs (ev : evt) : list N :=
  match ev with
  | EConnectReq _ _ _ req => [req]
  | ESendPorts _ _ _ _ ps => map (fun x => snd x) ps
  | _ => []
  end.

Definition q_reqs (l : list evt) : list N := flat_map ev_reqs l.
Definition st_reqs (s : option pstate) : list N := match s with Some (Connecting r) => [r] | _ => [] end.
Definition tab (f : N -> option pstate -> list N) (pt : list (N * pstate)) : list N :=
  flat_map (fun x => f (fst x) (Some (snd x))) pt.
Definition port_reqs (pt : list (N * pstate)) : list N := tab (fun _ s => st_reqs s) pt.
Definition is_reply (r : N) (ev : evt) : bool :=
  match ev with EAccepted _ r' => r' =? r | ERejected r' _ => r' =? r | _ => false end.
Definition is_sd (p : N) (ev : evt) : bool := match ev with ESenderDropped q => q =? p | _ => false end.
Definition is_rd (p : N) (ev : evt) : bool := match ev with EReceiverDropped q => q =? p | _ => false end.
Definition is_rc (p : N) (ev : evt) : bool := match ev with EReceiverClosed q => q =? p | _ => false end.
Definition is_queued (l : life) : bool := match l with Queued => true | _ => false end.
Definition is_gone (l : life) : bool := match l with Gone => true | _ => false end.
Definition is_answered (o : option rlife) : bool := match o with Some RAnswered => true | _ => false end.
Definition is_some {A} (o : option A) : bool := match o with Some _ => true | None => false end.
Definition is_waiting (o : option cstate) : bool := match o with Some CWaiting => true | _ => false end.
Definition is_connected (o : option pstate) : bool := match o with Some (Connected _) => true | _ => false end.
Definition is_alive (l : life) : bool := match l with Alive => true | _ => false end.
Definition is_portq (o : option rlife) : bool := match o with Some RPortQ => true | _ => false end.
(** no [g]-event behind an [f]-event *)
Fixpoint no_after {A} (f g : A -> bool) (l : list A) : Prop :=
  match l with [] => True | x :: r => (f x = true -> count g r = 0) /\ no_after f g r end.
(** the handle of port [p] (a port that never had user objects behaves like one whose objects are gone) *)
Definition hget (hs : list (N * handle)) (p : N) : handle :=
  match lookup p hs with Some h => h | None => {| h_tx := Gone; h_rx := Gone; h_rxc := Alive |} end.

(** the requests sitting in the receive queue of port [k] (they die with the receiver) *)
Definition pq_ent (hs : list (N * handle)) (k : N) (s : option pstate) : list N :=
  match s with
  | Some (Connected c) => if is_alive (h_rx (hget hs k)) then flat_map snd (rxq c) else []
  | _ => []
  end.

Definition portq_reqs (hs : list (N * handle)) (pt : list (N * pstate)) : list N := tab (pq_ent hs) pt.
Definition all4 (c : conn) : bool := tx_dropped c && rx_dropped c && negb (rx_open c) && rrx_dropped c.
Definition num_ok (al : list N) (cq chq : list evt) (pt : list (N * pstate)) : Prop :=
  forall p, occ p (q_nums cq) + occ p (q_nums chq) + isK (lookup p pt) <= b2n (mem p al).
Definition req_ok (out : list N) (reqs : list (N * rlife)) (chq : list evt) : Prop :=
  forall r, count (is_reply r) chq = b2n (is_answered (lookup r reqs)) /\ mem r out = is_some (lookup r reqs).
Definition portq_ok (hs : list (N * handle)) (pt : list (N * pstate)) (reqs : list (N * rlife)) : Prop :=
  forall r, occ r (portq_reqs hs pt) = b2n (is_portq (lookup r reqs)).

(** [handle_ok] for one port [p]: [h] is its handle ([hget]), [has] whether one is stored, [st] its table entry.
    The drop/close event of a half is queued once iff the half is [Queued]; no close behind a drop; a
    [Connected] entry has a handle and its flags say which halves are [Gone]; any other port has both halves [Gone]. *)
Definition hok1 (h : handle) (has : bool) (chq : list evt) (st : option pstate) (p : N) : Prop :=
  count (is_sd p) chq = b2n (is_queued (h_tx h)) /\
  count (is_rd p) chq = b2n (is_queued (h_rx h)) /\
  count (is_rc p) chq = b2n (is_queued (h_rxc h)) /\
  no_after (is_rd p) (is_rc p) chq /\
  (h_rx h = Gone -> h_rxc h <> Queued) /\
  match st with
  | Some (Connected c) =>
      has = true /\
      tx_dropped c = is_gone (h_tx h) /\ rx_dropped c = is_gone (h_rx h) /\ rx_closed c = is_gone (h_rxc h)
  | _ => h_tx h = Gone /\ h_rx h = Gone
  end.

Definition handle_ok (hs : list (N * handle)) (chq : list evt) (pt : list (N * pstate)) : Prop :=
  forall p, hok1 (hget hs p) (is_some (lookup p hs)) chq (lookup p pt) p.
Definition buf_ok (buf : N) (pt : list (N * pstate)) : Prop :=
  forall p c, lookup p pt = Some (Connected c) ->
    used c <= buf /\ count (fun x => fst x =? 0) (rxq c) <= b2n (negb (rx_open c)) /\ all4 c = false.
Definition lq_ok (m : mux) : Prop :=
  lq_wait m <= cfg_connect_queue m + 1 /\ lq_nowait m <= cfg_connect_queue m + 1.
Definition conn_ok (cs : list (N * cstate)) (cq chq : list evt) (pt : list (N * pstate)) : Prop :=
  forall req, occ req (q_reqs cq) + occ req (q_reqs chq) + occ req (port_reqs pt) = b2n (is_waiting (lookup req cs)).
Definition cq_ev (ev : evt) : bool := match ev with EConnectReq _ _ _ _ | EAllClientsDropped => true | _ => false end.

Definition chq_ev (ev : evt) : bool :=
  match ev with
  | EAccepted _ _ | ERejected _ _ | ESendData _ _ _ _ | ESendPorts _ _ _ _ _ | EReturnCredits _ _
  | ESenderDropped _ | EReceiverClosed _ | EReceiverDropped _ => true
  | _ => false
  end.

Definition qs_ok (cq chq : list evt) : Prop := forallb cq_ev cq = true /\ forallb chq_ev chq = true.

Record Inv (e : ep) : Prop := mk_Inv {
  inv_qs : qs_ok (cq e) (chq e);
  inv_num : num_ok (alloc e) (cq e) (chq e) (ports (mx e));
  inv_req : req_ok (outstanding (mx e)) (requests e) (chq e);
  inv_h : handle_ok (handles e) (chq e) (ports (mx e));
  inv_pq : portq_ok (handles e) (ports (mx e)) (requests e);
  inv_buf : buf_ok (cfg_buffer (mx e)) (ports (mx e));
  inv_lq : lq_ok (mx e);
  inv_keys : NoDup (map fst (ports (mx e)));
  inv_conn : goodbye_sent (mx e) && goodbye_received (mx e) = false -> conn_ok (connects e) (cq e) (chq e) (ports (mx e))
}.

Record WF (e : ep) : Prop := mk_WF {
  wf_nopanic : panicked e = None;
  wf_nodup : NoDup (alloc e);
  wf_len : len (alloc e) <= max_ports e;
  wf_buf : buf_ok (cfg_buffer (mx e)) (ports (mx e));
  wf_lq : lq_ok (mx e);
  wf_inv : dead e = None -> Inv e
}.

(** * counting *)
Lemma b2n_le1 b : b2n b <= 1. Proof. destruct b; cbn [b2n]; lia. Qed.
Lemma isK_le1 {A} (o : option A) : isK o <= 1. Proof. destruct o; cbn [isK]; lia. Qed.
Lemma head_counted b n : 1 + n = b2n b -> b = true /\ n = 0.
Proof. destruct b; cbn [b2n]; lia. Qed.

Lemma lookup_fold_insert {A} (st : A) rs reqs r :
  lookup r (fold_left (fun acc r => insert r st acc) rs reqs) = if mem r rs then Some st else lookup r reqs.
Proof.
  revert reqs. induction rs as [|x rs IH]; intros reqs; cbn [fold_left mem]; [reflexivity|].
  rewrite IH, lookup_insert. destruct (r =? x); cbn [orb]; [|reflexivity]. now destruct (mem r rs).
Qed.

Definition nodupb : list N -> bool :=
  fix nodup (l : list N) : bool := match l with [] => true | x :: r => negb (mem x r) && nodup r end.

Lemma nodupb_occ l r : nodupb l = true -> occ r l = b2n (mem r l).
Proof.
  induction l as [|x l IH]; cbn [nodupb mem]; [reflexivity|]. intros H.
  apply andb_true_iff in H as [H1 H2]. apply negb_true_iff in H1. specialize (IH H2).
  rewrite occ_cons, (N.eqb_sym x r). destruct (r =? x) eqn:E; cbn [orb b2n].
  - apply N.eqb_eq in E. subst x. apply occ_mem in H1. lia.
  - lia.
Qed.

Lemma tab_remove f r k pt :
  NoDup (map fst pt) -> (forall k, f k None = []) ->
  occ r (tab f (remove k pt)) + occ r (f k (lookup k pt)) = occ r (tab f pt).
Proof.
  intros Hn Hf. induction pt as [|[k1 v] pt IH]; cbn [remove lookup map fst] in *.
  - rewrite Hf. reflexivity.
  - inversion Hn as [|? ? Hx Hn']; subst. specialize (IH Hn').
    unfold tab in *. cbn [flat_map snd fst]. destruct (k =? k1) eqn:E.
    + apply N.eqb_eq in E. subst k1. rewrite occ_app.
      assert (lookup k pt = None) as Hl by now apply lookup_None_keys.
      rewrite Hl, Hf, occ_nil in IH. lia.
    + cbn [flat_map snd fst]. rewrite !occ_app. lia.
Qed.

Lemma tab_insert f r k v pt :
  NoDup (map fst pt) -> (forall k, f k None = []) ->
  occ r (tab f (insert k v pt)) + occ r (f k (lookup k pt)) = occ r (tab f pt) + occ r (f k (Some v)).
Proof.
  intros Hn Hf. pose proof (tab_remove f r k pt Hn Hf) as H. unfold insert, tab in *.
  cbn [flat_map snd fst]. rewrite occ_app. lia.
Qed.

Lemma tab_ext f g pt : (forall k v, In k (map fst pt) -> f k v = g k v) -> tab f pt = tab g pt.
Proof.
  induction pt as [|[k1 v] pt IH]; intros H; unfold tab in *; cbn [flat_map fst snd map In] in *; [reflexivity|].
  f_equal; [apply H; auto|]. apply IH. intros k v0 Hl. apply H. auto.
Qed.

Lemma tab_change f g r p pt :
  NoDup (map fst pt) -> (forall k, f k None = []) -> (forall k, g k None = []) ->
  (forall k v, k <> p -> f k v = g k v) ->
  occ r (tab f pt) + occ r (g p (lookup p pt)) = occ r (tab g pt) + occ r (f p (lookup p pt)).
Proof.
  intros Hn Hf Hg Hfg. pose proof (tab_remove f r p pt Hn Hf) as H1. pose proof (tab_remove g r p pt Hn Hg) as H2.
  assert (tab f (remove p pt) = tab g (remove p pt)) as E.
  { apply tab_ext. intros k v Hk. apply keys_remove in Hk. apply Hfg. tauto. }
  rewrite E in H1. lia.
Qed.

(** * [qs_ok] *)
Lemma qs_ok_push_chq cq chq ev : chq_ev ev = true -> qs_ok cq chq -> qs_ok cq (chq ++ [ev]).
Proof. intros Hev [H1 H2]. split; [exact H1|]. rewrite forallb_app, H2. cbn [forallb]. now rewrite Hev. Qed.
Lemma qs_ok_push_cq cq chq ev : cq_ev ev = true -> qs_ok cq chq -> qs_ok (cq ++ [ev]) chq.
Proof. intros Hev [H1 H2]. split; [|exact H2]. rewrite forallb_app, H1. cbn [forallb]. now rewrite Hev. Qed.
Lemma qs_ok_pop_chq cq q ev : qs_ok cq (ev :: q) -> chq_ev ev = true /\ qs_ok cq q.
Proof. intros [H1 H2]. cbn [forallb] in H2. apply andb_true_iff in H2 as [H2 H3]. repeat split; auto. Qed.
Lemma qs_ok_pop_cq q chq ev : qs_ok (ev :: q) chq -> cq_ev ev = true /\ qs_ok q chq.
Proof. intros [H1 H2]. cbn [forallb] in H1. apply andb_true_iff in H1 as [H1 H3]. repeat split; auto. Qed.

(** * [num_ok] *)
Lemma q_nums_cons x l : q_nums (x :: l) = ev_nums x ++ q_nums l. Proof. reflexivity. Qed.
Lemma q_nums_snoc x l ev : occ x (q_nums (l ++ [ev])) = occ x (q_nums l) + occ x (ev_nums ev).
Proof. unfold q_nums. rewrite flat_map_app, occ_app. cbn [flat_map]. now rewrite app_nil_r. Qed.

Definition all_fresh_go (maxp : N) : list N -> list N -> bool :=
  fix go (l : list N) (a : list N) : bool :=
    match l with
    | [] => true
    | p :: r => negb (mem p a) && (len a <? maxp) && go r (p :: a)
    end.

Lemma all_fresh_go_spec maxp l a :
  all_fresh_go maxp l a = true -> NoDup a -> len a <= maxp ->
  NoDup (rev l ++ a) /\ len (rev l ++ a) <= maxp /\
  forall p, occ p l + b2n (mem p a) = b2n (mem p (rev l ++ a)).
Proof.
  revert a. induction l as [|x l IH]; intros a H Hn Hl; cbn [all_fresh_go rev app] in *.
  - repeat split; auto.
  - apply andb_true_iff in H as [H H3]. apply andb_true_iff in H as [H1 H2].
    apply negb_true_iff in H1. apply N.ltb_lt in H2.
    destruct (IH (x :: a) H3) as (I1 & I2 & I3).
    + constructor; [now apply mem_false_In|exact Hn].
    + rewrite len_cons. lia.
    + rewrite <- app_assoc. cbn [app]. repeat split; auto.
      intros p. specialize (I3 p). rewrite occ_cons. cbn [mem] in I3. rewrite (N.eqb_sym x p).
      destruct (p =? x) eqn:E; cbn [orb b2n] in *; [|lia].
      apply N.eqb_eq in E. subst x. rewrite H1. cbn [b2n]. lia.
Qed.

Lemma fresh_alloc e p :
  fresh e p = true -> NoDup (alloc e) -> len (alloc e) <= max_ports e ->
  NoDup (p :: alloc e) /\ len (p :: alloc e) <= max_ports e /\
  forall x, occ x [p] + b2n (mem x (alloc e)) = b2n (mem x (p :: alloc e)).
Proof. intros H. apply (all_fresh_go_spec (max_ports e) [p]). cbn [all_fresh_go]. now rewrite andb_true_r. Qed.

Lemma num_ok_new_cq al al' cq chq pt ev :
  (forall x, occ x (ev_nums ev) + b2n (mem x al) = b2n (mem x al')) -> num_ok al cq chq pt -> num_ok al' (cq ++ [ev]) chq pt.
Proof. intros Ha H x. specialize (H x). specialize (Ha x). rewrite q_nums_snoc. lia. Qed.
Lemma num_ok_new_chq al al' cq chq pt ev :
  (forall x, occ x (ev_nums ev) + b2n (mem x al) = b2n (mem x al')) -> num_ok al cq chq pt -> num_ok al' cq (chq ++ [ev]) pt.
Proof. intros Ha H x. specialize (H x). specialize (Ha x). rewrite q_nums_snoc. lia. Qed.
Lemma num_ok_pop_chq al cq q pt ev : ev_nums ev = [] -> num_ok al cq (ev :: q) pt -> num_ok al cq q pt.
Proof. intros Hev H p. specialize (H p). rewrite q_nums_cons, Hev in H. exact H. Qed.
Lemma num_ok_pop_cq al q chq pt ev : ev_nums ev = [] -> num_ok al (ev :: q) chq pt -> num_ok al q chq pt.
Proof. intros Hev H p. specialize (H p). rewrite q_nums_cons, Hev in H. exact H. Qed.

Lemma num_ok_upd al cq chq pt p s s' :
  lookup p pt = Some s -> num_ok al cq chq pt -> num_ok al cq chq (insert p s' pt).
Proof.
  intros Hl H p0. specialize (H p0). rewrite lookup_insert. destruct (p0 =? p) eqn:E; [|exact H].
  apply N.eqb_eq in E. subst p0. rewrite Hl in H. exact H.
Qed.

Lemma num_ok_remove al cq chq pt p :
  lookup p pt <> None -> num_ok al cq chq pt -> num_ok (del p al) cq chq (remove p pt).
Proof.
  intros Hl H p0. pose proof (H p0) as H0. rewrite lookup_remove, mem_del. destruct (p0 =? p) eqn:E; [|exact H0].
  apply N.eqb_eq in E. subst p0. destruct (lookup p pt); [|congruence]. cbn [isK b2n] in *.
  pose proof (b2n_le1 (mem p al)). lia.
Qed.

Definition num_ok' (al pend : list N) (pt : list (N * pstate)) : Prop :=
  forall p, occ p pend + isK (lookup p pt) <= b2n (mem p al).
Lemma num_ok_iff al cq chq pt : num_ok al cq chq pt <-> num_ok' al (q_nums cq ++ q_nums chq) pt.
Proof. unfold num_ok, num_ok'. split; intros H p; specialize (H p); rewrite occ_app in *; lia. Qed.
Lemma num_ok_head_chq al cq ev q pt : num_ok al cq (ev :: q) pt -> num_ok' al (ev_nums ev ++ (q_nums cq ++ q_nums q)) pt.
Proof. intros H x. specialize (H x). rewrite q_nums_cons, !occ_app in *. lia. Qed.

Lemma num_release al p pend pt : num_ok' al (p :: pend) pt -> num_ok' (del p al) pend pt.
Proof.
  intros H x. specialize (H x). rewrite occ_cons, (N.eqb_sym p x) in H. rewrite mem_del.
  destruct (x =? p); cbn [b2n] in *; [|exact H]. pose proof (b2n_le1 (mem x al)). lia.
Qed.

Lemma num_step al pend pend' pt p s :
  (forall x, occ x pend = b2n (p =? x) + occ x pend') -> num_ok' al pend pt ->
  lookup p pt = None /\ num_ok' al pend' (insert p s pt).
Proof.
  intros Hp H. assert (lookup p pt = None) as Hl.
  { specialize (H p). rewrite Hp, N.eqb_refl in H. cbn [b2n] in H. pose proof (b2n_le1 (mem p al)).
    destruct (lookup p pt); [cbn [isK] in H; lia|reflexivity]. }
  split; [exact Hl|]. intros x. specialize (H x). rewrite Hp in H. rewrite lookup_insert, (N.eqb_sym x p).
  destruct (p =? x) eqn:E; cbn [b2n isK] in *; [|lia]. apply N.eqb_eq in E. subst x. rewrite Hl in H. cbn [isK] in H. lia.
Qed.

(** * [conn_ok] *)
Lemma q_reqs_cons x l : q_reqs (x :: l) = ev_reqs x ++ q_reqs l. Proof. reflexivity. Qed.
Lemma q_reqs_snoc x l ev : occ x (q_reqs (l ++ [ev])) = occ x (q_reqs l) + occ x (ev_reqs ev).
Proof. unfold q_reqs. rewrite flat_map_app, occ_app. cbn [flat_map]. now rewrite app_nil_r. Qed.
Lemma st_reqs_None (k : N) : (fun (_ : N) s => st_reqs s) k None = []. Proof. reflexivity. Qed.
Lemma port_reqs_insert r p s pt : NoDup (map fst pt) ->
  occ r (port_reqs (insert p s pt)) + occ r (st_reqs (lookup p pt)) = occ r (port_reqs pt) + occ r (st_reqs (Some s)).
Proof. intros Hn. exact (tab_insert (fun _ s => st_reqs s) r p s pt Hn st_reqs_None). Qed.
Lemma port_reqs_remove r p pt : NoDup (map fst pt) ->
  occ r (port_reqs (remove p pt)) + occ r (st_reqs (lookup p pt)) = occ r (port_reqs pt).
Proof. intros Hn. exact (tab_remove (fun _ s => st_reqs s) r p pt Hn st_reqs_None). Qed.

Lemma waiting_news cs reqs x :
  nodupb reqs = true -> forallb (fun r => match lookup r cs with Some _ => false | None => true end) reqs = true ->
  occ x reqs + b2n (is_waiting (lookup x cs)) = b2n (is_waiting (lookup x (fold_left (fun c r => insert r CWaiting c) reqs cs))).
Proof.
  intros Hn Hf. rewrite lookup_fold_insert, (nodupb_occ _ x Hn). destruct (mem x reqs) eqn:Em; [|reflexivity].
  rewrite forallb_forall in Hf. apply mem_In in Em. specialize (Hf _ Em). now destruct (lookup x cs).
Qed.

Lemma conn_ok_new_cq cs cs' cq chq pt ev :
  (forall x, occ x (ev_reqs ev) + b2n (is_waiting (lookup x cs)) = b2n (is_waiting (lookup x cs'))) ->
  conn_ok cs cq chq pt -> conn_ok cs' (cq ++ [ev]) chq pt.
Proof. intros Ha H x. specialize (H x). specialize (Ha x). rewrite q_reqs_snoc. lia. Qed.

Lemma conn_ok_new_chq cs cs' cq chq pt ev :
  (forall x, occ x (ev_reqs ev) + b2n (is_waiting (lookup x cs)) = b2n (is_waiting (lookup x cs'))) ->
  conn_ok cs cq chq pt -> conn_ok cs' cq (chq ++ [ev]) pt.
Proof. intros Ha H x. specialize (H x). specialize (Ha x). rewrite q_reqs_snoc. lia. Qed.

Lemma conn_ok_pop_chq cs cq q pt ev : ev_reqs ev = [] -> conn_ok cs cq (ev :: q) pt -> conn_ok cs cq q pt.
Proof. intros Hev H p. specialize (H p). rewrite q_reqs_cons, Hev in H. exact H. Qed.
Lemma conn_ok_pop_cq cs q chq pt ev : ev_reqs ev = [] -> conn_ok cs (ev :: q) chq pt -> conn_ok cs q chq pt.
Proof. intros Hev H p. specialize (H p). rewrite q_reqs_cons, Hev in H. exact H. Qed.

Lemma conn_ok_insert cs cq chq pt p s' :
  NoDup (map fst pt) -> st_reqs (Some s') = st_reqs (lookup p pt) ->
  conn_ok cs cq chq pt -> conn_ok cs cq chq (insert p s' pt).
Proof. intros Hn E H r. specialize (H r). pose proof (port_reqs_insert r p s' pt Hn) as T. rewrite E in T. lia. Qed.

Lemma conn_ok_resolve_insert cs cq chq pt p req s' r :
  NoDup (map fst pt) -> lookup p pt = Some (Connecting req) -> st_reqs (Some s') = [] ->
  conn_ok cs cq chq pt -> conn_ok (insert req (CResolved r) cs) cq chq (insert p s' pt).
Proof.
  intros Hn Hl Hs H r0. pose proof (H r0) as H0.
  pose proof (port_reqs_insert r0 p s' pt Hn) as T.
  rewrite Hl, Hs in T. cbn [st_reqs] in T. rewrite occ_cons, !occ_nil in T.
  rewrite lookup_insert, (N.eqb_sym r0 req). destruct (req =? r0) eqn:E; cbn [b2n is_waiting] in *; [|lia].
  pose proof (b2n_le1 (is_waiting (lookup r0 cs))). lia.
Qed.

Lemma conn_ok_resolve_remove cs cq chq pt p req r :
  NoDup (map fst pt) -> lookup p pt = Some (Connecting req) ->
  conn_ok cs cq chq pt -> conn_ok (insert req (CResolved r) cs) cq chq (remove p pt).
Proof.
  intros Hn Hl H r0. pose proof (H r0) as H0.
  pose proof (port_reqs_remove r0 p pt Hn) as T.
  rewrite Hl in T. cbn [st_reqs] in T. rewrite occ_cons, !occ_nil in T.
  rewrite lookup_insert, (N.eqb_sym r0 req). destruct (req =? r0) eqn:E; cbn [b2n is_waiting] in *; [|lia].
  pose proof (b2n_le1 (is_waiting (lookup r0 cs))). lia.
Qed.

Definition conn_ok' (cs : list (N * cstate)) (pend : list N) (pt : list (N * pstate)) : Prop :=
  forall req, occ req pend + occ req (port_reqs pt) = b2n (is_waiting (lookup req cs)).
Lemma conn_ok_iff cs cq chq pt : conn_ok cs cq chq pt <-> conn_ok' cs (q_reqs cq ++ q_reqs chq) pt.
Proof. unfold conn_ok, conn_ok'. split; intros H p; specialize (H p); rewrite occ_app in *; lia. Qed.
Lemma conn_ok_head_chq cs cq ev q pt : conn_ok cs cq (ev :: q) pt -> conn_ok' cs (ev_reqs ev ++ (q_reqs cq ++ q_reqs q)) pt.
Proof. intros H x. specialize (H x). rewrite q_reqs_cons, !occ_app in *. lia. Qed.

Lemma conn_answer cs req r pend pt : conn_ok' cs (req :: pend) pt -> conn_ok' (insert req (CResolved r) cs) pend pt.
Proof.
  intros H x. specialize (H x). rewrite occ_cons, (N.eqb_sym req x) in H. rewrite lookup_insert.
  destruct (x =? req); cbn [b2n is_waiting] in *; [|exact H]. pose proof (b2n_le1 (is_waiting (lookup x cs))). lia.
Qed.

Lemma conn_step cs pend pend' pt p req :
  NoDup (map fst pt) -> lookup p pt = None ->
  (forall x, occ x pend = b2n (req =? x) + occ x pend') -> conn_ok' cs pend pt ->
  conn_ok' cs pend' (insert p (Connecting req) pt).
Proof.
  intros Hn Hl Hp H x. specialize (H x). rewrite Hp in H.
  pose proof (port_reqs_insert x p (Connecting req) pt Hn) as T.
  rewrite Hl in T. cbn [st_reqs] in T. rewrite occ_cons, occ_nil in T. lia.
Qed.

(** * [req_ok] *)
Lemma req_ok_push out reqs chq ev :
  (forall r, is_reply r ev = false) -> req_ok out reqs chq -> req_ok out reqs (chq ++ [ev]).
Proof. intros Hev H r. specialize (H r). rewrite count_snoc, Hev. cbn [b2n]. rewrite N.add_0_r. exact H. Qed.
Lemma req_ok_pop out reqs q ev : (forall r, is_reply r ev = false) -> req_ok out reqs (ev :: q) -> req_ok out reqs q.
Proof. intros Hev H r. specialize (H r). rewrite count_cons, Hev in H. exact H. Qed.

(** * [handle_ok] *)
Lemma no_after_snoc {A} (f g : A -> bool) l x :
  no_after f g l -> (g x = true -> count f l = 0) -> no_after f g (l ++ [x]).
Proof.
  induction l as [|a l IH]; cbn [app no_after count]; intros H Hx.
  - split; [reflexivity|exact I].
  - destruct H as [H1 H2]. split.
    + intros Hf. rewrite count_snoc. destruct (g x) eqn:Eg; cbn [b2n].
      * specialize (Hx eq_refl). rewrite Hf in Hx. cbn [b2n] in Hx. lia.
      * specialize (H1 Hf). lia.
    + apply IH; [exact H2|]. intros Hg. specialize (Hx Hg). lia.
Qed.

Lemma no_after_g0 {A} (f g : A -> bool) l : count g l = 0 -> no_after f g l.
Proof.
  induction l as [|a l IH]; [intros; exact I|]. rewrite count_cons. intros H. split; [intros _; lia|apply IH; lia].
Qed.

Lemma no_after_tail {A} (f g : A -> bool) a l : no_after f g (a :: l) -> no_after f g l.
Proof. intros H. apply H. Qed.
Lemma hget_insert hs p h q : hget (insert p h hs) q = if q =? p then h else hget hs q.
Proof. unfold hget. rewrite lookup_insert. now destruct (q =? p). Qed.
Lemma hget_some hs p h : lookup p hs = Some h -> hget hs p = h.
Proof. unfold hget. now intros ->. Qed.
Definition neutral_h (p : N) (ev : evt) : Prop := is_sd p ev = false /\ is_rd p ev = false /\ is_rc p ev = false.

Lemma hok1_push h has chq st p ev : neutral_h p ev -> hok1 h has chq st p -> hok1 h has (chq ++ [ev]) st p.
Proof.
  intros (E1 & E2 & E3) (H1 & H2 & H3 & H4 & H5). unfold hok1.
  rewrite !count_snoc, E1, E2, E3. cbn [b2n]. rewrite !N.add_0_r.
  repeat split; auto; try apply H5.
  apply no_after_snoc; [exact H4|]. rewrite E3. discriminate.
Qed.

Lemma hok1_pop h has q st p ev : neutral_h p ev -> hok1 h has (ev :: q) st p -> hok1 h has q st p.
Proof.
  intros (E1 & E2 & E3) (H1 & H2 & H3 & H4 & H5). unfold hok1.
  rewrite !count_cons, ?E1, ?E2, ?E3 in *. cbn [b2n] in *. rewrite !N.add_0_l in *.
  repeat split; auto; try apply H5. apply H4.
Qed.

(* One half of a handle moves to its next stage ([E]: the stage it was in), possibly queueing its event: every
   conjunct of [hok1] is rewritten with the counts of the queue and closed by computation.  The first five
   conjuncts of the premise stay in the context as [K0] .. [K4] for the goal that may remain. *)
Ltac hok1_move E st :=
  let K5 := fresh "K" in
  intros (K0 & K1 & K2 & K3 & K4 & K5); unfold hok1; cbn [h_tx h_rx h_rxc set RecordSet.set];
  rewrite ?count_snoc; cbn [is_sd is_rd is_rc]; rewrite ?N.eqb_refl; rewrite E in *; rewrite ?K0, ?K1, ?K2;
  cbn [is_queued is_gone b2n] in *; rewrite ?N.add_0_r;
  repeat split; try reflexivity; try assumption; try congruence;
  try (destruct st as [[|]|]; first [exact K5|destruct K5; discriminate]).

Lemma hok1_tx_dropped h has chq st p : h_tx h = Alive -> hok1 h has chq st p -> hok1 (h <| h_tx := Dropped |>) has chq st p.
Proof. intros E. hok1_move E st. Qed.
Lemma hok1_rx_dropped h has chq st p : h_rx h = Alive -> hok1 h has chq st p -> hok1 (h <| h_rx := Dropped |>) has chq st p.
Proof. intros E. hok1_move E st. Qed.
Lemma hok1_tx_queued h has chq st p :
  h_tx h = Dropped -> hok1 h has chq st p -> hok1 (h <| h_tx := Queued |>) has (chq ++ [ESenderDropped p]) st p.
Proof. intros E. hok1_move E st. apply no_after_snoc; [assumption|discriminate]. Qed.
Lemma hok1_rx_queued h has chq st p :
  h_rx h = Dropped -> hok1 h has chq st p -> hok1 (h <| h_rx := Queued |>) has (chq ++ [EReceiverDropped p]) st p.
Proof. intros E. hok1_move E st. apply no_after_snoc; [assumption|discriminate]. Qed.
Lemma hok1_rxc_queued h has chq st p :
  h_rx h = Alive -> h_rxc h = Alive -> hok1 h has chq st p -> hok1 (h <| h_rxc := Queued |>) has (chq ++ [EReceiverClosed p]) st p.
Proof. intros E' E. hok1_move E st. apply no_after_snoc; [assumption|]. intros _. now rewrite K1, E'. Qed.
Lemma handle_ok_push hs chq pt ev :
  (forall p, neutral_h p ev) -> handle_ok hs chq pt -> handle_ok hs (chq ++ [ev]) pt.
Proof. intros Hev H p. apply hok1_push; auto. Qed.
Lemma handle_ok_pop hs q pt ev :
  (forall p, neutral_h p ev) -> handle_ok hs (ev :: q) pt -> handle_ok hs q pt.
Proof. intros Hev H p. eapply hok1_pop; eauto. Qed.

Lemma handle_ok_set hs chq pt p h' :
  handle_ok hs chq pt -> hok1 h' true chq (lookup p pt) p -> handle_ok (insert p h' hs) chq pt.
Proof.
  intros H Hp p0. rewrite hget_insert, lookup_insert. destruct (p0 =? p) eqn:E.
  - apply N.eqb_eq in E. subst p0. exact Hp.
  - apply H.
Qed.

Lemma handle_ok_upd hs chq pt p c c' :
  lookup p pt = Some (Connected c) ->
  tx_dropped c' = tx_dropped c -> rx_dropped c' = rx_dropped c -> rx_closed c' = rx_closed c ->
  handle_ok hs chq pt -> handle_ok hs chq (insert p (Connected c') pt).
Proof.
  intros Hl E1 E2 E3 H p0. specialize (H p0). rewrite lookup_insert. destruct (p0 =? p) eqn:E; [|exact H].
  apply N.eqb_eq in E. subst p0. rewrite Hl in H. unfold hok1 in *. rewrite E1, E2, E3. exact H.
Qed.

Lemma handle_ok_gen hs hs' chq chq' pt pt' p :
  handle_ok hs chq pt ->
  (forall p0, p0 <> p -> hget hs' p0 = hget hs p0 /\ lookup p0 hs' = lookup p0 hs /\ lookup p0 pt' = lookup p0 pt) ->
  (forall p0 h has st, p0 <> p -> hok1 h has chq st p0 -> hok1 h has chq' st p0) ->
  hok1 (hget hs' p) (is_some (lookup p hs')) chq' (lookup p pt') p ->
  handle_ok hs' chq' pt'.
Proof.
  intros H H1 H2 Hp p0. destruct (N.eq_dec p0 p) as [->|Hne]; [exact Hp|].
  destruct (H1 p0 Hne) as (E1 & E2 & E3). rewrite E1, E2, E3. apply H2; auto.
Qed.

Lemma handle_ok_remove_nonconn hs chq pt p :
  is_connected (lookup p pt) = false -> handle_ok hs chq pt -> handle_ok hs chq (remove p pt).
Proof.
  intros Hl H p0. specialize (H p0). rewrite lookup_remove. destruct (p0 =? p) eqn:E; [|exact H].
  apply N.eqb_eq in E. subst p0. unfold hok1 in *. destruct (lookup p pt) as [[|]|]; try discriminate; tauto.
Qed.

(** What a handle event at the head of the queue says about its port: the user object is in state [Queued], the port is
    connected with the flag not yet set, and once the flag is set the handle may be marked [Gone]. *)
Lemma sd_head hs q pt p :
  handle_ok hs (ESenderDropped p :: q) pt ->
  exists h c, lookup p hs = Some h /\ h_tx h = Queued /\ lookup p pt = Some (Connected c) /\ tx_dropped c = false /\
    forall c', tx_dropped c' = true -> rx_dropped c' = rx_dropped c -> rx_closed c' = rx_closed c ->
      hok1 (h <| h_tx := Gone |>) true q (Some (Connected c')) p.
Proof.
  intros H. specialize (H p). unfold hok1, hget in H. rewrite !count_cons in H. cbn [is_sd is_rd is_rc] in H.
  rewrite N.eqb_refl in H. destruct H as (K0 & K1 & K2 & [_ K3] & K4 & K5). apply head_counted in K0 as [Kq K0].
  destruct (lookup p hs) as [h|]; [|discriminate]. destruct (h_tx h) eqn:Etx; try discriminate.
  destruct (lookup p pt) as [[|c]|]; try (destruct K5; discriminate). destruct K5 as (_ & T1 & T2 & T3).
  exists h, c. repeat split; auto; cbn [h_tx h_rx h_rxc set RecordSet.set]; congruence.
Qed.

Lemma rd_head hs q pt p :
  handle_ok hs (EReceiverDropped p :: q) pt ->
  exists h c, lookup p hs = Some h /\ h_rx h = Queued /\ lookup p pt = Some (Connected c) /\ rx_dropped c = false /\
    forall c', tx_dropped c' = tx_dropped c -> rx_dropped c' = true -> rx_closed c' = rx_closed c ->
      hok1 (h <| h_rx := Gone |>) true q (Some (Connected c')) p.
Proof.
  intros H. specialize (H p). unfold hok1, hget in H. rewrite !count_cons in H. cbn [is_sd is_rd is_rc no_after] in H.
  rewrite N.eqb_refl in H. destruct H as (K0 & K1 & K2 & [K3 K3'] & K4 & K5). apply head_counted in K1 as [Kq K1].
  specialize (K3 eq_refl). destruct (lookup p hs) as [h|]; [|discriminate]. destruct (h_rx h) eqn:Erx; try discriminate.
  destruct (lookup p pt) as [[|c]|]; try (destruct K5; discriminate). destruct K5 as (_ & T1 & T2 & T3).
  exists h, c. repeat split; auto; cbn [h_tx h_rx h_rxc set RecordSet.set]; try congruence.
  (* no close event is queued behind the drop event, so the close flag is not [Queued] *)
  intros _ Hx. rewrite Hx, K3 in K2. discriminate.
Qed.

Lemma rc_head hs q pt p :
  handle_ok hs (EReceiverClosed p :: q) pt ->
  exists h c, lookup p hs = Some h /\ h_rxc h = Queued /\ lookup p pt = Some (Connected c) /\
    rx_closed c = false /\ rx_dropped c = false /\
    forall c', tx_dropped c' = tx_dropped c -> rx_dropped c' = rx_dropped c -> rx_closed c' = true ->
      hok1 (h <| h_rxc := Gone |>) true q (Some (Connected c')) p.
Proof.
  intros H. specialize (H p). unfold hok1, hget in H. rewrite !count_cons in H. cbn [is_sd is_rd is_rc no_after] in H.
  rewrite N.eqb_refl in H. destruct H as (K0 & K1 & K2 & [_ K3] & K4 & K5). apply head_counted in K2 as [Kq K2].
  destruct (lookup p hs) as [h|]; [|discriminate]. destruct (h_rxc h) eqn:Erc; try discriminate.
  assert (Hrx : is_gone (h_rx h) = false) by (destruct (h_rx h); try reflexivity; exfalso; now apply K4).
  destruct (lookup p pt) as [[|c]|]; try (destruct K5 as [_ K5]; rewrite K5 in Hrx; discriminate).
  destruct K5 as (_ & T1 & T2 & T3).
  exists h, c. repeat split; auto; cbn [h_tx h_rx h_rxc set RecordSet.set]; try congruence.
Qed.

(** * [portq_ok] *)
Lemma pq_ent_None hs k : pq_ent hs k None = []. Proof. reflexivity. Qed.
Lemma pq_ent_other hs p h' k st : k <> p -> pq_ent hs k st = pq_ent (insert p h' hs) k st.
Proof. intros Hk. unfold pq_ent. rewrite hget_insert. apply N.eqb_neq in Hk. now rewrite Hk. Qed.
Lemma portq_reqs_insert hs r p s pt : NoDup (map fst pt) ->
  occ r (portq_reqs hs (insert p s pt)) + occ r (pq_ent hs p (lookup p pt)) = occ r (portq_reqs hs pt) + occ r (pq_ent hs p (Some s)).
Proof. intros Hn. exact (tab_insert (pq_ent hs) r p s pt Hn (pq_ent_None hs)). Qed.
Lemma portq_reqs_remove hs r p pt : NoDup (map fst pt) ->
  occ r (portq_reqs hs (remove p pt)) + occ r (pq_ent hs p (lookup p pt)) = occ r (portq_reqs hs pt).
Proof. intros Hn. exact (tab_remove (pq_ent hs) r p pt Hn (pq_ent_None hs)). Qed.

Lemma portq_ok_insert hs pt reqs p s :
  NoDup (map fst pt) -> pq_ent hs p (Some s) = pq_ent hs p (lookup p pt) ->
  portq_ok hs pt reqs -> portq_ok hs (insert p s pt) reqs.
Proof. intros Hn E H r. specialize (H r). pose proof (portq_reqs_insert hs r p s pt Hn) as T. rewrite E in T. lia. Qed.

Lemma portq_ok_remove hs pt reqs p :
  NoDup (map fst pt) -> pq_ent hs p (lookup p pt) = [] -> portq_ok hs pt reqs -> portq_ok hs (remove p pt) reqs.
Proof.
  intros Hn He H r. specialize (H r).
  pose proof (portq_reqs_remove hs r p pt Hn) as T. rewrite He, occ_nil in T. lia.
Qed.

Lemma portq_ok_remove_req hs pt reqs r :
  is_portq (lookup r reqs) = false -> portq_ok hs pt reqs -> portq_ok hs pt (remove r reqs).
Proof.
  intros Hl H r0. specialize (H r0). rewrite lookup_remove. destruct (r0 =? r) eqn:E; [|exact H].
  apply N.eqb_eq in E. subst r0. rewrite Hl in H. exact H.
Qed.

Lemma portq_ok_same_rx hs p h h' pt reqs :
  lookup p hs = Some h -> is_alive (h_rx h') = is_alive (h_rx h) ->
  portq_ok hs pt reqs -> portq_ok (insert p h' hs) pt reqs.
Proof.
  intros Hl Ha H r. replace (portq_reqs (insert p h' hs) pt) with (portq_reqs hs pt); [apply H|].
  apply tab_ext. intros k v _. unfold pq_ent. rewrite hget_insert.
  destruct (N.eqb_spec k p) as [->|]; [|reflexivity]. now rewrite (hget_some _ _ _ Hl), Ha.
Qed.

Lemma portq_ok_handle_nonconn hs pt reqs p h' :
  NoDup (map fst pt) -> is_connected (lookup p pt) = false ->
  portq_ok hs pt reqs -> portq_ok (insert p h' hs) pt reqs.
Proof.
  intros Hn Hc H r. specialize (H r). unfold portq_reqs in *.
  pose proof (tab_change (pq_ent hs) (pq_ent (insert p h' hs)) r p pt Hn (pq_ent_None _) (pq_ent_None _)) as T.
  assert (forall hs0, pq_ent hs0 p (lookup p pt) = []) as E.
  { intros hs0. unfold pq_ent. destruct (lookup p pt) as [[|]|]; try reflexivity. discriminate. }
  rewrite !E, occ_nil in T. rewrite !N.add_0_r in T. rewrite <- T; [exact H|apply pq_ent_other].
Qed.

(** * [buf_ok] *)
Lemma buf_ok_upd buf pt p c' :
  buf_ok buf pt ->
  (used c' <= buf /\ count (fun x => fst x =? 0) (rxq c') <= b2n (negb (rx_open c')) /\ all4 c' = false) ->
  buf_ok buf (insert p (Connected c') pt).
Proof.
  intros H Hc p0 c0. rewrite lookup_insert. destruct (p0 =? p); [|apply H]. intros [= <-]. exact Hc.
Qed.

Lemma buf_ok_remove buf pt p : buf_ok buf pt -> buf_ok buf (remove p pt).
Proof. intros H p0 c. rewrite lookup_remove. destruct (p0 =? p); [discriminate|apply H]. Qed.

(** * [tab_ok], [core_ok] *)
Definition tab_ok (hs : list (N * handle)) (chq : list evt) (reqs : list (N * rlife)) (buf : N) (pt : list (N * pstate)) : Prop :=
  handle_ok hs chq pt /\ portq_ok hs pt reqs /\ buf_ok buf pt /\ NoDup (map fst pt).

Lemma tab_ok_insert_connecting hs chq reqs buf pt p req :
  lookup p pt = None -> tab_ok hs chq reqs buf pt -> tab_ok hs chq reqs buf (insert p (Connecting req) pt).
Proof.
  intros Hl (H1 & H2 & H3 & H4). split; [|split; [|split]].
  - intros p0. specialize (H1 p0). rewrite lookup_insert. destruct (N.eqb_spec p0 p) as [->|]; [now rewrite Hl in H1|exact H1].
  - apply portq_ok_insert; [exact H4|now rewrite Hl|exact H2].
  - intros p0 c. rewrite lookup_insert. destruct (p0 =? p); [discriminate|apply H3].
  - now apply NoDup_keys_insert.
Qed.

Lemma tab_ok_reqs hs chq reqs reqs' buf pt :
  (portq_ok hs pt reqs -> portq_ok hs pt reqs') -> tab_ok hs chq reqs buf pt -> tab_ok hs chq reqs' buf pt.
Proof. intros Hr (H1 & H2 & H3 & H4). split; [|split; [|split]]; auto. Qed.
Definition fresh_handle : handle := {| h_tx := Alive; h_rx := Alive; h_rxc := Alive |}.

Lemma tab_newport hs chq reqs buf pt p m rp :
  tab_ok hs chq reqs buf pt -> is_connected (lookup p pt) = false ->
  tab_ok (insert p fresh_handle hs) chq reqs buf (insert p (Connected (new_conn m rp)) pt).
Proof.
  intros (H1 & H2 & H3 & H4) Hc. split; [|split; [|split]].
  - apply (handle_ok_gen hs _ chq chq pt _ p H1).
    + intros p0 Hne. apply N.eqb_neq in Hne. rewrite hget_insert, !lookup_insert, Hne. auto.
    + auto.
    + rewrite hget_insert, !lookup_insert, N.eqb_refl. specialize (H1 p). unfold hok1 in *.
      destruct H1 as (K0 & K1 & K2 & K3 & K4 & K5).
      assert (h_tx (hget hs p) = Gone /\ h_rx (hget hs p) = Gone) as [G1 G2].
      { destruct (lookup p pt) as [[|]|]; try exact K5. discriminate. }
      rewrite G1, G2 in *. specialize (K4 eq_refl).
      cbn [fresh_handle h_tx h_rx h_rxc is_queued is_gone b2n new_conn tx_dropped rx_dropped rx_closed is_some] in *.
      repeat split; auto; try discriminate.
      destruct (h_rxc (hget hs p)); cbn [is_queued b2n] in K2; try exact K2. congruence.
  - apply portq_ok_insert; [exact H4| |now apply portq_ok_handle_nonconn].
    transitivity (@nil N); [|symmetry]; unfold pq_ent.
    + cbn [new_conn rxq flat_map]. now destruct (is_alive _).
    + destruct (lookup p pt) as [[|]|]; try reflexivity. discriminate.
  - apply buf_ok_upd; [exact H3|]. unfold used, all4. cbn [new_conn rxq map sum count tx_dropped rx_open andb negb b2n].
    repeat split; lia.
  - now apply NoDup_keys_insert.
Qed.

(** the clauses of [Inv] that read the port table, bundled for the lemmas about table updates; [G] is the
    guard of [inv_conn] ("not both Goodbyes"), abstract because these updates leave it as it is *)
Definition core_ok (G : Prop) (al : list N) (cq chq : list evt) (hs : list (N * handle)) (reqs : list (N * rlife))
    (cs : list (N * cstate)) (pt : list (N * pstate)) : Prop :=
  num_ok al cq chq pt /\ handle_ok hs chq pt /\ portq_ok hs pt reqs /\ NoDup (map fst pt) /\ (G -> conn_ok cs cq chq pt).

Lemma core_upd G al cq chq hs reqs cs pt p c c' :
  core_ok G al cq chq hs reqs cs pt -> lookup p pt = Some (Connected c) ->
  tx_dropped c' = tx_dropped c -> rx_dropped c' = rx_dropped c -> rx_closed c' = rx_closed c ->
  flat_map snd (rxq c') = flat_map snd (rxq c) ->
  core_ok G al cq chq hs reqs cs (insert p (Connected c') pt).
Proof.
  intros (H1 & H2 & H3 & H4 & H5) Hl E1 E2 E3 E4. split; [|split; [|split; [|split]]].
  - eapply num_ok_upd; eauto.
  - eapply handle_ok_upd; eauto.
  - apply portq_ok_insert; [exact H4| |exact H3]. rewrite Hl. unfold pq_ent. now rewrite E4.
  - now apply NoDup_keys_insert.
  - intros HG. apply conn_ok_insert; [exact H4|now rewrite Hl|auto].
Qed.

Lemma core_free G al cq chq hs reqs cs pt p c :
  core_ok G al cq chq hs reqs cs pt -> lookup p pt = Some (Connected c) -> all4 c = true ->
  core_ok G (del p al) cq chq hs reqs cs (remove p pt).
Proof.
  intros (H1 & H2 & H3 & H4 & H5) Hl Ha.
  assert (h_tx (hget hs p) = Gone /\ h_rx (hget hs p) = Gone) as [G1 G2].
  { specialize (H2 p). unfold hok1 in H2. rewrite Hl in H2. destruct H2 as (_ & _ & _ & _ & _ & _ & T1 & T2 & _).
    unfold all4 in Ha. apply andb_true_iff in Ha as [Ha _]. apply andb_true_iff in Ha as [Ha _].
    apply andb_true_iff in Ha as [Ha Hb]. rewrite Ha in T1. rewrite Hb in T2. split.
    - destruct (h_tx (hget hs p)); try discriminate; reflexivity.
    - destruct (h_rx (hget hs p)); try discriminate; reflexivity. }
  split; [|split; [|split; [|split]]].
  - apply num_ok_remove; [congruence|exact H1].
  - apply (handle_ok_gen hs hs chq chq pt _ p H2).
    + intros p0 Hne. apply N.eqb_neq in Hne. now rewrite lookup_remove, Hne.
    + auto.
    + rewrite lookup_remove, N.eqb_refl. specialize (H2 p). unfold hok1 in *. tauto.
  - apply portq_ok_remove; [exact H4| |exact H3]. rewrite Hl. unfold pq_ent. rewrite G2. reflexivity.
  - now apply NoDup_keys_remove.
  - intros HG r. pose proof (port_reqs_remove r p pt H4) as T. rewrite Hl in T. specialize (H5 HG r). cbn [st_reqs] in T. rewrite occ_nil in T. lia.
Qed.

(** The dispatcher takes a handle event [ev] of port [p] from the queue, marks the handle and rewrites the entry:
    all components follow from the one-handle fact [hok1 .. p] for the new handle and entry. *)
Lemma core_hset G al cq ev q hs reqs cs pt p h h' c c' :
  core_ok G al cq (ev :: q) hs reqs cs pt ->
  ev_nums ev = [] -> ev_reqs ev = [] -> (forall p0, p0 <> p -> neutral_h p0 ev) ->
  lookup p hs = Some h -> lookup p pt = Some (Connected c) ->
  is_alive (h_rx h') = is_alive (h_rx h) -> flat_map snd (rxq c') = flat_map snd (rxq c) ->
  hok1 h' true q (Some (Connected c')) p ->
  core_ok G al cq q (insert p h' hs) reqs cs (insert p (Connected c') pt).
Proof.
  intros (H1 & H2 & H3 & H4 & H5) En Er Hne Hh Hl Ea Eq Hp. split; [|split; [|split; [|split]]].
  - eapply num_ok_upd; [exact Hl|]. eapply num_ok_pop_chq; eauto.
  - apply (handle_ok_gen hs _ (ev :: q) q pt _ p H2).
    + intros p0 Hp0. apply N.eqb_neq in Hp0. now rewrite hget_insert, !lookup_insert, Hp0.
    + intros p0 h0 has st Hp0. apply hok1_pop. now apply Hne.
    + now rewrite hget_insert, !lookup_insert, N.eqb_refl.
  - apply portq_ok_insert; [exact H4| |eapply portq_ok_same_rx; eauto]. rewrite Hl. unfold pq_ent. now rewrite Eq.
  - now apply NoDup_keys_insert.
  - intros HG. apply conn_ok_insert; [exact H4|now rewrite Hl|]. eapply conn_ok_pop_chq; eauto.
Qed.

(** * loop handlers *)
Lemma upd_free_all4 m p c' pre :
  upd_free m p c' pre =
  if all4 c' then Done (m <| ports := remove p (insert p (Connected c') (ports m)) |>) (pre ++ [DropNumber p])
  else Done (m <| ports := insert p (Connected c') (ports m) |>) pre.
Proof. reflexivity. Qed.

(** [SendPorts]: the loop that enters the ports as [Connecting] *)
Definition ins_ports : list (N * N * N) -> list (N * pstate) -> option (list (N * pstate)) :=
  fix ins (l : list (N * N * N)) (pt : list (N * pstate)) : option (list (N * pstate)) :=
    match l with
    | [] => Some pt
    | (p, _, req) :: r =>
        match lookup p pt with
        | Some _ => None
        | None => ins r (insert p (Connecting req) pt)
        end
    end.

Lemma ins_ports_eq m rp f l w ps :
  handle_event m (ESendPorts rp f l w ps) =
  match ins_ports ps (ports m) with
  | None => Panic SiteSendPortsUsed
  | Some pt => Done (m <| ports := pt |>)
                 [Emit (PortData rp f l w (map (fun x => fst (fst x)) ps)
                          (if with_ids m then Some (map (fun x => snd (fst x)) ps) else None)) None]
  end.
Proof. reflexivity. Qed.

Lemma ins_ports_ok al cs hs chq reqs buf pend rpend : forall ps pt,
  num_ok' al (map (fun x => fst (fst x)) ps ++ pend) pt ->
  conn_ok' cs (map (fun x => snd x) ps ++ rpend) pt ->
  tab_ok hs chq reqs buf pt ->
  exists pt', ins_ports ps pt = Some pt' /\ num_ok' al pend pt' /\ conn_ok' cs rpend pt' /\ tab_ok hs chq reqs buf pt'.
Proof.
  induction ps as [|[[p id] req] ps IH]; intros pt Hn Hc Ht; cbn [ins_ports map app fst snd] in *.
  - exists pt. auto.
  - destruct (num_step al (p :: map (fun x => fst (fst x)) ps ++ pend) (map (fun x => fst (fst x)) ps ++ pend) pt p (Connecting req)) as [Hl Hn']; [|exact Hn|].
    { intros x. now rewrite occ_cons. }
    rewrite Hl. apply IH.
    + exact Hn'.
    + eapply conn_step; [apply Ht|exact Hl| |exact Hc]. intros x. now rewrite occ_cons.
    + now apply tab_ok_insert_connecting.
Qed.

Lemma ins_ports_spec : forall ps pt pt', ins_ports ps pt = Some pt' ->
  let nums := map (fun x => fst (fst x)) ps in
  (forall k, mem k nums = false -> lookup k pt' = lookup k pt) /\
  (forall k, mem k nums = true -> lookup k pt = None /\ exists r, lookup k pt' = Some (Connecting r)) /\
  (forall k, occ k nums = b2n (mem k nums)).
Proof.
  induction ps as [|[[p id] req] ps IH]; intros pt pt' H; cbn [ins_ports map fst] in *.
  - injection H as <-. cbn zeta. split; [auto|split; [intros k Hk; discriminate|intros k; reflexivity]].
  - destruct (lookup p pt) eqn:Ep; [discriminate|]. destruct (IH _ _ H) as (I1 & I2 & I3). cbn zeta in *.
    set (nums := map (fun x => fst (fst x)) ps) in *.
    assert (Hp : mem p nums = false).
    { destruct (mem p nums) eqn:E; [|reflexivity]. destruct (I2 _ E) as [A _]. rewrite lookup_insert, N.eqb_refl in A. discriminate. }
    split; [|split].
    + intros k Hk. cbn [mem] in Hk. apply orb_false_iff in Hk as [K1 K2]. rewrite (I1 _ K2), lookup_insert, K1. reflexivity.
    + intros k Hk. cbn [mem] in Hk. destruct (k =? p) eqn:E.
      * apply N.eqb_eq in E. subst k. split; [exact Ep|]. rewrite (I1 _ Hp), lookup_insert, N.eqb_refl. eauto.
      * cbn [orb] in Hk. destruct (I2 _ Hk) as [A B]. rewrite lookup_insert, E in A. auto.
    + intros k. rewrite occ_cons, I3. cbn [mem]. rewrite (N.eqb_sym p k). destruct (k =? p) eqn:E; cbn [orb b2n]; [|lia].
      apply N.eqb_eq in E. subst k. rewrite Hp. reflexivity.
Qed.

(** [PortData]: the loop that registers the received ports as outstanding *)
Definition ins_out : list N -> list N -> option (list N) :=
  fix ins (l : list N) (o : list N) : option (list N) :=
    match l with
    | [] => Some o
    | p :: r => if mem p o then None else ins r (p :: o)
    end.

Lemma ins_out_spec : forall ps o o', ins_out ps o = Some o' ->
  forall r, mem r o' = mem r ps || mem r o /\ (mem r ps = true -> mem r o = false) /\ occ r ps = b2n (mem r ps).
Proof.
  induction ps as [|x ps IH]; intros o o' H r; cbn [ins_out mem] in *.
  - injection H as <-. repeat split; auto. discriminate.
  - destruct (mem x o) eqn:Ex; [discriminate|]. destruct (IH _ _ H r) as (I1 & I2 & I3). cbn [mem] in I1, I2.
    rewrite occ_cons, (N.eqb_sym x r). destruct (r =? x) eqn:E; cbn [orb b2n] in *.
    + apply N.eqb_eq in E. subst x. repeat split; auto.
      * rewrite I1. now rewrite orb_true_r.
      * destruct (mem r ps) eqn:Em; [specialize (I2 eq_refl); discriminate|]. cbn [b2n] in I3. lia.
    + repeat split; auto.
Qed.

Lemma ins_out_total : forall ps o,
  (forall k, mem k ps = true -> occ k ps = 1 /\ mem k o = false) -> exists o', ins_out ps o = Some o'.
Proof.
  induction ps as [|p ps IH]; intros o H; cbn [ins_out]; [eauto|].
  destruct (H p) as [H1 H2]; [cbn [mem]; now rewrite N.eqb_refl|]. rewrite H2. apply IH. intros k Hk.
  destruct (H k) as [K1 K2]; [cbn [mem]; rewrite Hk; apply orb_true_r|]. rewrite occ_cons in K1, H1. rewrite N.eqb_refl in H1. cbn [b2n] in H1.
  split.
  - destruct (p =? k) eqn:E; cbn [b2n] in K1; [|lia]. apply N.eqb_eq in E. subst k. apply occ_pos_mem in Hk. lia.
  - cbn [mem]. rewrite K2, orb_false_r. apply N.eqb_neq. intros ->. apply occ_pos_mem in Hk. lia.
Qed.

Definition is_nil {A} (l : list A) : bool := match l with [] => true | _ => false end.

Lemma hr_PortData m p f l w ps ids n :
  handle_received m (PortData p f l w ps ids) n =
  match lookup p (ports m) with
  | Some (Connected c) =>
      if rx_open c then
        if is_nil ps then Proto PEmptyPorts []
        else match ins_out ps (outstanding m) with
             | None => Proto PPortTwice []
             | Some o =>
                 let size := PORT_COST * len ps in
                 if (size <? 4294967296) && (size <=? cfg_chunk m) then
                   if (used c + size <? 4294967296) && (used c + size <=? cfg_buffer m) then
                     Done (m <| outstanding := o |>
                             <| ports := insert p (Connected (c <| rxq := rxq c ++ [(size, ps)] |>)) (ports m) |>)
                          [PortRequests p ps]
                   else Proto POverdraw []
                 else Proto PPortChunk []
             end
      else Proto PPortDataNotConnected []
  | _ => Proto PPortDataNotConnected []
  end.
Proof.
  cbn [handle_received]. destruct (lookup p (ports m)) as [[|c]|]; try reflexivity.
  destruct (rx_open c); [|reflexivity]. destruct ps; reflexivity.
Qed.
