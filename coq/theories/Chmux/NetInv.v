(** The invariant of the composed system ([Net.v]): how the port tables of the two endpoints, their
    outstanding remote requests, their pending events and the frames in flight are related.

    For a direction X -> Y (link [L]; the opposite link is [L']) and a port number [y] of Y:
    - [y] free at Y: nothing addressed to [y] is in flight, X does not hold a request from [y];
    - [y] [Connecting]: its request is in exactly one place -- in flight to X, outstanding at X, or
      answered by a [PortOpened]/[Rejected] in flight to Y; frames addressed to [y] follow the
      [PortOpened];
    - [y] [Connected] with remote [x]: the finish/close frames in flight plus what Y has already
      recorded equal what X's end of the connection has announced ([rcl]); X's end is its table entry
      [x] if that is connected to [y] ([PLive]), still waiting for our [PortOpened] ([PPend]), or
      released ([PGone]) -- then Y's halves are finished too and whatever reintroduces [x] on the
      link comes after the last frames for [y].
    Plus: remote numbers are injective over the connected ports of one endpoint, a connected port's
    remote is not an outstanding request, and queued send/credit events have a live sending port. *)
From Remoc Require Import Lib.Base Chmux.Wire Chmux.Mux Chmux.Endpoint Chmux.EndpointLemmas Chmux.EndpointInv
  Chmux.Net.

Definition cnt (f : msg -> bool) (l : list frame) : N := count (fun fr => f (fst fr)) l.
Lemma cnt_nil f : cnt f [] = 0. Proof. reflexivity. Qed.
Lemma cnt_cons f fr l : cnt f (fr :: l) = b2n (f (fst fr)) + cnt f l. Proof. reflexivity. Qed.
Lemma cnt_app f l1 l2 : cnt f (l1 ++ l2) = cnt f l1 + cnt f l2. Proof. apply count_app. Qed.
Lemma cnt_snoc f l fr : cnt f (l ++ [fr]) = cnt f l + b2n (f (fst fr)).
Proof. unfold cnt. now rewrite count_snoc. Qed.
Lemma cnt_le (f g : msg -> bool) l : (forall m, f m = true -> g m = true) -> cnt f l <= cnt g l.
Proof.
  intros H. induction l as [|fr l IH]; [rewrite !cnt_nil; lia|]. rewrite !cnt_cons.
  destruct (f (fst fr)) eqn:E; [rewrite (H _ E)|]; cbn [b2n]; [lia|]. destruct (g (fst fr)); cbn [b2n]; lia.
Qed.
Lemma cnt_pos_In f l : 0 < cnt f l -> exists fr, In fr l /\ f (fst fr) = true.
Proof.
  induction l as [|fr l IH]; [rewrite cnt_nil; lia|]. rewrite cnt_cons. destruct (f (fst fr)) eqn:E.
  - intros _. exists fr. split; [now left|exact E].
  - cbn [b2n]. intros H. destruct IH as (fr' & H1 & H2); [lia|]. exists fr'. split; [now right|exact H2].
Qed.
Lemma In_cnt_pos f l fr : In fr l -> f (fst fr) = true -> 0 < cnt f l.
Proof.
  induction l as [|a l IH]; [contradiction|]. intros [->|H] Hf; rewrite cnt_cons.
  - rewrite Hf. cbn [b2n]. lia.
  - specialize (IH H Hf). lia.
Qed.

(** no [g]-frame behind an [f]-frame *)
Definition nafter (f g : msg -> bool) (l : list frame) : Prop :=
  no_after (fun fr => f (fst fr)) (fun fr => g (fst fr)) l.
Lemma nafter_nil f g : nafter f g []. Proof. exact I. Qed.
Lemma nafter_cons f g fr l : nafter f g (fr :: l) <-> (f (fst fr) = true -> cnt g l = 0) /\ nafter f g l.
Proof. reflexivity. Qed.
Lemma nafter_tail f g fr l : nafter f g (fr :: l) -> nafter f g l.
Proof. apply no_after_tail. Qed.
Lemma nafter_head f g fr l : nafter f g (fr :: l) -> f (fst fr) = true -> cnt g l = 0.
Proof. intros H. apply H. Qed.
Lemma nafter_snoc f g l fr : nafter f g l -> (g (fst fr) = true -> cnt f l = 0) -> nafter f g (l ++ [fr]).
Proof. intros H1 H2. apply no_after_snoc; assumption. Qed.
Lemma nafter_snoc_other f g l fr : nafter f g l -> g (fst fr) = false -> nafter f g (l ++ [fr]).
Proof. intros H1 H2. apply nafter_snoc; [exact H1|]. rewrite H2. discriminate. Qed.
Lemma nafter_g0 f g l : cnt g l = 0 -> nafter f g l.
Proof. apply no_after_g0. Qed.
Lemma nafter_ext f f' g g' l :
  (forall m, f' m = true -> f m = true) -> (forall m, g' m = true -> g m = true) -> nafter f g l -> nafter f' g' l.
Proof.
  intros Hf Hg. induction l as [|fr l IH]; [auto|]. rewrite !nafter_cons. intros [H1 H2]. split; [|auto].
  intros E. specialize (H1 (Hf _ E)). pose proof (cnt_le g' g l Hg). lia.
Qed.

(** * Classification of messages by the (receiver-local) port they address *)
Definition m_po (y : N) (m : msg) : bool := match m with PortOpened c _ => c =? y | _ => false end.
Definition m_pox (y x : N) (m : msg) : bool := match m with PortOpened c s => (c =? y) && (s =? x) | _ => false end.
Definition m_rj (y : N) (m : msg) : bool := match m with Rejected c _ => c =? y | _ => false end.
Definition m_data (y : N) (m : msg) : bool :=
  match m with Data p _ _ => p =? y | PortData p _ _ _ _ _ => p =? y | _ => false end.
Definition m_cred (y : N) (m : msg) : bool := match m with PortCredits p _ => p =? y | _ => false end.
Definition m_sf (y : N) (m : msg) : bool := match m with SendFinish p => p =? y | _ => false end.
Definition m_rc (y : N) (m : msg) : bool := match m with ReceiveClose p => p =? y | _ => false end.
Definition m_rf (y : N) (m : msg) : bool := match m with ReceiveFinish p => p =? y | _ => false end.
Definition m_credrc (y : N) (m : msg) : bool := m_cred y m || m_rc y m.
Definition m_fin (y : N) (m : msg) : bool := m_sf y m || m_rf y m.
Definition m_other (y : N) (m : msg) : bool := m_data y m || m_credrc y m || m_fin y m.
Definition m_addr (y : N) (m : msg) : bool := m_po y m || m_rj y m || m_other y m.
(** messages never emitted after the handshake *)
Definition m_bad (m : msg) : bool := match m with Reset | Hello _ _ => true | _ => false end.

Lemma cnt_orb (f g : msg -> bool) l : (forall m, f m && g m = false) -> cnt (fun m => f m || g m) l = cnt f l + cnt g l.
Proof.
  intros H. induction l as [|fr l IH]; [reflexivity|]. rewrite !cnt_cons, IH. specialize (H (fst fr)).
  destruct (f (fst fr)), (g (fst fr)); try discriminate; cbn [orb b2n]; lia.
Qed.
Lemma cnt_credrc_split y l : cnt (m_credrc y) l = cnt (m_cred y) l + cnt (m_rc y) l.
Proof. apply cnt_orb. intros m. destruct m; cbn; rewrite ?andb_false_r; reflexivity. Qed.
Lemma cnt_fin_split y l : cnt (m_fin y) l = cnt (m_sf y) l + cnt (m_rf y) l.
Proof. apply cnt_orb. intros m. destruct m; cbn; rewrite ?andb_false_r; reflexivity. Qed.
Lemma cnt_other_split y l : cnt (m_other y) l = cnt (m_data y) l + cnt (m_credrc y) l + cnt (m_fin y) l.
Proof.
  unfold m_other. rewrite cnt_orb, cnt_orb; [reflexivity| |]; intros m; destruct m; cbn; rewrite ?andb_false_r; reflexivity.
Qed.
Lemma cnt_addr_split y l : cnt (m_addr y) l = cnt (m_po y) l + cnt (m_rj y) l + cnt (m_other y) l.
Proof.
  unfold m_addr. rewrite cnt_orb, cnt_orb; [reflexivity| |]; intros m; destruct m; cbn; rewrite ?andb_false_r; reflexivity.
Qed.

Definition m_target (m : msg) : option N :=
  match m with
  | PortOpened p _ | Rejected p _ | Data p _ _ | PortData p _ _ _ _ _ | PortCredits p _ | SendFinish p | ReceiveClose p
  | ReceiveFinish p => Some p
  | _ => None
  end.
Lemma m_addr_target y m : m_addr y m = match m_target m with Some p => p =? y | None => false end.
Proof. unfold m_addr, m_other, m_credrc, m_fin. destruct m; cbn; rewrite ?orb_false_r; reflexivity. Qed.
Lemma m_addr_other y y0 m : m_target m = Some y -> y0 <> y -> m_addr y0 m = false.
Proof. intros H Hn. rewrite m_addr_target, H. apply N.eqb_neq. congruence. Qed.
Lemma m_addr_none y m : m_target m = None -> m_addr y m = false.
Proof. intros H. now rewrite m_addr_target, H. Qed.

(** requests for the sender-local port [x] carried by a message *)
Definition m_reqn (x : N) (m : msg) : N :=
  match m with OpenPort c _ _ => b2n (c =? x) | PortData _ _ _ _ ps _ => occ x ps | _ => 0 end.
Definition reqcount (x : N) (l : list frame) : N := sum (map (fun fr => m_reqn x (fst fr)) l).
Lemma reqcount_nil x : reqcount x [] = 0. Proof. reflexivity. Qed.
Lemma reqcount_cons x fr l : reqcount x (fr :: l) = m_reqn x (fst fr) + reqcount x l. Proof. reflexivity. Qed.
Lemma reqcount_snoc x l fr : reqcount x (l ++ [fr]) = reqcount x l + m_reqn x (fst fr).
Proof. unfold reqcount. rewrite map_app, sum_app. cbn [map sum]. now rewrite N.add_0_r. Qed.

(** messages that bring the sender-local number [x] (back) into play *)
Definition m_srv (x : N) (m : msg) : bool := match m with PortOpened _ s => s =? x | _ => false end.
Definition m_intro (x : N) (m : msg) : bool := (0 <? m_reqn x m) || m_srv x m.

Lemma reqcount_intro x l : reqcount x l = 0 -> cnt (m_srv x) l = 0 -> cnt (m_intro x) l = 0.
Proof.
  induction l as [|fr l IH]; [reflexivity|]. rewrite reqcount_cons, !cnt_cons. intros H1 H2.
  unfold m_intro at 1. destruct (m_srv x (fst fr)); cbn [b2n] in H2; [lia|].
  assert (m_reqn x (fst fr) = 0) as -> by lia. rewrite N.ltb_irrefl. cbn [orb b2n].
  rewrite IH; lia.
Qed.
Lemma cnt_srv_pox x l : 0 < cnt (m_srv x) l -> exists y, 0 < cnt (m_pox y x) l.
Proof.
  intros H. apply cnt_pos_In in H as (fr & Hin & Hf). destruct fr as [m pl]. cbn [fst] in Hf.
  destruct m; try discriminate. cbn [m_srv] in Hf. exists client_port.
  eapply In_cnt_pos; [exact Hin|]. cbn [fst m_pox]. now rewrite N.eqb_refl, Hf.
Qed.
Lemma cnt_pox_le_po y x l : cnt (m_pox y x) l <= cnt (m_po y) l.
Proof. apply cnt_le. intros m. destruct m; cbn [m_pox m_po]; try discriminate. intros H. apply andb_true_iff in H. tauto. Qed.

(** * One end of a connection as seen from the other side *)
Inductive pst := PGone | PPend | PLive (c : conn).

(** X's end of the connection between its port [x] and the peer's port [y]; [Lin] is the link towards X *)
Definition pstat (PX : list (N * pstate)) (Lin : list frame) (x y : N) : pst :=
  match lookup x PX with
  | Some (Connected c) => if remote c =? y then PLive c else PGone
  | Some (Connecting _) => if 0 <? cnt (m_pox x y) Lin then PPend else PGone
  | None => PGone
  end.
Definition txf (s : pst) : bool := match s with PGone => true | PPend => false | PLive c => tx_dropped c end.
Definition rxf (s : pst) : bool := match s with PGone => true | PPend => false | PLive c => rx_dropped c end.
Definition rxcf (s : pst) : bool := match s with PGone => true | PPend => false | PLive c => rx_closed c || rx_dropped c end.

(** What Y's entry [c] for port [y] has recorded, plus what is in flight on [L], accounts for what the
    other end [s] has announced.  Sender finish and receiver finish: exactly ([r_sf], [r_rf]).  Receiver close:
    at most ([r_rc]), because a receiver that is dropped without having been closed counts as closed ([rxcf]) but says
    so by its [ReceiveFinish] alone; [r_dc] is Y's side of this.  No data after [SendFinish], no credits or close
    after [ReceiveFinish] ([r_sfdata], [r_rfcred]), and none at all once Y has recorded the finish ([r_data], [r_cred]).
    [r_gone]: the other end has released its port only after both of Y's halves were dropped and announced.
    [r_pend]: while the other end has not yet learnt that it is connected, it has sent nothing for the port. *)
Record rcl (c : conn) (s : pst) (y : N) (L : list frame) : Prop := mk_rcl {
  r_sf : cnt (m_sf y) L + b2n (negb (rx_open c)) = b2n (txf s);
  r_rf : cnt (m_rf y) L + b2n (rrx_dropped c) = b2n (rxf s);
  r_rc : cnt (m_rc y) L + b2n (rrx_closed c) <= b2n (rxcf s);
  r_sfdata : nafter (m_sf y) (m_data y) L;
  r_data : rx_open c = false -> cnt (m_data y) L = 0;
  r_rfcred : nafter (m_rf y) (m_credrc y) L;
  r_cred : rrx_dropped c = true -> cnt (m_credrc y) L = 0;
  r_gone : s = PGone -> tx_dropped c = true /\ rx_dropped c = true;
  r_pend : s = PPend -> cnt (m_other y) L = 0;
  r_dc : rrx_dropped c = true -> rrx_closed c = true
}.

(** the entry Y will create when it receives [PortOpened]: nothing recorded yet (the remote number is not read by [rcl]) *)
Definition fresh_conn : conn :=
  {| remote := 0; pool := 0; pool_closed := None; rx_open := true; rxq := []; rx_closed := false; rx_dropped := false;
     tx_dropped := false; rrx_closed := false; rrx_dropped := false |}.

(** [rcl] looks at the flags only *)
Definition flags_eq (c c' : conn) : Prop :=
  rx_open c' = rx_open c /\ rrx_dropped c' = rrx_dropped c /\ rrx_closed c' = rrx_closed c /\
  tx_dropped c' = tx_dropped c /\ rx_dropped c' = rx_dropped c /\ rx_closed c' = rx_closed c.
Lemma rcl_flags c c' s y L : flags_eq c c' -> rcl c s y L -> rcl c' s y L.
Proof.
  intros (E1 & E2 & E3 & E4 & E5 & E6) [H1 H2 H3 H4 H5 H6 H7 H8 H9 H10].
  constructor; rewrite ?E1, ?E2, ?E3, ?E4, ?E5; auto.
Qed.

(** * Pending events *)
Definition ev_sends (y : N) (ev : evt) : bool :=
  match ev with ESendData r _ _ _ => r =? y | ESendPorts r _ _ _ _ => r =? y | _ => false end.
Definition ev_creds (y : N) (ev : evt) : bool := match ev with EReturnCredits r _ => r =? y | _ => false end.

(** * The invariant for one direction X -> Y *)
Section Dir.
  Variables (PX PY : list (N * pstate)) (OX : list N) (L L' : list frame).

  Definition rx_clause (y : N) : Prop :=
    match lookup y PY with
    | None => cnt (m_addr y) L = 0 /\ mem y OX = false /\ reqcount y L' = 0
    | Some (Connecting _) =>
        reqcount y L' + b2n (mem y OX) + cnt (m_po y) L + cnt (m_rj y) L = 1 /\
        nafter (m_other y) (m_po y) L /\
        (cnt (m_po y) L = 0 -> cnt (m_other y) L = 0) /\
        (forall x, 0 < cnt (m_pox y x) L -> exists cX, pstat PX L' x y = PLive cX /\ rcl fresh_conn (PLive cX) y L)
    | Some (Connected c) =>
        cnt (m_po y) L = 0 /\ cnt (m_rj y) L = 0 /\ mem y OX = false /\ reqcount y L' = 0 /\
        rcl c (pstat PX L' (remote c) y) y L /\
        (pstat PX L' (remote c) y = PGone -> nafter (m_intro (remote c)) (m_fin y) L)
    end.
End Dir.

Lemma rx_none PX PY OX L L' y : rx_clause PX PY OX L L' y -> lookup y PY = None ->
  cnt (m_addr y) L = 0 /\ mem y OX = false /\ reqcount y L' = 0.
Proof. unfold rx_clause. intros H Hl. now rewrite Hl in H. Qed.
Lemma rx_connecting PX PY OX L L' y r : rx_clause PX PY OX L L' y -> lookup y PY = Some (Connecting r) ->
  reqcount y L' + b2n (mem y OX) + cnt (m_po y) L + cnt (m_rj y) L = 1 /\
  nafter (m_other y) (m_po y) L /\
  (cnt (m_po y) L = 0 -> cnt (m_other y) L = 0) /\
  (forall x, 0 < cnt (m_pox y x) L -> exists cX, pstat PX L' x y = PLive cX /\ rcl fresh_conn (PLive cX) y L).
Proof. unfold rx_clause. intros H Hl. now rewrite Hl in H. Qed.
Lemma rx_connected PX PY OX L L' y c : rx_clause PX PY OX L L' y -> lookup y PY = Some (Connected c) ->
  cnt (m_po y) L = 0 /\ cnt (m_rj y) L = 0 /\ mem y OX = false /\ reqcount y L' = 0 /\
  rcl c (pstat PX L' (remote c) y) y L /\
  (pstat PX L' (remote c) y = PGone -> nafter (m_intro (remote c)) (m_fin y) L).
Proof. unfold rx_clause. intros H Hl. now rewrite Hl in H. Qed.

(** remote numbers are injective over connected ports, and not outstanding *)
Definition inj_ok (P : list (N * pstate)) : Prop :=
  forall p1 p2 c1 c2, lookup p1 P = Some (Connected c1) -> lookup p2 P = Some (Connected c2) ->
    remote c1 = remote c2 -> p1 = p2.
Definition out_ok (P : list (N * pstate)) (O : list N) : Prop :=
  forall p c, lookup p P = Some (Connected c) -> mem (remote c) O = false.

(** queued send / credit events have a live sending port and precede its drop notification *)
Record chq_ok (P : list (N * pstate)) (q : list evt) : Prop := mk_chq_ok {
  ch_send : forall y, 0 < count (ev_sends y) q ->
            exists x c, lookup x P = Some (Connected c) /\ remote c = y /\ tx_dropped c = false;
  ch_cred : forall y, 0 < count (ev_creds y) q ->
            exists x c, lookup x P = Some (Connected c) /\ remote c = y /\ rx_dropped c = false;
  ch_ord : forall x c, lookup x P = Some (Connected c) ->
           no_after (is_sd x) (ev_sends (remote c)) q /\ no_after (is_rd x) (ev_creds (remote c)) q
}.

(** the relation between the two tables, request sets, event queues and links (X sends on [L]) *)
Record Core (PX PY : list (N * pstate)) (OX OY : list N) (QX QY : list evt) (L L' : list frame) : Prop := mk_Core {
  c_xy : forall y, rx_clause PX PY OX L L' y;
  c_yx : forall x, rx_clause PY PX OY L' L x;
  c_injx : inj_ok PX;
  c_injy : inj_ok PY;
  c_outx : out_ok PX OX;
  c_outy : out_ok PY OY;
  c_chx : chq_ok PX QX;
  c_chy : chq_ok PY QY;
  c_badx : cnt m_bad L = 0;
  c_bady : cnt m_bad L' = 0
}.

Lemma Core_sym PX PY OX OY QX QY L L' : Core PX PY OX OY QX QY L L' -> Core PY PX OY OX QY QX L' L.
Proof. intros [H1 H2 H3 H4 H5 H6 H7 H8 H9 H10]. constructor; assumption. Qed.

Definition Sys (X Y : ep) (L L' : list frame) : Prop :=
  WF X /\ WF Y /\
  Core (ports (mx X)) (ports (mx Y)) (outstanding (mx X)) (outstanding (mx Y)) (chq X) (chq Y) L L'.

Lemma Sys_sym X Y L L' : Sys X Y L L' -> Sys Y X L' L.
Proof. intros (H1 & H2 & H3). split; [exact H2|split; [exact H1|now apply Core_sym]]. Qed.

Definition NetInv (n : net) : Prop := Sys (na n) (nb n) (lab n) (lba n).
