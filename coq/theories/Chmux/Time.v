(** Virtual time: keep-alive pings and the connection timeout ([mux.rs]: [send_task], [recv_task],
    [run]; [msg.rs]: [ExchangedCfg::write]).  Durations are nanoseconds in [N].

    * an endpoint with local timeout [T] announces [E = exchanged T] (whole milliseconds, at least 1,
      at most u64::MAX) -- [Wire.timeout_millis];
    * its peer sends a Ping whenever it has sent nothing for [E / 2] ([send_task]: the ping timer is
      re-armed after every message handed to the transport);
    * the endpoint itself gives up when it has received nothing for [L = max T 1ms] ([recv_task]:
      the timer is re-armed after every received message). *)
From Remoc Require Import Lib.Base Gen.Consts Chmux.Wire.

Definition MS : N := 1000000.

(** announced timeout in nanoseconds *)
Definition announced (t : N) : N := timeout_millis (Some t) * MS.
(** ping interval of the peer *)
Definition ping_interval (t : N) : N := announced t / PING_DIVISOR.
(** locally enforced timeout *)
Definition enforced (t : N) : N := N.max t (LOCAL_TIMEOUT_MIN_MS * MS).

(** the peer's sending instants on an idle connection, [k]-th ping sent at [k * P] (it may send
    earlier, never later, if the sink is ready); a message sent at [s] is received at [s + d] with a
    one-way delay [d] in [[dmin, dmin + jitter]]: two consecutive arrivals are at most [P + jitter] apart. *)
Definition max_gap (t jitter : N) : N := ping_interval t + jitter.

Lemma announced_le_enforced t : t <= 18446744073709551615 * MS -> announced t <= enforced t.
Proof.
  unfold announced, enforced, timeout_millis, NS_PER_MS, U64_MAX, MS, LOCAL_TIMEOUT_MIN_MS. intros H.
  destruct (N.le_gt_cases 1 (t / 1000000)) as [H1|H1].
  - assert (N.max 1 (N.min (t / 1000000) 18446744073709551615) = t / 1000000) as -> by lia. lia.
  - assert (N.max 1 (N.min (t / 1000000) 18446744073709551615) = 1) as -> by lia. lia.
Qed.

(** on an idle healthy connection whose delay jitter is below half the enforced timeout the gap
    between two received messages stays below the enforced timeout: no [Timeout] *)
Theorem idle_never_times_out t jitter :
  t <= 18446744073709551615 * MS -> 2 * jitter < enforced t -> max_gap t jitter < enforced t.
Proof.
  intros Ht Hj. pose proof (announced_le_enforced t Ht) as Ha. unfold max_gap, ping_interval, PING_DIVISOR. lia.
Qed.

(** a silent transport is noticed: the dispatcher's timer fires at most [enforced t] after the last
    message it received (the timer is re-armed only by received messages) *)
Definition deadline (last_rx t : N) : N := last_rx + enforced t.

Theorem silent_is_noticed last_rx t now : deadline last_rx t <= now -> enforced t <= now - last_rx.
Proof. unfold deadline. lia. Qed.

(** before the repair a timeout below one millisecond was announced as "none" (0): the peer sent no
    pings at all, and an idle healthy link timed out *)
Definition announced_before_fix (t : N) : N := N.min (t / NS_PER_MS) U64_MAX * MS.
Example sub_millisecond_regression :
  announced_before_fix 900000 = 0 /\ announced 900000 = MS /\ ping_interval 900000 < enforced 900000.
Proof. vm_compute. auto. Qed.
