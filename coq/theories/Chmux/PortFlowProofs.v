(** Invariants of the port-flow system, for every schedule. *)
From Remoc Require Import Lib.Base Gen.Consts Chmux.Parse Chmux.Recv Chmux.RecvProofs Chmux.PortFlow.
From RecordUpdate Require Import RecordUpdate.

(** projections and setters of the port-flow state, in goal and hypotheses ([prj]) or in the goal alone ([sel]) *)
Ltac prj :=
  cbn [cfg pool closed op tx_dropped evq link rxq cm rcv to_return ret_pending cred_evq cred_link dead cur emitted
       consumed completed delivered sent_cost granted set RecordSet.set finish_op emit assigned_of pend
       chunk limit cap_s cap_r] in *.
Ltac sel :=
  cbn [cfg pool closed op tx_dropped evq link rxq cm rcv to_return ret_pending cred_evq cred_link dead cur emitted
       consumed completed delivered sent_cost granted set RecordSet.set finish_op emit assigned_of pend
       chunk limit cap_s cap_r].

Lemma len_firstn_le {A} (l : list A) k : len (firstn k l) <= len l.
Proof. unfold len. rewrite firstn_length. lia. Qed.
Lemma len_firstn_skipn {A} (l : list A) k : len (firstn k l) + len (skipn k l) = len l.
Proof. rewrite <- len_app. now rewrite firstn_skipn. Qed.
Lemma skipn_nil_len {A} (l : list A) k : skipn k l = [] -> len (firstn k l) = len l.
Proof. intros H. pose proof (len_firstn_skipn l k). rewrite H, len_nil in *. lia. Qed.
Lemma len_pos_nonempty {A} (l : list A) : l <> [] -> 1 <= len l.
Proof. destruct l; [congruence|]. rewrite len_cons. lia. Qed.
Lemma Forall_snoc {A} (P : A -> Prop) l x : Forall P l -> P x -> Forall P (l ++ [x]).
Proof. intros. apply Forall_app. split; auto. Qed.
Lemma last_unique {A} (x : A) (a b l : list A) :
  a ++ b = l ++ [x] -> In x a -> ~ In x l -> b = [].
Proof.
  revert a b. induction l as [|y l IH]; intros a b H Hin Hnl.
  - destruct a as [|a0 a]; [destruct Hin|]. cbn in H. injection H as -> H.
    destruct a; [exact H|discriminate].
  - destruct a as [|a0 a]; [destruct Hin|]. cbn in H. injection H as -> H.
    destruct Hin as [->|Hin]; [exfalso; apply Hnl; now left|].
    apply (IH a b H Hin). intros Hx. apply Hnl. now right.
Qed.

Lemma parse_step_data (ps : pst) (cu : list N) (first last : bool) (c : list N) :
  ps <> PFin -> (if first then cu = [] else ps = PData cu) ->
  parse_step ps (FData first last c) = if last then (PNone, [MData (cu ++ c)]) else (PData (cu ++ c), []).
Proof.
  intros Hp H. unfold parse_step.
  destruct ps; try congruence; destruct first; subst; try discriminate; try reflexivity; injection H as <-; reflexivity.
Qed.

Lemma parse_step_ports (ps : pst) (cu : list N) (first last : bool) (c : list N) :
  ps <> PFin -> (if first then cu = [] else ps = PPorts cu) ->
  parse_step ps (FPorts first last c) = if last then (PNone, [MPorts (cu ++ c)]) else (PPorts (cu ++ c), []).
Proof.
  intros Hp H. unfold parse_step.
  destruct ps; try congruence; destruct first; subst; try discriminate; try reflexivity; injection H as <-; reflexivity.
Qed.

Lemma try_chunks_frames fuel ck data first slots : 1 <= ck ->
  let fs := fst (try_chunks fuel ck data first slots) in
  costs fs <= len data /\ Forall (fun f => frame_ok ck f = true) fs /\ ~ In FFin fs.
Proof.
  intros Hck. revert data first slots; induction fuel as [|fuel IH]; intros data first slots; cbn [try_chunks].
  { repeat split; [apply N.le_0_l|constructor|intros []]. }
  destruct data as [|x data']; [repeat split; [apply N.le_0_l|constructor|intros []]|].
  assert (Hd : 1 <= len (x :: data')) by (rewrite len_cons; lia). set (data := x :: data') in *.
  destruct (slots =? 0); [repeat split; [apply N.le_0_l|constructor|intros []]|].
  set (n := N.min (len data) ck).
  specialize (IH (skipn (N.to_nat n) data) false (slots - 1)).
  destruct (try_chunks fuel ck (skipn (N.to_nat n) data) false (slots - 1)) as [fs ok]. cbn [fst] in *.
  destruct IH as (IHc & IHo & IHn).
  pose proof (len_firstn data n) as Hl. pose proof (len_firstn_skipn data (N.to_nat n)) as Hs.
  rewrite costs_cons. cbn [cost]. repeat split.
  - lia.
  - constructor; [cbn [frame_ok]; lia|exact IHo].
  - intros [E|E]; [discriminate|tauto].
Qed.

Lemma try_chunks_parse fuel ck : 1 <= ck -> forall (data : list N) (first : bool) (slots : N) (ps : pst) (acc : list N),
  (length data < fuel)%nat -> ps <> PFin -> data <> [] ->
  (if first then acc = [] else ps = PData acc) ->
  let '(fs, ok) := try_chunks fuel ck data first slots in
  exists ps', ps' <> PFin /\
    parse_from ps fs = (if ok then PNone else ps', if ok then [MData (acc ++ data)] else []).
Proof.
  intros Hck. induction fuel as [|fuel IH]; intros data first slots ps acc Hf Hps Hne Hfirst; [lia|].
  cbn [try_chunks]. destruct data as [|x data']; [congruence|]. set (data := x :: data') in *.
  destruct (slots =? 0).
  { exists ps. split; auto. }
  set (k := N.to_nat (N.min (len data) ck)).
  assert (Hk : (1 <= k <= length data)%nat) by (subst k data; rewrite len_cons; unfold len; cbn [length]; lia).
  pose proof (firstn_skipn k data) as Hfs.
  pose proof (parse_step_data ps acc first) as Hstep. specialize (fun l => Hstep l (firstn k data) Hps Hfirst).
  destruct (skipn k data) as [|y r'] eqn:Esk.
  - destruct fuel as [|fuel']; [cbn [length] in Hf; lia|]. cbn [try_chunks].
    exists PNone. split; [discriminate|]. rewrite app_nil_r in Hfs.
    cbn [parse_from]. rewrite (Hstep true), Hfs. reflexivity.
  - assert (Hrl : (length (y :: r') < fuel)%nat).
    { apply (f_equal (@length N)) in Hfs. rewrite app_length, firstn_length in Hfs. lia. }
    specialize (IH (y :: r') false (slots - 1) (PData (acc ++ firstn k data)) (acc ++ firstn k data) Hrl
                  ltac:(discriminate) ltac:(discriminate) eq_refl).
    destruct (try_chunks fuel ck (y :: r') false (slots - 1)) as [fs ok].
    destruct IH as (ps' & Hps'n & IH). exists ps'. split; auto.
    cbn [parse_from]. rewrite (Hstep false), IH, <- app_assoc, Hfs. destruct ok; reflexivity.
Qed.

(** conservation of credits and everything that follows by arithmetic *)
Definition inv_num (s : st) : Prop :=
  cfg_ok (cfg s) /\
  dead s = None /\
  pool s + assigned_of (op s) + costs (evq s) + costs (link s) + costs (rxq s) + to_return s
    + pend (ret_pending s) + sum (cred_evq s) + sum (cred_link s) = limit (cfg s) /\
  to_return s < return_threshold (limit (cfg s)) /\
  sent_cost s = costs (consumed s) + costs (rxq s) + costs (link s) /\
  granted s + pend (ret_pending s) + sum (cred_evq s) + sum (cred_link s) + to_return s = costs (consumed s) /\
  Forall (fun f => frame_ok (chunk (cfg s)) f = true) (evq s ++ link s).

(** well-formed operation state: a data call with [empty = false] has data left, etc. *)
Definition op_wf (o : sop) : Prop :=
  match o with
  | SData _ rest empty _ _ _ => if empty then rest = [] else rest <> []
  | SPorts rest _ _ => rest <> []
  | _ => True
  end.

Definition inv_n (s : st) : Prop := inv_num s /\ op_wf (op s).

(** FIFO transport, emitted frames parse to the completed sends (the parser state matching the
    operation in progress), the receiver's results are a function of the consumed frames *)
Definition op_parse (o : sop) (cu : list N) (ps : pst) (dropped : bool) : Prop :=
  (dropped = false -> ps <> PFin) /\ (dropped = true -> o = SIdle) /\
  match o with
  | SIdle => True
  | SData cs _ _ first _ fin => (if first then cu = [] else ps = PData cu) /\ (cs = false -> fin = true)
  | SChunkIdle first _ => if first then cu = [] else ps = PData cu
  | SPorts _ first _ => if first then cu = [] else ps = PPorts cu
  end.

Definition inv_str (md mp : N) (s : st) : Prop :=
  consumed s ++ rxq s ++ link s ++ evq s = emitted s /\
  (exists ps, parse_from PNone (emitted s) = (ps, completed s) /\ op_parse (op s) (cur s) ps (tx_dropped s)) /\
  feed_all CAny (rinit md mp) (consumed s) = (cm s, rcv s, delivered s).

(** the [Finished] marker is emitted once, last, by the drop of the sender, and travels the same FIFO *)
Definition inv_fin (s : st) : Prop :=
  (finished (rcv s) = true -> In FFin (consumed s)) /\
  (tx_dropped s = false -> ~ In FFin (emitted s)) /\
  (tx_dropped s = true -> exists l, emitted s = l ++ [FFin] /\ ~ In FFin l).

Definition Inv (md mp : N) (s : st) : Prop := inv_n s /\ inv_str md mp s.

Lemma threshold_pos l : 1 <= return_threshold l.
Proof. unfold return_threshold. destruct (N.leb_spec 8 l); lia. Qed.

Lemma Inv_init c md mp : cfg_ok c -> Inv md mp (init c md mp) /\ inv_fin (init c md mp).
Proof.
  intros H. pose proof (threshold_pos (limit c)). unfold Inv, inv_n, inv_num, inv_str, inv_fin, init; sel.
  split; [split; [split; [|exact I]|]|].
  - split; [exact H|]. repeat split; auto; try (cbn; lia). constructor.
  - repeat split; auto. exists PNone. repeat split; auto; discriminate.
  - repeat split; auto; discriminate.
Qed.

Lemma some_eq {A} (a b : A) : Some a = Some b -> a = b.
Proof. now intros [=]. Qed.

(** take apart a hypothesis [step_opt s a = Some s']: every match, test and pair on its way is decided, with
    its equation; at the end [s'] is the state the step builds *)
Ltac cases :=
  repeat match goal with
  | H : match ?x with _ => _ end = Some _ |- _ =>
      let E := fresh "E" in destruct x eqn:E; try discriminate
  | H : (if ?x then _ else _) = Some _ |- _ =>
      let E := fresh "E" in destruct x eqn:E; try discriminate
  | H : (let '(_, _) := ?x in _) = Some _ |- _ =>
      let E := fresh "E" in destruct x eqn:E
  | H : Some _ = Some _ |- _ => apply some_eq in H; destruct H
  end.

(** rewrite with the equations that [cases] left about the operation and the queues of a state *)
Ltac rw :=
  repeat match goal with
  | E : ?f ?s = ?v |- _ =>
      match f with op => idtac | evq => idtac | link => idtac | rxq => idtac | cred_evq => idtac
                 | cred_link => idtac | ret_pending => idtac end;
      match goal with
      | |- context [f s] => rewrite E
      | H : context [f s] |- _ => lazymatch H with E => fail | _ => rewrite E in H end
      end
  end.

(** An action of the sending endpoint changes only its own fields: it appends frames [fs] to the event queue, paid for out of
    pool and assigned credits, and the parser follows ([em_parse]).  The invariants see these actions only through [emits]. *)
Definition sender_act (a : act) : bool :=
  match a with TMux | TLink | RConsume | RFlush | TCredMux | TCredLink => false | _ => true end.

Definition beyond (s : st) :=
  (cfg s, link s, rxq s, cm s, rcv s, to_return s, ret_pending s, cred_evq s, cred_link s, dead s, consumed s,
   delivered s, sent_cost s, granted s).

Lemma beyond_eq s s' : beyond s' = beyond s ->
  cfg s' = cfg s /\ link s' = link s /\ rxq s' = rxq s /\ cm s' = cm s /\ rcv s' = rcv s /\
  to_return s' = to_return s /\ ret_pending s' = ret_pending s /\ cred_evq s' = cred_evq s /\
  cred_link s' = cred_link s /\ dead s' = dead s /\ consumed s' = consumed s /\ delivered s' = delivered s /\
  sent_cost s' = sent_cost s /\ granted s' = granted s.
Proof. intros [=]. repeat split; assumption. Qed.

Record emits (s s' : st) (fs : list frame) : Prop := {
  em_beyond : beyond s' = beyond s;
  em_evq : evq s' = evq s ++ fs;
  em_emitted : emitted s' = emitted s ++ fs;
  em_credits : pool s' + assigned_of (op s') + costs fs = pool s + assigned_of (op s);
  em_ok : Forall (fun f => frame_ok (chunk (cfg s)) f = true) fs;
  em_wf : op_wf (op s');
  em_live : fs <> [] -> tx_dropped s = false \/ op s <> SIdle;
  em_fin : tx_dropped s' = tx_dropped s /\ ~ In FFin fs \/ fs = [FFin] /\ tx_dropped s' = true;
  em_parse : forall ps, op_parse (op s) (cur s) ps (tx_dropped s) ->
    exists ps' out, parse_from ps fs = (ps', out) /\ completed s' = completed s ++ out /\
                    op_parse (op s') (cur s') ps' (tx_dropped s')
}.

Lemma emits_nothing s s' :
  beyond s' = beyond s -> evq s' = evq s -> emitted s' = emitted s -> completed s' = completed s ->
  tx_dropped s' = tx_dropped s -> pool s' + assigned_of (op s') = pool s + assigned_of (op s) -> op_wf (op s') ->
  (forall ps, op_parse (op s) (cur s) ps (tx_dropped s) -> op_parse (op s') (cur s') ps (tx_dropped s)) ->
  emits s s' [].
Proof.
  intros Hb He Hm Hc Ht Hp Hw Hpar. split; rewrite ?app_nil_r, ?costs_nil, ?N.add_0_r; auto.
  - intros ps H. exists ps, []. rewrite app_nil_r, Ht. auto.
Qed.

Lemma emits_one s s' f out :
  beyond s' = beyond s -> evq s' = evq s ++ [f] -> emitted s' = emitted s ++ [f] ->
  completed s' = completed s ++ out -> tx_dropped s' = tx_dropped s ->
  pool s' + assigned_of (op s') + cost f = pool s + assigned_of (op s) ->
  frame_ok (chunk (cfg s)) f = true -> f <> FFin -> op_wf (op s') -> tx_dropped s = false \/ op s <> SIdle ->
  (forall ps, op_parse (op s) (cur s) ps false ->
     exists ps', parse_step ps f = (ps', out) /\ op_parse (op s') (cur s') ps' false) ->
  emits s s' [f].
Proof.
  intros Hb He Hm Hc Ht Hp Hok Hf Hw Hl Hpar. split; auto.
  - rewrite costs_cons, costs_nil. lia.
  - left. split; [exact Ht|]. intros [E|[]]. congruence.
  - intros ps H. assert (Hd : tx_dropped s = false).
    { destruct Hl as [Hl|Hl]; [exact Hl|]. destruct (tx_dropped s) eqn:Ed; [|reflexivity]. destruct H as (_ & H & _). now destruct Hl; apply H. }
    rewrite Ht, Hd in *. destruct (Hpar ps H) as (ps' & Hs & Ho).
    exists ps', out. cbn [parse_from]. rewrite Hs, app_nil_r. auto.
Qed.

Lemma emits_one_assigned s s' f out a' :
  beyond s' = beyond s -> evq s' = evq s ++ [f] -> emitted s' = emitted s ++ [f] ->
  completed s' = completed s ++ out -> tx_dropped s' = tx_dropped s ->
  pool s' + assigned_of (op s') = pool s + a' -> a' + cost f = assigned_of (op s) ->
  frame_ok (chunk (cfg s)) f = true -> f <> FFin -> op_wf (op s') -> tx_dropped s = false \/ op s <> SIdle ->
  (forall ps, op_parse (op s) (cur s) ps false ->
     exists ps', parse_step ps f = (ps', out) /\ op_parse (op s') (cur s') ps' false) ->
  emits s s' [f].
Proof. intros Hb He Hm Hc Ht Hp Ha'. apply emits_one; auto. lia. Qed.

Definition needs_credit (o : sop) : bool :=
  match o with
  | SData _ _ _ _ a _ => a =? 0
  | SPorts _ _ a => a <? 4
  | _ => false
  end.
Definition running (o : sop) : bool :=
  match o with SData _ _ _ _ _ _ | SPorts _ _ _ => true | _ => false end.

(** a frame still to hand over weighs 2, a missing credit 1: handing over a frame (-2) may leave the
    operation without credit (+1), and the request that gets the credit takes that 1 away *)
Definition mu (o : sop) : N :=
  match o with
  | SData _ rest empty _ a _ => 2 * (len rest + (if empty then 1 else 0)) + (if a =? 0 then 1 else 0)
  | SPorts rest _ a => 2 * len rest + (if a <? 4 then 1 else 0)
  | _ => 0
  end.

Lemma b2n_le1 (b : bool) : (if b then 1 else 0) <= 1.
Proof. destruct b; lia. Qed.

(** one branch of [TEmit]: the premises of [emits_one_assigned] hold by computation, by the arithmetic done before the
    branching ([Hcr], [Hok], [Hmu]) and by one step of the parser ([Hpar]) *)
Ltac leaf Eop Hpar Hcr Hok Hmu :=
  split;
  [ eexists; eapply emits_one_assigned; sel; rewrite ?Eop; cbn [assigned_of];
    [ reflexivity | reflexivity | reflexivity | first [reflexivity | symmetry; apply app_nil_r] | reflexivity
    | first [reflexivity | apply N.add_0_r] | apply Hcr | apply Hok | discriminate | first [exact I | discriminate]
    | right; discriminate
    | let ps := fresh "ps" in let Hp := fresh "Hp" in let Hc := fresh "Hc" in
      intros ps Hp; destruct (Hpar _ _ Hp) as [-> Hc]; try (specialize (Hc eq_refl); subst);
      rewrite ?app_nil_r; eexists; split; [reflexivity|]; repeat split; try discriminate; auto ]
  | exact Hmu ].

(** [TEmit] is the one place where the sending loops of [send], [ChunkSender] and [connect] are gone through
    branch by branch: each hands over one frame and comes closer to its end. *)
Lemma emit_step s s' :
  4 <= chunk (cfg s) -> op_wf (op s) -> step_opt s TEmit = Some s' ->
  (exists f, emits s s' [f]) /\ mu (op s') < mu (op s).
Proof.
  intros Hck Hwf H. cbn [step_opt] in H. destruct (slot_free s); [|discriminate].
  destruct (op s) as [|cs rest empty first a fin|first a|rest first a] eqn:Eop; try discriminate; cbn [op_wf] in Hwf.
  - destruct (N.eqb_spec a 0) as [|Ha]; [discriminate|].
    assert (Hpar : forall cu ps, op_parse (SData cs rest empty first a fin) cu ps false ->
              (forall last c, parse_step ps (FData first last c) =
                              if last then (PNone, [MData (cu ++ c)]) else (PData (cu ++ c), []))
              /\ (cs = false -> fin = true)).
    { intros cu ps (Hps & _ & Hf & Hc). split; [intros; apply parse_step_data|]; auto. }
    assert (Hmu : 0 < mu (SData cs rest empty first a fin)).
    { cbn [mu]. destruct empty; [lia|]. pose proof (len_pos_nonempty rest Hwf) as Hr. clear - Hr. lia. }
    destruct empty.
    + subst rest.
      assert (Hcr : forall fi la, a - 1 + cost (FData fi la []) = a) by (intros; cbn [cost]; change (@len N []) with 0; lia).
      assert (Hok : forall fi la, frame_ok (chunk (cfg s)) (FData fi la []) = true)
        by (intros; apply N.leb_le, N.le_0_l).
      destruct cs; [destruct fin|]; apply some_eq in H; subst s'; leaf Eop Hpar Hcr Hok Hmu.
    + set (m := N.min (N.min (len rest) (chunk (cfg s))) a) in *.
      pose proof (len_pos_nonempty rest Hwf) as Hr1.
      pose proof (len_firstn rest m) as Hlc. pose proof (len_firstn_skipn rest (N.to_nat m)) as Hfs.
      set (c := firstn (N.to_nat m) rest) in *.
      assert (Hcr : forall fi la, a - len c + cost (FData fi la c) = a) by (intros; cbn [cost]; clear - Hlc Hr1 Ha Hck; lia).
      assert (Hok : forall fi la, frame_ok (chunk (cfg s)) (FData fi la c) = true)
        by (intros; cbn [frame_ok]; apply N.leb_le; clear - Hlc; lia).
      destruct (skipn (N.to_nat m) rest) as [|y r'] eqn:Esk; cbn [andb] in H.
      * destruct cs; [destruct fin|]; apply some_eq in H; subst s'; leaf Eop Hpar Hcr Hok Hmu.
      * assert (Hmu' : mu (SData cs (y :: r') false false (a - len c) fin) < mu (SData cs rest false first a fin)).
        { cbn [mu]. rewrite len_cons in Hfs |- *. pose proof (b2n_le1 (a - len c =? 0)) as Hb. clear - Hfs Hlc Hr1 Ha Hck Hb. lia. }
        apply some_eq in H; subst s'. leaf Eop Hpar Hcr Hok Hmu'.
  - destruct (N.ltb_spec a 4) as [|Ha]; [discriminate|].
    assert (Hpar : forall cu ps, op_parse (SPorts rest first a) cu ps false ->
              (forall last c, parse_step ps (FPorts first last c) =
                              if last then (PNone, [MPorts (cu ++ c)]) else (PPorts (cu ++ c), []))
              /\ True).
    { intros cu ps (Hps & _ & Hf). split; [intros; apply parse_step_ports|]; auto. }
    set (k := N.min (len rest) (N.min (chunk (cfg s)) a / 4)) in *.
    pose proof (len_pos_nonempty rest Hwf) as Hr1.
    assert (Hk : 1 <= k <= len rest /\ 4 * k <= chunk (cfg s) /\ 4 * k <= a) by (clear - Hr1 Hck Ha; lia). clearbody k.
    pose proof (len_firstn rest k) as Hlc. pose proof (len_firstn_skipn rest (N.to_nat k)) as Hfs.
    set (c := firstn (N.to_nat k) rest) in *.
    assert (Hcr : forall fi la, a - 4 * len c + cost (FPorts fi la c) = a) by (intros; cbn [cost]; clear - Hk Hlc; lia).
    assert (Hok : forall fi la, frame_ok (chunk (cfg s)) (FPorts fi la c) = true)
      by (intros; cbn [frame_ok]; apply N.leb_le; clear - Hk Hlc; lia).
    destruct (skipn (N.to_nat k) rest) as [|y r'] eqn:Esk; apply some_eq in H; subst s'.
    + assert (Hmu : 0 < mu (SPorts rest first a)) by (cbn [mu]; clear - Hr1; lia).
      leaf Eop Hpar Hcr Hok Hmu.
    + assert (Hmu : mu (SPorts (y :: r') false (a - 4 * len c)) < mu (SPorts rest first a)).
      { cbn [mu]. rewrite len_cons in Hfs |- *. pose proof (b2n_le1 (a - 4 * len c <? 4)) as Hb. clear - Hfs Hlc Hk Hb. lia. }
      leaf Eop Hpar Hcr Hok Hmu.
Qed.

Lemma emits_refl s : op_wf (op s) -> emits s s [].
Proof. intros. apply emits_nothing; auto. Qed.

(** premises of [emits_nothing] for a step that rearranges pool, operation and [cur] only *)
Ltac no_emit :=
  exists []; apply emits_nothing; sel; rw;
  [ reflexivity | reflexivity | reflexivity | reflexivity | reflexivity
  | cbn [assigned_of]; unfold U32_MAX in *; lia
  | cbn [op_wf] in *; auto
  | let ps := fresh "ps" in let A := fresh "A" in let B := fresh "B" in let C := fresh "C" in let Ht := fresh "Ht" in
    intros ps (A & B & C);
    (split; [exact A|split; [intros Ht; first [exact (B Ht) | congruence | discriminate (B Ht)]|]]); repeat split; auto; first [apply C | discriminate] ].

Lemma sender_step s a s' :
  4 <= chunk (cfg s) -> op_wf (op s) -> sender_act a = true -> step_opt s a = Some s' -> exists fs, emits s s' fs.
Proof.
  intros Hck Hwf Ha H. destruct a; try discriminate; try (unfold step_opt in H).
  - cases. no_emit. destruct data; [reflexivity|discriminate].
  - cases; try (exists []; apply emits_refl; rw; exact Hwf).
    + exists [FData true true []]. apply (emits_one _ _ _ [MData []]); sel; rw; auto.
      * cbn [assigned_of cost]. change (@len N []) with 0. lia.
      * cbn [frame_ok]. change (@len N []) with 0. lia.
      * discriminate.
      * intros ps (Hps & _). exists PNone. rewrite (parse_step_data ps [] true true []); auto.
        split; [reflexivity|]. repeat split; auto; discriminate.
    + apply andb_true_iff in E1 as [_ E1]. apply N.leb_le in E1. apply N.ltb_ge in E3. unfold U32_MAX in *.
      pose proof (try_chunks_frames (S (length (n :: l))) (chunk (cfg s)) (n :: l) true slots ltac:(lia)) as (Hc & Hok & Hnf).
      rewrite E5 in Hc, Hok, Hnf. cbn [fst] in *. exists l0.
      assert (Hp : forall ps, ps <> PFin -> exists ps', ps' <> PFin /\
                parse_from ps l0 = (if b then PNone else ps', if b then [MData ([] ++ n :: l)] else [])).
      { intros ps Hps. pose proof (try_chunks_parse (S (length (n :: l))) (chunk (cfg s)) ltac:(lia) (n :: l) true slots
                                     ps [] (Nat.lt_succ_diag_r _) Hps ltac:(discriminate) eq_refl) as Hp.
        now rewrite E5 in Hp. }
      destruct b; (split; sel; rw; auto; [cbn [assigned_of]; clear - Hc E1 E3; lia|]);
        intros ps (Hps & _ & _); rewrite E0 in *; destruct (Hp ps (Hps eq_refl)) as (ps' & Hps' & ->);
        eexists _, _; (split; [reflexivity|]); rewrite ?app_nil_r; (split; [reflexivity|]); repeat split; auto; discriminate.
  - cases. no_emit.
  - cases. no_emit. destruct data; [reflexivity|discriminate].
  - cases; no_emit. discriminate.
  - cases; no_emit.
  - cases. exists [FFin]. split; sel; rw; auto.
    + cbn. lia.
    + intros ps _. exists PFin, []. rewrite app_nil_r. cbn [parse_from]. destruct ps; repeat split; auto; discriminate.
  - cases; no_emit.
  - destruct (emit_step s s' Hck Hwf H) as [[f Hf] _]. eauto.
  - cases. no_emit.
Qed.

Lemma Inv_sender md mp s s' fs : emits s s' fs -> Inv md mp s -> Inv md mp s'.
Proof.
  intros [Hb Hq Hm Hcr Hfs Hwf' _ _ Hpar] [[(Hc & Hd & Hcons & Hth & Hsent & Hgr & Hok) _] (Hfifo & (ps & Hp & Hop) & Hfeed)].
  apply beyond_eq in Hb as (E1 & E2 & E3 & E4 & E5 & E6 & E7 & E8 & E9 & E10 & E11 & E12 & E13 & E14).
  destruct (Hpar ps Hop) as (ps' & out & Hpf & Hco & Hop').
  (* each clause is rewritten on its own: rewriting in the whole conjunction is slow to check *)
  refine (conj (conj (conj _ (conj _ (conj _ (conj _ (conj _ (conj _ _)))))) Hwf') (conj _ (conj _ _))).
  - now rewrite E1.
  - now rewrite E10.
  - rewrite E1, E2, E3, E6, E7, E8, E9, Hq, costs_app. clear - Hcons Hcr. lia.
  - now rewrite E1, E6.
  - now rewrite E2, E3, E11, E13.
  - now rewrite E6, E7, E8, E9, E11, E14.
  - rewrite E1, E2, Hq, <- app_assoc. apply Forall_app in Hok as [Ha Hl]. apply Forall_app; split; auto. apply Forall_app; split; auto.
  - rewrite E2, E3, E11, Hq, Hm, <- Hfifo, <- !app_assoc. reflexivity.
  - exists ps'. split; [|exact Hop']. rewrite Hm, Hco, parse_from_app, Hp, Hpf. reflexivity.
  - now rewrite E4, E5, E11, E12.
Qed.

Lemma inv_fin_sender md mp s s' fs : emits s s' fs -> inv_str md mp s -> inv_fin s -> inv_fin s'.
Proof.
  intros [Hb _ Hm _ _ _ Hlive Hfin _] (_ & (ps & _ & _ & Hidle & _) & _) (Hf & Hn & Hd).
  apply beyond_eq in Hb as (_ & _ & _ & _ & E5 & _ & _ & _ & _ & _ & E11 & _). unfold inv_fin. rewrite E5, E11, Hm.
  destruct (tx_dropped s) eqn:Et.
  - (* the sender is gone and idle: nothing more is emitted *)
    destruct fs as [|f fs]; [|now destruct (Hlive ltac:(discriminate)) as [|[]]; auto].
    rewrite app_nil_r. destruct Hfin as [[-> _]|[[=] _]]. auto.
  - destruct Hfin as [[-> Hnf]|[-> ->]]; (split; [exact Hf|split; intros Ht; try discriminate]).
    + intros Hin. apply in_app_or in Hin as [Hin|Hin]; [now apply Hn|now apply Hnf].
    + exists (emitted s). auto.
Qed.

(** The other actions leave the sending endpoint's fields alone: they move frames forward (event queue, link, port queue,
    consumed: [fe], [fl], [fr] leave the first three) and credits back (to return, pending, event queue, link, pool: [a1] .. [d]). *)
Definition sender_side (s : st) := (cfg s, closed s, op s, tx_dropped s, cur s, emitted s, completed s, dead s).

Lemma sender_side_eq s s' : sender_side s' = sender_side s ->
  cfg s' = cfg s /\ closed s' = closed s /\ op s' = op s /\ tx_dropped s' = tx_dropped s /\ cur s' = cur s /\
  emitted s' = emitted s /\ completed s' = completed s /\ dead s' = dead s.
Proof. intros [=]. repeat split; assumption. Qed.

Record moves (s s' : st) : Prop := {
  mv_side : sender_side s' = sender_side s;
  mv_flow : exists fe fl fr,
    evq s = fe ++ evq s' /\ link s ++ fe = fl ++ link s' /\ rxq s ++ fl = fr ++ rxq s' /\
    consumed s' = consumed s ++ fr /\ sent_cost s' = sent_cost s + costs fe /\
    match fr with
    | [] => cm s' = cm s /\ rcv s' = rcv s /\ delivered s' = delivered s
    | f :: fr' => fr' = [] /\ exists o, feed (cm s) (rcv s) f = (cm s', rcv s', o) /\ delivered s' = delivered s ++ o
    end /\
    exists a1 a2 b c d,
      to_return s' + a1 + a2 = to_return s + costs fr /\
      pend (ret_pending s') + b = pend (ret_pending s) + a1 /\
      sum (cred_evq s') + c = sum (cred_evq s) + a2 + b /\
      sum (cred_link s') + d = sum (cred_link s) + c /\
      pool s' = pool s + d /\ granted s' = granted s + d;
  mv_thr : to_return s' < return_threshold (limit (cfg s))
}.

Lemma moves_Inv md mp s s' : moves s s' -> Inv md mp s -> inv_fin s -> Inv md mp s' /\ inv_fin s'.
Proof.
  intros [Hside (fe & fl & fr & Hev & Hlk & Hrx & Hco & Hsc & Hfd & a1 & a2 & b & c & d & C1 & C2 & C3 & C4 & C5 & C6) Hthr].
  intros [[(Hc & Hd & Hcons & Hth & Hsent & Hgr & Hok) Hwf] (Hfifo & Hpar & Hfeed)] (Hf & Hn & Hx).
  apply sender_side_eq in Hside as (Scfg & _ & Sop & Std & Scur & Sem & Sco & Sdead).
  pose proof (f_equal costs Hev) as Kev. pose proof (f_equal costs Hlk) as Klk. pose proof (f_equal costs Hrx) as Krx.
  rewrite !costs_app in Kev. rewrite !costs_app in Klk. rewrite !costs_app in Krx.
  refine (conj (conj (conj (conj _ (conj _ (conj _ (conj _ (conj _ (conj _ _)))))) _) (conj _ (conj _ _)))
               (conj _ (conj _ _))).
  - now rewrite Scfg.
  - now rewrite Sdead.
  - rewrite Scfg, Sop, C5. clear - Hcons Kev Klk Krx C1 C2 C3 C4. lia.
  - now rewrite Scfg.
  - rewrite Hsc, Hco, costs_app. clear - Hsent Kev Klk Krx. lia.
  - rewrite C6, Hco, costs_app. clear - Hgr C1 C2 C3 C4. lia.
  - rewrite Scfg. apply Forall_app in Hok as [Ho1 Ho2]. rewrite Hev in Ho1. apply Forall_app in Ho1 as [Hoe Ho1].
    assert (Hl : Forall (fun f => frame_ok (chunk (cfg s)) f = true) (fl ++ link s'))
      by (rewrite <- Hlk; apply Forall_app; auto).
    apply Forall_app in Hl as [_ Hl]. apply Forall_app; auto.
  - now rewrite Sop.
  - rewrite Sem, <- Hfifo, Hco, Hev, <- (app_assoc (consumed s)), (app_assoc fr), <- Hrx, <- (app_assoc (rxq s)),
      (app_assoc fl), <- Hlk, <- !app_assoc. reflexivity.
  - now rewrite Sem, Sco, Sop, Scur, Std.
  - rewrite Hco. destruct fr as [|f fr']; [destruct Hfd as (-> & -> & ->); now rewrite app_nil_r|].
    destruct Hfd as (-> & o & Hfe & ->). rewrite feed_all_snoc, Hfeed, Hfe. reflexivity.
  - rewrite Hco. destruct fr as [|f fr']; [destruct Hfd as (_ & -> & _); now rewrite app_nil_r|].
    destruct Hfd as (-> & o & Hfe & _). intros Hr. rewrite in_app_iff. destruct (finished (rcv s)) eqn:Ef0; [auto|].
    right. left. exact (feed_finished_frame _ _ _ _ _ _ Hfe Ef0 Hr).
  - now rewrite Std, Sem.
  - now rewrite Std, Sem.
Qed.

Lemma costs_one f : costs [f] = cost f.
Proof. apply N.add_0_r. Qed.

(** the witnesses of [moves] in one branch: what is left is the bound on [to_return] *)
Ltac flows fe fl fr a1 a2 b c d :=
  split;
  [ reflexivity
  | sel; exists fe, fl, fr; rw; cbn [pend sum]; rewrite ?app_nil_r, ?costs_one, ?costs_nil, ?sum_snoc, ?N.add_0_r;
    repeat split; eauto; exists a1, a2, b, c, d; rewrite ?N.add_0_r, ?N.add_0_l; repeat split; auto using N.add_comm
  | sel ].

Lemma other_moves s a s' : sender_act a = false -> inv_num s -> step_opt s a = Some s' -> moves s s'.
Proof.
  intros Ha Hnum H. pose proof Hnum as (_ & _ & _ & Hth & _). pose proof (threshold_pos (limit (cfg s))).
  (* the step is taken apart while the rest of the invariant is still folded *)
  destruct a; try discriminate; unfold step_opt in H; cases.
  - flows [f] (@nil frame) (@nil frame) 0 0 0 0 0. exact Hth.
  - (* TLink: by the invariant the frame is within the chunk size and the credits *)
    destruct Hnum as (_ & _ & _ & _ & _ & _ & Hok).
    rewrite E in Hok. apply Forall_app in Hok as [_ Hok]. inversion Hok as [|? ? Hf0 _]. rewrite Hf0 in E1. discriminate.
  - flows (@nil frame) [f] (@nil frame) 0 0 0 0 0. exact Hth.
  - destruct Hnum as (_ & _ & Hcons & _). rewrite E, costs_cons in Hcons. apply N.leb_gt in E2. clear - Hcons E2. lia.
  - flows (@nil frame) (@nil frame) [f] 0 (to_return s + cost f) 0 0 0. clear - H0. lia.
  - flows (@nil frame) (@nil frame) [f] (to_return s + cost f) 0 0 0 0. clear - H0. lia.
  - flows (@nil frame) (@nil frame) [f] 0 0 0 0 0. now apply N.leb_gt.
  - flows (@nil frame) (@nil frame) (@nil frame) 0 0 n 0 0. exact Hth.
  - flows (@nil frame) (@nil frame) (@nil frame) 0 0 0 n 0. exact Hth.
  - flows (@nil frame) (@nil frame) (@nil frame) 0 0 0 0 n. exact Hth.
  - destruct Hnum as ((_ & _ & Hl & _) & _ & Hcons & _). rewrite E in Hcons. cbn [sum] in Hcons. apply N.leb_gt in E1.
    unfold U32_MAX in *. clear - Hcons E1 Hl. lia.
Qed.

Lemma Inv_fin_step md mp s a : Inv md mp s /\ inv_fin s -> Inv md mp (step s a) /\ inv_fin (step s a).
Proof.
  intros [HI HF]. unfold step. destruct (step_opt s a) as [s'|] eqn:E; [|split; assumption].
  destruct (sender_act a) eqn:Ea; [|exact (moves_Inv md mp s s' (other_moves s a s' Ea (proj1 (proj1 HI)) E) HI HF)].
  destruct (sender_step s a s') as [fs Hfs]; auto; try apply HI.
  split; [exact (Inv_sender md mp s s' fs Hfs HI)|exact (inv_fin_sender md mp s s' fs Hfs (proj2 HI) HF)].
Qed.

Lemma Inv_fin_run c md mp acts : cfg_ok c ->
  Inv md mp (run acts (init c md mp)) /\ inv_fin (run acts (init c md mp)).
Proof. intros Hc. unfold run. apply fold_left_inv; [intros; now apply Inv_fin_step|now apply Inv_init]. Qed.

Lemma Inv_run c md mp acts : cfg_ok c -> Inv md mp (run acts (init c md mp)).
Proof. intros Hc. apply Inv_fin_run, Hc. Qed.

Lemma inv_fin_run c md mp acts : cfg_ok c -> inv_fin (run acts (init c md mp)).
Proof. intros Hc. apply Inv_fin_run, Hc. Qed.

(** C01: what the receiver has obtained is a prefix of the completed sends *)
Lemma delivery_prefix md mp s :
  Inv md mp s -> prefix (data_of (delivered_msgs (delivered s))) (data_of (completed s)).
Proof.
  intros [_ (Hfifo & (ps & Hpar & _) & Hfeed)].
  pose proof (recv_refines_parse md mp (consumed s)) as Hr. rewrite Hfeed in Hr. rewrite Hr.
  apply filter_prefix.
  replace (completed s) with (parse (emitted s)) by (unfold parse; now rewrite Hpar).
  rewrite <- Hfifo. apply parse_prefix.
Qed.

(** C01: everything handed over by completed sends and consumed by the receiver has been obtained *)
Lemma delivery_complete md mp s :
  Inv md mp s -> rxq s = [] -> link s = [] -> evq s = [] ->
  (op s = SIdle \/ exists f a, op s = SChunkIdle f a) ->
  data_of (delivered_msgs (delivered s)) = data_of (completed s).
Proof.
  intros [_ (Hfifo & (ps & Hpar & _) & Hfeed)] H1 H2 H3 _.
  pose proof (recv_refines_parse md mp (consumed s)) as Hr. rewrite Hfeed in Hr. rewrite Hr.
  rewrite H1, H2, H3, !app_nil_r in Hfifo. rewrite Hfifo. unfold parse. now rewrite Hpar.
Qed.

Lemma wire_bound md mp s : Inv md mp s -> sent_cost s <= granted s + limit (cfg s) /\ dead s = None.
Proof. intros [[(Hc & Hd & Hcons & Hth & Hsent & Hgr & Hok) _] _]. split; [clear - Hcons Hsent Hgr; lia|exact Hd]. Qed.

Lemma chunk_bound md mp s : Inv md mp s -> Forall (fun f => frame_ok (chunk (cfg s)) f = true) (link s).
Proof. intros [[(Hc & Hd & Hcons & Hth & Hsent & Hgr & Hok) _] _]. apply Forall_app in Hok. tauto. Qed.

Lemma grant_bound md mp s : Inv md mp s -> granted s <= costs (consumed s).
Proof. intros [[(Hc & Hd & Hcons & Hth & Hsent & Hgr & Hok) _] _]. clear - Hgr. lia. Qed.

(** C03: conservation = no leak *)
Lemma conservation md mp s :
  Inv md mp s ->
  pool s + assigned_of (op s) + costs (evq s) + costs (link s) + costs (rxq s) + to_return s
    + pend (ret_pending s) + sum (cred_evq s) + sum (cred_link s) = limit (cfg s).
Proof. intros [[(Hc & Hd & Hcons & _) _] _]. exact Hcons. Qed.

Definition quiet (s : st) : Prop :=
  evq s = [] /\ link s = [] /\ rxq s = [] /\ ret_pending s = None /\ cred_evq s = [] /\ cred_link s = [].

Lemma threshold_lemma md mp s : Inv md mp s -> quiet s -> 4 <= pool s + assigned_of (op s).
Proof.
  intros [[(Hc & Hd & Hcons & Hth & _) _] _] (H1 & H2 & H3 & H4 & H5 & H6).
  destruct Hc as (_ & Hc2 & _). change CFG_MIN_RECEIVE_BUFFER with 4 in Hc2.
  rewrite H1, H2, H3, H4, H5, H6 in Hcons. cbn [costs map sum pend] in Hcons.
  unfold return_threshold in Hth. destruct (N.leb_spec 8 (limit (cfg s))); lia.
Qed.

Definition internal : list act := [TMux; TLink; RConsume; RFlush; TCredMux; TCredLink].

Lemma quiet_or_internal md mp s :
  Inv md mp s -> quiet s \/ exists a s', In a internal /\ step_opt s a = Some s'.
Proof.
  intros [[(Hc & Hd & Hcons & Hth & Hsent & Hgr & Hok) _] _].
  destruct Hc as (_ & _ & Hl & _ & _ & Hcr). unfold U32_MAX in *.
  destruct (evq s) as [|f q] eqn:E1.
  2:{ right. exists TMux. eexists. split; [cbn; auto|]. cbn [step_opt]. now rewrite E1. }
  destruct (cred_evq s) as [|c q] eqn:E5.
  2:{ right. exists TCredMux. eexists. split; [cbn; auto 10|]. cbn [step_opt]. now rewrite E5. }
  destruct (cred_link s) as [|c q] eqn:E6.
  2:{ right. exists TCredLink. eexists. split; [cbn; auto 10|]. cbn [step_opt]. rewrite E6, Hd.
      cbn [sum] in Hcons. destruct (N.leb_spec (pool s + c) U32_MAX) as [|Hgt]; [reflexivity|]. unfold U32_MAX in Hgt.
      clear - Hcons Hl Hgt. lia. }
  destruct (ret_pending s) as [c|] eqn:E4.
  { right. exists RFlush. eexists. split; [cbn; auto 10|]. cbn [step_opt]. rewrite E4, E5.
    change (@len N []) with 0. destruct (N.ltb_spec 0 (cap_r (cfg s))) as [|Hle]; [reflexivity|]. clear - Hcr Hle. lia. }
  destruct (link s) as [|f q] eqn:E2.
  2:{ right. exists TLink. apply Forall_app in Hok as [_ Hob]. rewrite ?E2 in Hob. inversion Hob; subst.
      match goal with H : frame_ok _ f = true |- _ => rename H into Hf end.
      eexists. split; [cbn; auto|]. cbn [step_opt]. rewrite E2, Hd, Hf. cbn [negb].
      rewrite costs_cons in Hcons.
      destruct (N.leb_spec (costs (rxq s) + cost f) (limit (cfg s))) as [|Hgt]; [reflexivity|]. clear - Hcons Hgt. lia. }
  destruct (rxq s) as [|f q] eqn:E3.
  { left. unfold quiet. rewrite E1, E2, E3, E4, E5, E6. tauto. }
  right. exists RConsume. cbn [step_opt]. rewrite E3, E4.
  destruct (feed (cm s) (rcv s) f) as [[m' r'] o].
  destruct (return_threshold (limit (cfg s)) <=? to_return s + cost f);
    [destruct (len (cred_evq s) <? cap_r (cfg s))|]; eexists; (split; [cbn; auto 10|reflexivity]).
Qed.

(** C03: no deadlock, no lost credit: a running operation can always take its next step unless
    frames or credits are still on their way (in which case an internal action is enabled). *)
Lemma progress md mp s :
  Inv md mp s -> running (op s) = true -> closed s = None ->
  (exists a s', In a internal /\ step_opt s a = Some s') \/
  (needs_credit (op s) = true /\ exists s', step_opt s TReq = Some s' /\ needs_credit (op s') = false /\ running (op s') = true) \/
  (needs_credit (op s) = false /\ exists s', step_opt s TEmit = Some s').
Proof.
  intros HI Hrun Hcl.
  destruct (quiet_or_internal md mp s HI) as [Hq|He]; [|now left].
  right. pose proof (threshold_lemma _ _ _ HI Hq) as Hth.
  destruct HI as [[(Hc & _) Hwf] _]. destruct Hq as (H1 & _).
  destruct Hc as (_ & _ & _ & _ & Hcs & _).
  assert (Hsf : slot_free s = true).
  { unfold slot_free. rewrite H1. change (@len frame []) with 0. clear - Hcs. lia. }
  destruct (op s) as [|cs rest empty first a fin|first a|rest first a] eqn:Eop; try discriminate; cbn [needs_credit assigned_of op_wf] in *.
  - destruct (N.eqb_spec a 0) as [->|Ha].
    + left. split; [reflexivity|]. cbn [step_opt]. rewrite Eop, Hcl.
      destruct (N.leb_spec 1 (pool s)) as [Hp|Hp]; [|clear - Hth Hp; lia]. eexists. split; [reflexivity|]. sel. cbn [needs_credit running].
      split; [|reflexivity]. destruct empty; [clear - Hp; lia|]. pose proof (len_pos_nonempty rest Hwf) as Hr. unfold U32_MAX. clear - Hp Hr. lia.
    + right. split; [reflexivity|]. cbn [step_opt]. rewrite Hsf, Eop.
      destruct (N.eqb_spec a 0); [contradiction|].
      destruct empty; [destruct cs; [destruct fin|]|]; try (eexists; reflexivity).
      destruct (skipn _ rest); [destruct cs; [destruct fin|]|]; eexists; reflexivity.
  - destruct (N.ltb_spec a 4) as [Ha|Ha].
    + left. split; [reflexivity|]. cbn [step_opt]. rewrite Eop, Hcl.
      destruct (N.ltb_spec a 4) as [_|Hge]; [|clear - Ha Hge; lia]. destruct (N.leb_spec 4 (pool s + a)) as [Hp|Hp]; [|clear - Hth Hp; lia].
      eexists. split; [reflexivity|]. sel. cbn [needs_credit running]. split; [|reflexivity].
      pose proof (len_pos_nonempty rest Hwf) as Hr. unfold U32_MAX. clear - Hp Hr. lia.
    + right. split; [reflexivity|]. cbn [step_opt]. rewrite Hsf, Eop.
      destruct (N.ltb_spec a 4) as [Hlt|_]; [clear - Ha Hlt; lia|]. destruct (skipn _ rest); eexists; reflexivity.
Qed.

Lemma emit_decreases md mp s s' : Inv md mp s -> step_opt s TEmit = Some s' -> mu (op s') < mu (op s).
Proof. intros [[((Hck & _) & _) Hwf] _] H. exact (proj2 (emit_step s s' Hck Hwf H)). Qed.

Lemma req_decreases s s' :
  step_opt s TReq = Some s' -> running (op s') = true -> needs_credit (op s') = false -> mu (op s') < mu (op s).
Proof.
  intros H Hr Hn. cbn [step_opt] in H.
  destruct (op s) as [|cs rest empty first a fin|first a|rest first a] eqn:Eop; try discriminate.
  - destruct a; try discriminate. destruct (closed s); [injection H as <-; prj; discriminate|].
    destruct (1 <=? pool s); [|discriminate]. injection H as <-. prj. cbn [mu needs_credit] in *.
    rewrite Hn. change (0 =? 0) with true. cbv iota. lia.
  - destruct (N.ltb_spec a 4) as [Ha|]; [|discriminate].
    destruct (closed s); [injection H as <-; prj; discriminate|].
    destruct (4 <=? pool s + a); injection H as <-; prj; cbn [mu needs_credit] in *; [|discriminate].
    rewrite Hn. destruct (N.ltb_spec a 4); lia.
Qed.

Lemma emitted_parse md mp s : Inv md mp s -> parse (emitted s) = completed s.
Proof. intros [_ (_ & (ps & Hpar & _) & _)]. unfold parse. now rewrite Hpar. Qed.

(** fail-stop at the port: once the credit pool is closed (the remote receiver closed or dropped, or the
    dispatcher and with it the pool is gone) an operation waiting for credits is woken and ends with an
    error instead of waiting forever *)
Lemma closed_wakes_waiter s g :
  closed s = Some g -> running (op s) = true -> needs_credit (op s) = true ->
  exists s', step_opt s TReq = Some s' /\ op s' = SIdle.
Proof.
  intros Hc Hr Hn. cbn [step_opt].
  destruct (op s) as [|cs rest empty first a fin|first a|rest first a] eqn:Eop; try discriminate; cbn [needs_credit] in Hn.
  - apply N.eqb_eq in Hn. subst a. rewrite Hc. eexists. split; [reflexivity|]. reflexivity.
  - rewrite Hn, Hc. eexists. split; [reflexivity|]. reflexivity.
Qed.

(** C11: when the receiver sees end-of-stream it has obtained every completed send *)
Lemma eos_complete md mp s :
  Inv md mp s -> inv_fin s -> finished (rcv s) = true ->
  data_of (delivered_msgs (delivered s)) = data_of (completed s) /\ rxq s = [] /\ link s = [] /\ evq s = [].
Proof.
  intros HI (Hfin & Hnd & Hd) Hf. pose proof HI as [_ (Hfifo & (ps & Hpar & Hdr & Hdr2 & _) & Hfeed)].
  specialize (Hfin Hf).
  destruct (tx_dropped s) eqn:Et.
  2:{ exfalso. apply (Hnd eq_refl). rewrite <- Hfifo. apply in_or_app. now left. }
  destruct (Hd eq_refl) as (l & Hl & Hnl).
  assert (Hrest : rxq s ++ link s ++ evq s = []).
  { eapply last_unique; [|exact Hfin|exact Hnl]. rewrite <- Hl. exact Hfifo. }
  apply app_eq_nil in Hrest as [H1 Hrest]. apply app_eq_nil in Hrest as [H2 H3].
  split; [|auto]. apply (delivery_complete md mp s HI H1 H2 H3). left. now apply Hdr2.
Qed.

(** after the pool is closed no new send completes: it is started, woken and ends with an error *)
Lemma send_after_close_fails s g data :
  closed s = Some g -> op s = SIdle -> tx_dropped s = false -> data <> [] ->
  let s' := run [USend data; TReq] s in
  op s' = SIdle /\ completed s' = completed s /\ emitted s' = emitted s /\ pool s' = pool s.
Proof.
  intros Hc Ho Ht Hd. destruct data as [|x d]; [congruence|].
  set (s1 := s <| op := SData false (x :: d) false true 0 true |> <| cur := [] |>).
  assert (E1 : step s (USend (x :: d)) = s1).
  { unfold step. cbn [step_opt]. now rewrite Ho, Ht. }
  assert (E2 : step s1 TReq = finish_op s1 0 None).
  { unfold step. cbn [step_opt]. subst s1. prj. now rewrite Hc. }
  unfold run. cbn [fold_left]. rewrite E1, E2. subst s1. prj. repeat split; try reflexivity. lia.
Qed.
