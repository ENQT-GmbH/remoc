(** Preservation of the invariant by local API actions and helper tasks. *)
From Remoc Require Import Lib.Base Gen.Consts Chmux.Wire Chmux.Mux Chmux.Endpoint Chmux.EndpointLemmas Chmux.EndpointInv.
From RecordUpdate Require Import RecordUpdate.

Ltac prj :=
  cbn [mx max_ports alloc handles chq cq requests connects clients_alive listener_alive terminate_req dead panicked sent
       cfg_chunk cfg_buffer cfg_connect_queue rcfg_buffer remote_ver ports outstanding listen_open lq_wait lq_nowait
       all_clients_dropped remote_client_dropped remote_listener_dropped goodbye_sent goodbye_received
       remote pool pool_closed rx_open rxq rx_closed rx_dropped tx_dropped rrx_closed rrx_dropped
       h_tx h_rx h_rxc lr_remote lr_id lr_wait set RecordSet.set set_handle] in *.

Definition Good (e : ep) : Prop :=
  panicked e = None /\ dead e = None /\ NoDup (alloc e) /\ len (alloc e) <= max_ports e /\ Inv e.

Lemma Good_WF e : Good e -> WF e.
Proof. intros (H1 & H2 & H3 & H4 & H5). constructor; auto; apply H5. Qed.
Lemma Good_of e :
  panicked e = None -> dead e = None -> NoDup (alloc e) -> len (alloc e) <= max_ports e ->
  qs_ok (cq e) (chq e) -> req_ok (outstanding (mx e)) (requests e) (chq e) ->
  core_ok (goodbye_sent (mx e) && goodbye_received (mx e) = false)
          (alloc e) (cq e) (chq e) (handles e) (requests e) (connects e) (ports (mx e)) ->
  buf_ok (cfg_buffer (mx e)) (ports (mx e)) -> lq_ok (mx e) -> Good e.
Proof.
  intros H1 H2 H3 H4 H5 H6 (C1 & C2 & C3 & C4 & C5) H7 H8. unfold Good. split; [|split; [|split; [|split; [|constructor]]]]; auto.
Qed.
Lemma core_of e : Good e ->
  core_ok (goodbye_sent (mx e) && goodbye_received (mx e) = false)
          (alloc e) (cq e) (chq e) (handles e) (requests e) (connects e) (ports (mx e)).
Proof. intros (_ & _ & _ & _ & []). unfold core_ok. auto. Qed.

(** the guards of a step that is enabled: case analysis on [H : step_opt .. = Some _] *)
Ltac cases :=
  repeat match goal with
  | H : match ?x with _ => _ end = Some _ |- _ => let E := fresh "E" in destruct x eqn:E; try discriminate
  | H : (if ?x then _ else _) = Some _ |- _ => let E := fresh "E" in destruct x eqn:E; try discriminate
  end.

Ltac inj H :=
  match type of H with Some ?a = Some ?b => let E := fresh in assert (E : b = a) by congruence; subst b; clear H end.

Ltac bools :=
  repeat match goal with
  | H : _ && _ = true |- _ => apply andb_true_iff in H; destruct H
  | H : negb _ = true |- _ => apply negb_true_iff in H
  | H : negb _ = false |- _ => apply negb_false_iff in H
  end.

Ltac neutral :=
  try assumption;
  try lazymatch goal with
  | |- qs_ok _ _ => solve [apply qs_ok_push_chq; [reflexivity|assumption] | apply qs_ok_push_cq; [reflexivity|assumption]]
  | |- req_ok _ _ _ => solve [apply req_ok_push; [reflexivity|assumption]]
  | |- handle_ok _ _ _ => solve [apply handle_ok_push; [intros; repeat split; reflexivity|assumption]]
  | |- num_ok _ _ _ _ =>
      solve [eapply num_ok_new_chq; [|eassumption]; intros ?; reflexivity | eapply num_ok_new_cq; [|eassumption]; intros ?; reflexivity]
  | |- _ -> conn_ok _ _ _ _ =>
      solve [intros Hg; eapply conn_ok_new_chq; [|eauto]; intros ?; reflexivity | intros Hg; eapply conn_ok_new_cq; [|eauto]; intros ?; reflexivity]
  end.
Ltac good_split :=
  unfold Good; prj; split; [assumption|split; [assumption|split; [|split; [|constructor; prj]]]]; neutral.

Ltac good_intro := intros (Hp & Hd & Hnd & Hlen & [Hqs Hnum Hreq Hh Hpq Hbuf Hlq Hkeys Hconn]).
Ltac inv_intro := good_intro; intros H; unfold step_opt in H.

Lemma step_UConnect e p id wait req e' :
  Good e -> step_opt e (UConnect p id wait req) = Some e' -> Good e'.
Proof.
  inv_intro. cases. bools. injection H as <-. destruct (fresh_alloc e p H2 Hnd Hlen) as (A1 & A2 & A3).
  good_split.
  - now apply (num_ok_new_cq (alloc e)).
  - intros Hg. apply (conn_ok_new_cq (connects e)); [|auto]. intros x. cbn [ev_reqs].
    rewrite (waiting_news _ [req]); cbn [nodupb mem forallb fold_left]; [reflexivity..|]. now destruct (lookup req (connects e)).
Qed.

Lemma neutral_SendPorts rp f l w ps p :
  is_sd p (ESendPorts rp f l w ps) = false /\ is_rd p (ESendPorts rp f l w ps) = false /\ is_rc p (ESendPorts rp f l w ps) = false.
Proof. auto. Qed.

Lemma step_USendPorts e via first last wait ps e' :
  Good e -> step_opt e (USendPorts via first last wait ps) = Some e' -> Good e'.
Proof.
  inv_intro. cases. bools. injection H as <-.
  destruct (all_fresh_go_spec _ _ _ H0 Hnd Hlen) as (A1 & A2 & A3).
  good_split.
  - now apply (num_ok_new_chq (alloc e)).
  - intros Hg. apply (conn_ok_new_chq (connects e)); [|auto]. intros x. now apply waiting_news.
Qed.

(** an event of port [p] is no event of any other port *)
Ltac neutral_other := intros ? ?; unfold neutral_h; cbn [is_sd is_rd is_rc]; repeat split; try reflexivity; apply N.eqb_neq; congruence.

Lemma Good_hset_push e p h h' ev :
  Good e -> lookup p (handles e) = Some h -> is_alive (h_rx h') = is_alive (h_rx h) ->
  chq_ev ev = true -> ev_nums ev = [] -> ev_reqs ev = [] -> (forall r, is_reply r ev = false) ->
  (forall p0, p0 <> p -> neutral_h p0 ev) ->
  (hok1 h true (chq e) (lookup p (ports (mx e))) p -> hok1 h' true (chq e ++ [ev]) (lookup p (ports (mx e))) p) ->
  Good (set_handle e p h' <| chq := chq e ++ [ev] |>).
Proof.
  intros HG Hl Ha Eq En Er Ep Hne Hk. revert HG. good_intro. pose proof (Hh p) as K. rewrite (hget_some _ _ _ Hl), Hl in K.
  apply Good_of; prj; auto.
  - now apply qs_ok_push_chq.
  - now apply req_ok_push.
  - split; [|split; [|split; [|split]]]; auto.
    + apply (num_ok_new_chq (alloc e)); [intros x; now rewrite En|assumption].
    + intros p0. rewrite hget_insert, lookup_insert. destruct (N.eqb_spec p0 p) as [->|]; [auto|apply hok1_push; auto].
    + eapply portq_ok_same_rx; eauto.
    + intros Hg. apply (conn_ok_new_chq (connects e)); [intros x; now rewrite Er|auto].
Qed.
Lemma step_UCloseRx e p e' : Good e -> step_opt e (UCloseRx p) = Some e' -> Good e'.
Proof.
  intros HG H. unfold step_opt in H. cases. injection H as <-.
  apply (Good_hset_push e p h); auto; [neutral_other|now apply hok1_rxc_queued].
Qed.

Lemma step_UDropTx e p e' : Good e -> step_opt e (UDropTx p) = Some e' -> Good e'.
Proof.
  inv_intro. cases. injection H as <-. pose proof (Hh p) as K. rewrite (hget_some _ _ _ E0), E0 in K. good_split.
  - apply handle_ok_set; [assumption|]. now apply hok1_tx_dropped.
  - eapply portq_ok_same_rx; eauto.
Qed.

Lemma step_NTx e p e' : Good e -> step_opt e (NTx p) = Some e' -> Good e'.
Proof.
  intros HG H. unfold step_opt in H. cases. injection H as <-.
  apply (Good_hset_push e p h); auto; [neutral_other|now apply hok1_tx_queued].
Qed.

Lemma step_NRx e p e' : Good e -> step_opt e (NRx p) = Some e' -> Good e'.
Proof.
  intros HG H. unfold step_opt in H. cases. injection H as <-.
  apply (Good_hset_push e p h); auto; [prj; now rewrite E1|neutral_other|now apply hok1_rx_queued].
Qed.

Definition queued_of (st : option pstate) : list N :=
  match st with Some (Connected c) => flat_map snd (rxq c) | _ => [] end.
Lemma pq_ent_alive hs k st : is_alive (h_rx (hget hs k)) = true -> pq_ent hs k st = queued_of st.
Proof. unfold pq_ent, queued_of. intros ->. reflexivity. Qed.
Lemma pq_ent_dead hs k st : is_alive (h_rx (hget hs k)) = false -> pq_ent hs k st = [].
Proof. unfold pq_ent. intros ->. now destruct st as [[|]|]. Qed.

Lemma portq_queued hs pt reqs p r :
  NoDup (map fst pt) -> portq_ok hs pt reqs -> is_alive (h_rx (hget hs p)) = true ->
  occ r (queued_of (lookup p pt)) <= b2n (is_portq (lookup r reqs)).
Proof.
  intros Hn H Ha. specialize (H r).
  pose proof (portq_reqs_remove hs r p pt Hn) as T.
  rewrite (pq_ent_alive _ _ _ Ha) in T. lia.
Qed.

Lemma step_UDropRx e p e' : Good e -> step_opt e (UDropRx p) = Some e' -> Good e'.
Proof.
  inv_intro. cases. injection H as <-.
  assert (Ha : is_alive (h_rx (hget (handles e) p)) = true) by (rewrite (hget_some _ _ _ E0), E1; reflexivity).
  change (match lookup p (ports (mx e)) with Some (Connected c) => flat_map snd (rxq c) | _ => [] end)
    with (queued_of (lookup p (ports (mx e)))).
  good_split.
  - intros r. specialize (Hreq r). rewrite lookup_fold_insert.
    pose proof (portq_queued _ _ _ p r Hkeys Hpq Ha) as Q.
    destruct (mem r (queued_of (lookup p (ports (mx e))))) eqn:Em; [|exact Hreq].
    apply occ_pos_mem in Em. destruct (lookup r (requests e)) as [[]|]; cbn [is_portq b2n] in Q; try (clear - Em Q; lia). exact Hreq.
  - apply handle_ok_set; [assumption|]. apply hok1_rx_dropped; [assumption|].
    pose proof (Hh p) as K. now rewrite (hget_some _ _ _ E0), E0 in K.
  - intros r. rewrite lookup_fold_insert. pose proof (Hpq r) as Hr.
    pose proof (portq_queued _ _ _ p r Hkeys Hpq Ha) as Q. unfold portq_reqs in *.
    pose proof (tab_change (pq_ent (handles e)) (pq_ent (insert p (h <| h_rx := Dropped |>) (handles e))) r p _ Hkeys
                  (pq_ent_None _) (pq_ent_None _) (pq_ent_other _ _ _)) as T.
    rewrite (pq_ent_alive _ _ _ Ha) in T. rewrite pq_ent_dead in T by (rewrite hget_insert, N.eqb_refl; reflexivity).
    rewrite occ_nil in T.
    clear - Q Hr T. pose proof (b2n_le1 (is_portq (lookup r (requests e)))).
    destruct (mem r (queued_of (lookup p (ports (mx e))))) eqn:Em.
    + apply occ_pos_mem in Em. cbn [is_portq b2n]. lia.
    + apply occ_mem in Em. lia.
Qed.

Lemma step_UTerminate e e' : Good e -> step_opt e UTerminate = Some e' -> Good e'.
Proof. inv_intro. cases. injection H as <-. good_split. Qed.

Lemma step_UDropClients e e' : Good e -> step_opt e UDropClients = Some e' -> Good e'.
Proof. inv_intro. cases. injection H as <-. good_split. Qed.

Lemma step_USendData e p f l n e' : Good e -> step_opt e (USendData p f l n) = Some e' -> Good e'.
Proof. inv_intro. cases. injection H as <-. good_split. Qed.

Lemma step_UReturnCredits e p n e' : Good e -> step_opt e (UReturnCredits p n) = Some e' -> Good e'.
Proof. inv_intro. cases. injection H as <-. good_split. Qed.

Lemma req_ok_set out reqs chq r s s' :
  lookup r reqs = Some s -> is_answered (Some s') = is_answered (Some s) ->
  req_ok out reqs chq -> req_ok out (insert r s' reqs) chq.
Proof.
  intros Hl Ha H r0. specialize (H r0). rewrite lookup_insert. destruct (r0 =? r) eqn:E; [|exact H].
  apply N.eqb_eq in E. subst r0. rewrite Hl in H. rewrite Ha. exact H.
Qed.
Lemma req_ok_answer out reqs chq r s ev :
  lookup r reqs = Some s -> is_answered (Some s) = false -> (forall r0, is_reply r0 ev = (r =? r0)) ->
  req_ok out reqs chq -> req_ok out (insert r RAnswered reqs) (chq ++ [ev]).
Proof.
  intros Hl Ha Hev H r0. specialize (H r0). rewrite lookup_insert, count_snoc, Hev, (N.eqb_sym r r0).
  destruct (r0 =? r) eqn:E; cbn [b2n]; [|rewrite N.add_0_r; exact H].
  apply N.eqb_eq in E. subst r0. rewrite Hl in H. rewrite Ha in H. cbn [is_answered is_some b2n] in *. split; [lia|tauto].
Qed.
Lemma portq_ok_set hs pt reqs r o s' :
  lookup r reqs = o -> is_portq o = false -> is_portq (Some s') = false ->
  portq_ok hs pt reqs -> portq_ok hs pt (insert r s' reqs).
Proof.
  intros Hl Ha Hb H r0. specialize (H r0). rewrite lookup_insert. destruct (r0 =? r) eqn:E; [|exact H].
  apply N.eqb_eq in E. subst r0 o. rewrite Ha in H. rewrite Hb. exact H.
Qed.

Lemma step_UListenerTake e r e' : Good e -> step_opt e (UListenerTake r) = Some e' -> Good e'.
Proof.
  inv_intro. cases. injection H as <-.
  match goal with E : lookup r _ = Some (RListenQ ?w) |- _ => rename w into b end.
  assert (lq_ok (if b then mx e <| lq_wait := lq_wait (mx e) - 1 |> else mx e <| lq_nowait := lq_nowait (mx e) - 1 |>)) as Hlq'.
  { clear - Hlq. destruct Hlq. destruct b; split; prj; lia. }
  destruct b; good_split; try (eapply req_ok_set; eauto); try (eapply portq_ok_set; eauto).
Qed.

Lemma step_UAccept e r p e' : Good e -> step_opt e (UAccept r p) = Some e' -> Good e'.
Proof.
  inv_intro. cases. destruct (fresh_alloc e p E2 Hnd Hlen) as (A1 & A2 & A3). injection H as <-. good_split.
  - now apply (num_ok_new_chq (alloc e)).
  - eapply req_ok_answer; eauto.
  - eapply portq_ok_set; eauto.
Qed.

Lemma step_UReject e r np e' : Good e -> step_opt e (UReject r np) = Some e' -> Good e'.
Proof.
  inv_intro. cases. injection H as <-. good_split.
  - eapply req_ok_answer; eauto.
  - eapply portq_ok_set; eauto.
Qed.

Lemma step_NReq e r e' : Good e -> step_opt e (NReq r) = Some e' -> Good e'.
Proof.
  inv_intro. cases. injection H as <-. good_split.
  - eapply req_ok_answer; eauto.
  - eapply portq_ok_set; eauto.
Qed.

Lemma step_UDropRequest e r e' : Good e -> step_opt e (UDropRequest r) = Some e' -> Good e'.
Proof.
  inv_intro. cases. injection H as <-. good_split.
  - eapply req_ok_set; eauto.
  - eapply portq_ok_set; eauto.
Qed.

Definition drop_listenq (s : rlife) : rlife := match s with RListenQ _ => RDropped | s => s end.
Lemma lookup_map_drop r (l : list (N * rlife)) :
  lookup r (map (fun x => match snd x with RListenQ _ => (fst x, RDropped) | _ => x end) l) = option_map drop_listenq (lookup r l).
Proof. apply lookup_map. now intros [k []]. Qed.

Lemma step_UDropListener e e' : Good e -> step_opt e UDropListener = Some e' -> Good e'.
Proof.
  inv_intro. cases. injection H as <-. good_split.
  - intros r. specialize (Hreq r). rewrite lookup_map_drop. destruct (lookup r (requests e)) as [[]|]; exact Hreq.
  - intros r. specialize (Hpq r). rewrite lookup_map_drop. destruct (lookup r (requests e)) as [[]|]; exact Hpq.
  - clear. split; prj; lia.
Qed.

Lemma count_zero_tail {A} (f : A -> bool) x l : count f l <= count f (x :: l).
Proof. rewrite count_cons. lia. Qed.

Lemma step_UConsume e p e' : Good e -> step_opt e (UConsume p) = Some e' -> Good e'.
Proof.
  inv_intro. cases. injection H as <-.
  match goal with E : rxq ?c = (?x, ?rs) :: ?q |- _ => rename c into c0; rename x into x0; rename rs into rs0; rename q into q0; rename E into Eq end.
  match goal with E : h_rx h = Alive |- _ => rename E into Erx end.
  assert (Ha : is_alive (h_rx (hget (handles e) p)) = true) by (rewrite (hget_some _ _ _ E0), Erx; reflexivity).
  assert (Hq : forall r, occ r rs0 + occ r (flat_map snd q0) <= b2n (is_portq (lookup r (requests e)))).
  { intros r. pose proof (portq_queued _ _ _ p r Hkeys Hpq Ha) as Q. rewrite E1 in Q. cbn [queued_of] in Q.
    rewrite Eq in Q. cbn [flat_map snd] in Q. rewrite occ_app in Q. exact Q. }
  good_split.
  - eapply num_ok_upd; eauto.
  - intros r. specialize (Hreq r). specialize (Hq r). rewrite lookup_fold_insert.
    destruct (mem r rs0) eqn:Em; [|exact Hreq].
    apply occ_pos_mem in Em. destruct (lookup r (requests e)) as [[]|]; cbn [is_portq b2n] in Hq; try (clear - Em Hq; lia). exact Hreq.
  - eapply handle_ok_upd; eauto.
  - intros r. specialize (Hq r). rewrite lookup_fold_insert. pose proof (Hpq r) as Hr. unfold portq_reqs in *.
    pose proof (tab_insert (pq_ent (handles e)) r p (Connected (c0 <| rxq := q0 |>)) _ Hkeys (pq_ent_None _)) as T.
    rewrite !(pq_ent_alive _ _ _ Ha), E1 in T. cbn [queued_of] in T. prj. rewrite Eq in T. cbn [flat_map snd] in T.
    rewrite occ_app in T.
    clear - Hq Hr T. pose proof (b2n_le1 (is_portq (lookup r (requests e)))).
    destruct (mem r rs0) eqn:Em.
    + apply occ_pos_mem in Em. cbn [is_portq b2n]. lia.
    + apply occ_mem in Em. lia.
  - apply buf_ok_upd; [assumption|]. destruct (Hbuf _ _ E1) as (B1 & B2 & B3). unfold used, all4 in *. prj.
    rewrite Eq in *. cbn [map fst sum] in B1. rewrite count_cons in B2. clear - B1 B2 B3. repeat split; try lia. exact B3.
  - now apply NoDup_keys_insert.
  - intros Hg. apply conn_ok_insert; [assumption|now rewrite E1|auto].
Qed.
