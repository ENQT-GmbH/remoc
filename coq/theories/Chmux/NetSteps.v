(** The composed invariant [Sys] is kept by every local step of one endpoint. *)
From Remoc Require Import Lib.Base Chmux.Mux Chmux.Endpoint Chmux.EndpointLemmas Chmux.EndpointInv Chmux.EndpointSteps
  Chmux.EndpointProofs Chmux.Net Chmux.NetInv Chmux.NetShape Chmux.NetLocal2 Chmux.NetLocal Chmux.NetStepLocal.

Lemma enabled_Inv e a e' : WF e -> step_opt e a = Some e' -> Inv e /\ dead e = None.
Proof.
  intros Hw H. destruct (alive_spec _ (step_alive _ _ _ H)) as (Hd & _). split; [apply (wf_inv _ Hw Hd)|exact Hd].
Qed.

Lemma handle_tx_alive e p h c :
  Inv e -> lookup p (handles e) = Some h -> h_tx h = Alive -> lookup p (ports (mx e)) = Some (Connected c) ->
  tx_dropped c = false /\ count (is_sd p) (chq e) = 0.
Proof.
  intros Hi Hh Ha Hl. pose proof (inv_h _ Hi p) as H. unfold hok1 in H. rewrite Hl, (hget_some _ _ _ Hh), Ha in H.
  destruct H as (H1 & _ & _ & _ & _ & _ & H6 & _). cbn [is_queued is_gone b2n] in *. auto.
Qed.
Lemma handle_rx_alive e p h c :
  Inv e -> lookup p (handles e) = Some h -> h_rx h = Alive -> lookup p (ports (mx e)) = Some (Connected c) ->
  rx_dropped c = false /\ count (is_rd p) (chq e) = 0.
Proof.
  intros Hi Hh Ha Hl. pose proof (inv_h _ Hi p) as H. unfold hok1 in H. rewrite Hl, (hget_some _ _ _ Hh), Ha in H.
  destruct H as (_ & H2 & _ & _ & _ & _ & _ & H7 & _). cbn [is_queued is_gone b2n] in *. auto.
Qed.

Lemma chq_ok_pushed e a e' : step_opt e a = Some e' -> Inv e -> inj_ok (ports (mx e)) ->
  chq_ok (ports (mx e)) (chq e) -> chq_ok (ports (mx e)) (chq e ++ pushed e a).
Proof.
  intros H Hi Hinj Hq. destruct a; cbn [pushed]; rewrite ?app_nil_r; try exact Hq; try (apply chq_ok_push_other; auto; fail);
    open_step H; unfold remote_of in *;
    (destruct (lookup _ (handles e)) as [h|] eqn:Eh; [|discriminate]);
    (destruct (lookup _ (ports (mx e))) as [[r|c]|] eqn:El; try discriminate).
  - destruct (h_tx h) eqn:Ea; try discriminate. destruct (handle_tx_alive _ _ _ _ Hi Eh Ea El) as [T1 T2].
    apply (chq_ok_push_send _ _ _ _ _ Hq Hinj El T1 T2); cbn [ev_sends]; [apply N.eqb_refl| |reflexivity].
    intros y Hy. apply N.eqb_neq. congruence.
  - destruct (h_tx h) eqn:Ea; try discriminate. destruct (handle_tx_alive _ _ _ _ Hi Eh Ea El) as [T1 T2].
    apply (chq_ok_push_send _ _ _ _ _ Hq Hinj El T1 T2); cbn [ev_sends]; [apply N.eqb_refl| |reflexivity].
    intros y Hy. apply N.eqb_neq. congruence.
  - destruct (h_rx h) eqn:Ea; try discriminate. destruct (handle_rx_alive _ _ _ _ Hi Eh Ea El) as [T1 T2].
    exact (chq_ok_push_cred _ _ _ _ _ Hq Hinj El T1 T2).
Qed.

Lemma sys_of_coreM X X' Y L L' fs :
  WF X' -> WF Y -> sent X' = sent X ++ fs -> CoreM (mx X') (chq X') Y (L ++ fs) L' -> Sys X' Y (L ++ new_frames X X') L'.
Proof. intros Hw Hy Hs HC. rewrite (new_frames_app _ _ _ Hs). split; [exact Hw|split; [exact Hy|exact HC]]. Qed.

Theorem sys_local X Y L L' a X' :
  Sys X Y L L' -> is_recv a = false -> step_opt X a = Some X' -> Sys X' Y (L ++ new_frames X X') L' /\ dead X' = dead X.
Proof.
  intros HS Hr H. pose proof HS as (Hwx & Hwy & HC). pose proof (WF_step _ _ _ Hwx H) as Hw'.
  destruct (enabled_Inv _ _ _ Hwx H) as [Hi Hd].
  pose proof (c_chx _ _ _ _ _ _ _ _ HC) as Hq. pose proof (c_injx _ _ _ _ _ _ _ _ HC) as Hinj.
  destruct (is_disp a) eqn:Ed.
  { destruct (step_done _ _ _ H Ed (wf_nopanic _ Hw')) as (ev & m & effs & Hev & He & _ & E1 & E2 & E3 & E4). split; [|exact E4].
    eapply sys_of_coreM; [exact Hw'|exact Hwy|exact E3|]. rewrite E1, E2, pre_finish_chq.
    destruct (inv_qs _ Hi) as [Hqc Hqp]. destruct a; try discriminate; cbn [disp_ev] in Hev.
    - destruct (chq X) as [|ev0 q] eqn:Eq; [discriminate|]. injection Hev as ->. cbn [tl].
      assert (HC0 : CoreM (mx X) (ev :: q) Y L L') by exact HC.
      cbn [forallb] in Hqp. apply andb_true_iff in Hqp as [Hp _]. destruct ev; try discriminate.
      + assert (Hl : lookup local (ports (mx X)) = None).
        { pose proof (inv_num _ Hi local) as Hn. rewrite Eq, q_nums_cons in Hn. cbn [ev_nums app] in Hn.
          rewrite occ_cons, N.eqb_refl in Hn. cbn [b2n] in Hn. pose proof (b2n_le1 (mem local (alloc X))).
          destruct (lookup local (ports (mx X))); [cbn [isK] in Hn; lia|reflexivity]. }
        eapply ev_Accepted; eauto.
      + eapply ev_Rejected; eauto.
      + eapply ev_SendData; eauto.
      + eapply ev_SendPorts; eauto.
      + eapply ev_ReturnCredits; eauto.
      + eapply ev_SenderDropped; eauto.
      + eapply ev_ReceiverClosed; eauto.
      + eapply ev_ReceiverDropped; eauto.
    - destruct (cq X) as [|ev0 q]; [discriminate|]. injection Hev as ->.
      cbn [forallb] in Hqc. apply andb_true_iff in Hqc as [Hp _]. destruct ev; try discriminate.
      + eapply ev_ConnectReq; eauto.
      + exact (ev_global _ _ _ _ _ _ _ _ (or_introl eq_refl) HC He).
    - injection Hev as <-. exact (ev_global _ _ _ _ _ _ _ _ (or_intror (or_introl eq_refl)) HC He).
    - injection Hev as <-. exact (ev_global _ _ _ _ _ _ _ _ (or_intror (or_intror eq_refl)) HC He). }
  destruct (view_user _ _ _ H Ed Hr) as (E2 & E3 & E4 & E5 & Hp & _). split; [|exact E5].
  rewrite (new_frames_same _ _ E4), app_nil_r. split; [exact Hw'|split; [exact Hwy|]]. rewrite E2, E3.
  pose proof (core_chq _ _ _ _ _ _ _ _ _ HC (chq_ok_pushed _ _ _ H Hi Hinj Hq)) as HC'.
  destruct a; try (rewrite Hp; exact HC').
  destruct Hp as (c & q0 & x0 & A1 & A2 & A3). rewrite A3.
  eapply core_flags; [exact HC'|exact A1|apply lookup_insert_eq|intros k Hk; apply lookup_insert_ne, Hk| |reflexivity].
  unfold flags_eq. prj. auto 10.
Qed.
