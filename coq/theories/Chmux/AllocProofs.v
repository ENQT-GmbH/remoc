(** Proofs about the port-number allocator model ([Chmux/Alloc.v]): the number bound and the absence of lost
    wake-ups, for every action list (any interleaving of allocations, releases, polls -- spurious ones
    included -- and cancellations). *)
From Remoc Require Import Lib.Base Chmux.Alloc.
From RecordUpdate Require Import RecordUpdate.

(** projections and setters of the allocator state *)
Ltac prj := cbn [limit used reg futs next set RecordSet.set] in *.

Lemma flookup_fremove id id' l : flookup id (fremove id' l) = if id' =? id then None else flookup id l.
Proof.
  induction l as [|[k v] l IH]; cbn [fremove flookup].
  - destruct (id' =? id); reflexivity.
  - destruct (k =? id') eqn:E1.
    + rewrite IH. apply N.eqb_eq in E1. subst. destruct (id' =? id); reflexivity.
    + cbn [flookup]. rewrite IH. destruct (k =? id) eqn:E2; [|reflexivity].
      apply N.eqb_eq in E2. subst. rewrite N.eqb_sym, E1. reflexivity.
Qed.

Lemma flookup_fset id id' v l : flookup id (fset id' v l) = if id' =? id then Some v else flookup id l.
Proof. unfold fset. cbn [flookup]. rewrite flookup_fremove. destruct (id' =? id); reflexivity. Qed.

Lemma existsb_eqb id rg : existsb (N.eqb id) rg = true <-> In id rg.
Proof.
  rewrite existsb_exists. split.
  - intros [x [Hx E]]. apply N.eqb_eq in E. subst. exact Hx.
  - intros H. exists id. split; [exact H|apply N.eqb_refl].
Qed.

Lemma flookup_notify_all id rg l :
  flookup id (notify_all rg l) =
  match flookup id l with None => None | Some v => if existsb (N.eqb id) rg then Some FNotified else Some v end.
Proof.
  induction l as [|[k v] l IH]; cbn [notify_all map flookup fst]; [reflexivity|].
  fold (notify_all rg l).
  destruct (existsb (N.eqb k) rg) eqn:Ek; cbn [flookup]; destruct (k =? id) eqn:E; try exact IH.
  - apply N.eqb_eq in E. subst. rewrite Ek. reflexivity.
  - apply N.eqb_eq in E. subst. rewrite Ek. reflexivity.
Qed.

Definition Inv (a : alloc) : Prop :=
  used a <= limit a /\ (reg a <> [] -> used a = limit a) /\
  (forall id, flookup id (futs a) = Some FWaiting -> In id (reg a)).

Lemma Inv_init lim : Inv (init lim).
Proof. unfold Inv, init; prj. repeat split; try lia; try congruence. cbn. congruence. Qed.

Lemma free_no_reg a : Inv a -> used a < limit a -> reg a = [].
Proof. intros (_ & H2 & _) Hl. destruct (reg a) eqn:E; [reflexivity|]. assert (used a = limit a) by (apply H2; congruence). lia. Qed.

Lemma Inv_register a id : Inv a -> ~ used a < limit a ->
  Inv (a <| reg := reg a ++ [id] |> <| futs := fset id FWaiting (futs a) |>).
Proof.
  intros (H1 & H2 & H3) Hf. unfold Inv; prj. repeat split; [exact H1|intros _; lia|].
  intros id0. rewrite flookup_fset. destruct (id =? id0) eqn:E.
  - apply N.eqb_eq in E. subst. intros _. apply in_or_app. right. left. reflexivity.
  - intros H. apply in_or_app. left. apply H3. exact H.
Qed.

Lemma Inv_take a : Inv a -> used a < limit a -> Inv (a <| used := used a + 1 |>).
Proof.
  intros HI Hl. pose proof (free_no_reg a HI Hl) as Hr. destruct HI as (H1 & H2 & H3).
  unfold Inv; prj. repeat split; [lia|rewrite Hr; congruence|exact H3].
Qed.

(** futures may go, and notified ones may change, as long as no new one waits *)
Lemma Inv_futs a l' : Inv a ->
  (forall id, flookup id l' = Some FWaiting -> flookup id (futs a) = Some FWaiting) -> Inv (a <| futs := l' |>).
Proof. intros (H1 & H2 & H3) Hsub. unfold Inv; prj. repeat split; auto. Qed.

Theorem Inv_step a x : Inv a -> Inv (fst (step a x)).
Proof.
  intros HI. destruct x as [|id|id|id|]; cbn [step].
  - destruct (used a <? limit a) eqn:E; cbn [fst]; [apply Inv_take; [exact HI|lia]|exact HI].
  - destruct (id <? next a) eqn:En; cbn [fst]; [exact HI|].
    (* [Inv] does not look at [next] *)
    change (Inv (a <| next := id + 1 |>)) in HI. set (b := a <| next := id + 1 |>) in *.
    destruct (used b <? limit b) eqn:E; cbn [fst]; [apply Inv_take|apply Inv_register]; auto; lia.
  - destruct (flookup id (futs a)) as [[|]|] eqn:Ef; cbn [fst]; try exact HI.
    destruct (used a <? limit a) eqn:E; cbn [fst]; [|apply Inv_register; [exact HI|lia]].
    apply (Inv_futs (a <| used := used a + 1 |>)); [apply Inv_take; [exact HI|lia]|].
    intros id0. prj. rewrite flookup_fremove. destruct (id =? id0); congruence.
  - destruct (flookup id (futs a)) eqn:Ef; cbn [fst]; [|exact HI].
    apply Inv_futs; [exact HI|]. intros id0. rewrite flookup_fremove. destruct (id =? id0); congruence.
  - destruct (used a =? 0) eqn:E; cbn [fst]; [exact HI|].
    destruct HI as (H1 & H2 & H3). unfold Inv; prj. repeat split; [lia|congruence|].
    intros id0. rewrite flookup_notify_all. destruct (flookup id0 (futs a)) as [v|] eqn:Ef; [|congruence].
    destruct (existsb (N.eqb id0) (reg a)) eqn:Ex; [congruence|].
    intros Hv. injection Hv as ->. apply H3 in Ef. apply existsb_eqb in Ef. congruence.
Qed.

Theorem Inv_run xs : forall a, Inv a -> Inv (run a xs).
Proof. induction xs as [|x xs IH]; intros a HI; cbn [run]; [exact HI|]. apply IH, Inv_step, HI. Qed.

Theorem used_le_limit lim xs : used (run (init lim) xs) <= limit (run (init lim) xs).
Proof. exact (proj1 (Inv_run xs _ (Inv_init lim))). Qed.

Lemma limit_step a x : limit (fst (step a x)) = limit a.
Proof.
  destruct x as [|id|id|id|]; cbn [step].
  - destruct (used a <? limit a); reflexivity.
  - destruct (id <? next a); [reflexivity|]. prj. destruct (used a <? limit a); reflexivity.
  - destruct (flookup id (futs a)) as [[|]|]; try reflexivity. destruct (used a <? limit a); reflexivity.
  - destruct (flookup id (futs a)); reflexivity.
  - destruct (used a =? 0); reflexivity.
Qed.
Lemma limit_run xs : forall a, limit (run a xs) = limit a.
Proof. induction xs as [|x xs IH]; intros a; cbn [run]; [reflexivity|]. rewrite IH. apply limit_step. Qed.

(** NO LOST WAKE-UP: in every reachable state in which a number is free, every pending [allocate()] future
    has been woken (its next poll retries); none sleeps on a notifier that will not fire *)
Theorem no_lost_wakeup lim xs id st :
  let a := run (init lim) xs in
  used a < limit a -> flookup id (futs a) = Some st -> st = FNotified.
Proof.
  intros a Hl Hf. pose proof (Inv_run xs _ (Inv_init lim)) as HI. fold a in HI.
  pose proof (free_no_reg a HI Hl) as Hr. destruct HI as (_ & _ & H3).
  destruct st; [|reflexivity]. apply H3 in Hf. rewrite Hr in Hf. destruct Hf.
Qed.

Theorem woken_takes a id : flookup id (futs a) = Some FNotified -> used a < limit a ->
  snd (step a (APoll id)) = [1] /\ used (fst (step a (APoll id))) = used a + 1 /\
  flookup id (futs (fst (step a (APoll id)))) = None.
Proof.
  intros Hf Hl. cbn [step]. rewrite Hf. assert (used a <? limit a = true) as -> by lia. cbn [fst snd]. prj.
  repeat split. rewrite flookup_fremove, N.eqb_refl. reflexivity.
Qed.

