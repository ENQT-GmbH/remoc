(** Main results about the composition of two honest endpoints ([Net.v]): the invariant [NetInv]
    holds in every reachable state in which no protocol error has occurred; consequences for the
    pairing of ports (C10) and for the protocol errors that can occur at all. *)
From Remoc Require Import Lib.Base Chmux.Wire Chmux.Mux Chmux.Endpoint Chmux.EndpointLemmas Chmux.EndpointInv
  Chmux.EndpointRecv Chmux.EndpointProofs Chmux.Net Chmux.NetInv Chmux.NetFrame Chmux.NetShape Chmux.NetSteps
  Chmux.NetRecvStep.

Theorem sys_recv X Y L0 L' msg pl Y' :
  Sys X Y ((msg, pl) :: L0) L' -> step_opt Y (Recv msg (paylen_of pl)) = Some Y' ->
  (dead Y' = None -> Sys X Y' L0 L') /\ (forall err, dead Y' = Some err -> flow_class err = true).
Proof.
  intros (Hwx & Hwy & HC) H. pose proof (WF_step _ _ _ Hwy H) as Hw'. destruct (enabled_Inv _ _ _ Hwy H) as [_ Hd].
  pose proof (view_Recv _ _ _ _ H) as Hv. unfold recv_view in Hv.
  destruct (recv_mux_view Y) as [E1 E2].
  assert (Hbuf : forall y c, lookup y (ports (recv_mux Y)) = Some (Connected c) -> all4 c = false).
  { rewrite E1. intros y c Hl. apply (wf_buf _ Hwy _ _ Hl). }
  pose proof (recv_all (chq Y) L0 L' X (recv_mux Y) pl (paylen_of pl) Hbuf msg) as Hr. unfold recv_ok, CoreR in Hr.
  rewrite E1, E2 in Hr. specialize (Hr HC).
  destruct (handle_received (recv_mux Y) msg (paylen_of pl)) as [m' effs|err effs|s].
  - destruct Hv as (V1 & V2 & V3 & V4). split.
    + intros _. split; [exact Hwx|split; [exact Hw'|]]. now rewrite V1, V2.
    + intros err He. congruence.
  - split; [congruence|]. intros err' He. assert (err' = err) by congruence. now subst.
  - pose proof (wf_nopanic _ Hw'). congruence.
Qed.

Lemma Core_init : Core [] [] [] [] [] [] [] [].
Proof.
  constructor; try reflexivity.
  - intros y. cbn. auto.
  - intros y. cbn. auto.
  - intros p1 p2 c1 c2 H. discriminate.
  - intros p1 p2 c1 c2 H. discriminate.
  - intros p c H. discriminate.
  - intros p c H. discriminate.
  - constructor; [intros y H; cbn in H; lia|intros y H; cbn in H; lia|intros x c H; discriminate].
  - constructor; [intros y H; cbn in H; lia|intros y H; cbn in H; lia|intros x c H; discriminate].
Qed.

Theorem NetInv_init c : NetInv (net_init c).
Proof.
  unfold NetInv, net_init, Sys. cbn [na nb lab lba]. split; [apply WF_init|split; [apply WF_init|]]. apply Core_init.
Qed.

Theorem NetInv_step n a :
  NetInv n ->
  (healthy (nstep n a) -> NetInv (nstep n a)) /\
  (forall err, dead (na (nstep n a)) = Some err \/ dead (nb (nstep n a)) = Some err ->
     healthy n -> flow_class err = true).
Proof.
  unfold NetInv, healthy. intros HS. split.
  - intros [D1 D2]. revert D1 D2.
    apply (nstep_cases Sys (fun X Y L L' => dead X = None -> dead Y = None -> Sys X Y L L')); auto using Sys_sym.
    + intros X Y L L' a0 X' H Hr E _ _. eapply sys_local; eauto.
    + intros X Y m pl L0 L' Y' H E _ D. eapply sys_recv; eauto.
  - intros err He [D1 D2]. revert err He.
    apply (nstep_cases (fun X Y L L' => Sys X Y L L' /\ dead X = None /\ dead Y = None)
                       (fun X Y _ _ => forall err, dead X = Some err \/ dead Y = Some err -> flow_class err = true)); auto.
    + intros X Y L L' (H & A & B). auto using Sys_sym.
    + intros X Y _ _ H err [E|E]; eauto.
    + intros X Y _ _ (_ & A & B) err [E|E]; congruence.
    + intros X Y L L' a0 X' (H & A & B) Hr E err. destruct (sys_local _ _ _ _ _ _ H Hr E) as [_ Hd]. intros [F|F]; congruence.
    + intros X Y m pl L0 L' Y' (H & A & B) E err [F|F]; [congruence|]. eapply sys_recv; eauto.
Qed.

(** C10: "no protocol error so far implies the invariant" holds initially and is kept by every step, an error being permanent *)
Theorem NetInv_reach c acts : healthy (nreach c acts) -> NetInv (nreach c acts).
Proof.
  unfold nreach, nrun. apply (fold_left_inv nstep (fun n => healthy n -> NetInv n)); [|intros _; apply NetInv_init].
  intros n a IH [D1 D2]. revert IH D1 D2. unfold NetInv, healthy.
  assert (Hm : forall e b e', step_opt e b = Some e' -> dead e' = None -> dead e = None).
  { intros e b e' E D. apply (step_dead_mono e b). unfold step. now rewrite E. }
  apply (nstep_cases (fun X Y L L' => dead X = None /\ dead Y = None -> Sys X Y L L')
                     (fun X Y L L' => dead X = None -> dead Y = None -> Sys X Y L L')).
  - intros X Y L L' H [D1 D2]. apply Sys_sym. auto.
  - intros X Y L L' H D1 D2. apply Sys_sym. auto.
  - auto.
  - intros X Y L L' a0 X' H Hr E D1 D2. exact (proj1 (sys_local _ _ _ _ _ _ (H (conj (Hm _ _ _ E D1) D2)) Hr E)).
  - intros X Y m pl L0 L' Y' H E D1 D2. exact (proj1 (sys_recv _ _ _ _ _ _ _ (H (conj D1 (Hm _ _ _ E D2))) E) D2).
Qed.

Theorem first_error_flow c acts a err :
  healthy (nreach c acts) ->
  dead (na (nstep (nreach c acts) a)) = Some err \/ dead (nb (nstep (nreach c acts) a)) = Some err ->
  flow_class err = true.
Proof. intros Hh He. eapply (NetInv_step _ a); eauto. now apply NetInv_reach. Qed.

(** the three situations of a connected port [p] of X (remote [q]) with respect to Y *)
Definition paired_or (PY : list (N * pstate)) (Lxy Lyx : list frame) (p : N) (cX : conn) : Prop :=
  (exists cY, lookup (remote cX) PY = Some (Connected cY) /\ remote cY = p) \/
  (exists r pl, lookup (remote cX) PY = Some (Connecting r) /\ In (PortOpened (remote cX) p, pl) Lxy) \/
  (tx_dropped cX = true /\ rx_dropped cX = true /\
   cnt (m_sf p) Lyx + b2n (negb (rx_open cX)) = 1 /\ cnt (m_rf p) Lyx + b2n (rrx_dropped cX) = 1 /\
   forall cY, lookup (remote cX) PY = Some (Connected cY) -> remote cY <> p).

Lemma pairing_dir X Y L L' p cX :
  Sys X Y L L' -> lookup p (ports (mx X)) = Some (Connected cX) -> paired_or (ports (mx Y)) L L' p cX.
Proof.
  intros (_ & _ & HC) Hl. pose proof (c_yx _ _ _ _ _ _ _ _ HC p) as Hp. unfold rx_clause in Hp. rewrite Hl in Hp.
  destruct Hp as (_ & _ & _ & _ & Hr & _). unfold paired_or.
  destruct (pstat (ports (mx Y)) L (remote cX) p) as [| |cY] eqn:Es.
  - right. right. destruct (r_gone _ _ _ _ Hr eq_refl) as [G1 G2]. pose proof (r_sf _ _ _ _ Hr) as S1. pose proof (r_rf _ _ _ _ Hr) as S2.
    cbn [txf rxf b2n] in S1, S2. repeat split; auto.
    intros cY HY E. rewrite (pstat_live_intro _ _ _ _ _ HY E) in Es. discriminate.
  - right. left. apply pstat_pend in Es as [(r & Hr') Hc]. apply cnt_pos_In in Hc as ([m pl] & Hin & Hm). cbn [fst] in Hm.
    destruct m; try discriminate. cbn [m_pox] in Hm. apply andb_true_iff in Hm as [M1 M2]. apply N.eqb_eq in M1, M2. subst.
    exists r, pl. auto.
  - left. apply pstat_live in Es as [E1 E2]. eauto.
Qed.

Theorem pairing c acts :
  let n := nreach c acts in
  healthy n ->
  (forall p cA, lookup p (ports (mx (na n))) = Some (Connected cA) -> paired_or (ports (mx (nb n))) (lab n) (lba n) p cA) /\
  (forall q cB, lookup q (ports (mx (nb n))) = Some (Connected cB) -> paired_or (ports (mx (na n))) (lba n) (lab n) q cB) /\
  inj_ok (ports (mx (na n))) /\ inj_ok (ports (mx (nb n))).
Proof.
  intros n Hh. pose proof (NetInv_reach c acts Hh) as HS. fold n in HS. unfold NetInv in HS. repeat split.
  - intros p cA Hl. eapply pairing_dir; eauto.
  - intros q cB Hl. eapply pairing_dir; [apply Sys_sym; exact HS|exact Hl].
  - destruct HS as (_ & _ & HC). eapply c_injx; eauto.
  - destruct HS as (_ & _ & HC). eapply c_injy; eauto.
Qed.

Corollary paired_exclusive c acts p q cA cB :
  let n := nreach c acts in
  healthy n ->
  lookup p (ports (mx (na n))) = Some (Connected cA) -> remote cA = q ->
  lookup q (ports (mx (nb n))) = Some (Connected cB) -> remote cB = p ->
  (forall p' c', lookup p' (ports (mx (na n))) = Some (Connected c') -> remote c' = q -> p' = p) /\
  (forall q' c', lookup q' (ports (mx (nb n))) = Some (Connected c') -> remote c' = p -> q' = q).
Proof.
  intros n Hh HA EA HB EB. destruct (pairing c acts Hh) as (_ & _ & IA & IB). fold n in IA, IB. split.
  - intros p' c' H E. eapply IA; eauto. congruence.
  - intros q' c' H E. eapply IB; eauto. congruence.
Qed.

Theorem WF_net c acts : WF (na (nreach c acts)) /\ WF (nb (nreach c acts)).
Proof.
  unfold nreach, nrun. apply (fold_left_inv nstep (fun n => WF (na n) /\ WF (nb n))); [|split; apply WF_init].
  intros n a. apply (nstep_cases (fun X Y _ _ => WF X /\ WF Y) (fun X Y _ _ => WF X /\ WF Y)); try tauto.
  - intros X Y _ _ a0 X' [H1 H2] _ E. split; [exact (WF_step _ _ _ H1 E)|exact H2].
  - intros X Y m pl _ _ Y' [H1 H2] E. split; [exact H1|exact (WF_step _ _ _ H2 E)].
Qed.
