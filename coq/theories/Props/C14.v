(** C14 -- Mirrors and subscriptions never diverge silently.
    Statements, their derivation from the lemmas of the proof files, and assumption printing.

    Models: [Robs/Mirror.v] -- one observable collection (generic in the kind: vector, deque, hash map,
    hash set through the interface of their C13 models, [Robs/MirrorInst.v]), its broadcast channel
    (the proved model [Rch/Broadcast.v] of C16, used unchanged) and any number of subscribers (mirror
    tasks and consumers by hand, local or behind a connection) as a small-step system; and
    [Robs/ListDist.v] -- the distribution task of the append-only list.
    [run I acts (init_state I c0) = Some s] says: [acts] is an interleaving of API calls, single event
    emissions, subscriptions (any mode, buffer size, max_size, at any time), [recv] calls of every
    subscriber (any speed), steps of the broadcast re-admission tasks, forwarding steps and cuts of a
    connection, drop of the collection (before or after [done]) and of subscribers, each enabled
    when taken, and [s] is where it ends.  All theorems are for every such [acts]. *)
From Remoc Require Import Lib.Base Rch.Broadcast Robs.SeqCommon Robs.Mirror Robs.MirrorProofs Robs.MirrorInst.
From Remoc Require Import Robs.List_ Robs.ListDist Robs.ListDistProofs.
From Remoc Require Robs.Vec Robs.VecProofs Robs.VecDeque Robs.VecDequeProofs Robs.HashMap Robs.HashSet.
From Remoc Require Run.RunRobsLag Run.RunRobsLagProofs.

(** The collection kinds covered: in each event type the [Done] event is recognisable. *)
Theorem C14_instances :
  (forall e, i_isdone VecI.iface e = true -> e = i_edone VecI.iface) /\
  (forall e, i_isdone DequeI.iface e = true -> e = i_edone DequeI.iface) /\
  (forall e, i_isdone MapI.iface e = true -> e = i_edone MapI.iface) /\
  (forall e, i_isdone SetI.iface e = true -> e = i_edone SetI.iface).
Proof. repeat split; intros []; try discriminate; reflexivity. Qed.

(** [C14_flagged].  At every state of every interleaving, for every subscriber [r] (mirror or
    consumer by hand): the events [L] its [recv] has returned are a gap-free prefix of the events it
    is entitled to ([expected]: its initial value, then every event sent since it subscribed) --
    none skipped, none reordered, none invented; and
    - no error stored: [recv] returned nothing but these events and the mirror's inner state is
      exactly [L] applied with [handle_event] to its initial state ([applied]);
    - error [c] stored: the consumer has stopped, and either [c] is what [recv] returned right after
      [L] (Lagged, Closed, a receive error of the connection) and the inner state is [L] applied, or
      [c] is the class of the error [handle_event] returned for the last event of [L]
      (MaxSizeExceeded, InvalidIndex) and the inner state is what that call left behind.
    So contents that differ from the history come with the error of the first cause. *)
Theorem C14_flagged : forall (I : iface), (forall e, i_isdone I e = true -> e = i_edone I) ->
  forall c0 acts s i r,
  run I acts (init_state I c0) = Some s -> nth_error (rsubs s) i = Some r ->
  let L := evs_of I (r_log r) in
  L = firstn (length L) (expected I (hist s) r) /\
  match r_err r with
  | None => r_log r = map REv L /\ applied I r L (r_m r)
  | Some c =>
      r_stopped r = true /\
      ((r_log r = map REv L ++ [RErr c] /\ applied I r L (r_m r)) \/
       (r_mirror r = true /\ r_log r = map REv L /\
        exists L' e m' err, L = L' ++ [e] /\ hfold I (r_m0 r) L' = Some m' /\
                            i_handle I m' e = (r_m r, Some err) /\ i_cls I err = c))
  end.
Proof. exact flagged. Qed.

(** The error is sticky and the last consistent contents stay retrievable: once a subscriber has an
    error stored, no continuation of the run changes anything of it (error, inner state = what
    [detach] returns, log). *)
Theorem C14_error_sticky : forall (I : iface), (forall e, i_isdone I e = true -> e = i_edone I) ->
  forall c0 acts1 acts2 s1 s2 i r c,
  run I acts1 (init_state I c0) = Some s1 -> nth_error (rsubs s1) i = Some r -> r_err r = Some c ->
  run I acts2 s1 = Some s2 -> nth_error (rsubs s2) i = Some r.
Proof.
  intros I Hd c0 acts1 acts2 s1 s2 i r c H1 Hn He H2. destruct (flagged I Hd _ _ _ _ _ H1 Hn) as [_ Hc].
  rewrite He in Hc. exact (sticky I _ _ _ _ _ H2 Hn (proj1 Hc)).
Qed.

(** [C14_hand].  A consumer by hand is given a gap-free prefix of the expected events and then, if
    at all, exactly one error, with which it stops. *)
Theorem C14_hand : forall (I : iface), (forall e, i_isdone I e = true -> e = i_edone I) ->
  forall c0 acts s i r,
  run I acts (init_state I c0) = Some s -> nth_error (rsubs s) i = Some r -> r_mirror r = false ->
  exists n, r_log r = map REv (firstn n (expected I (hist s) r)) ++
                      match r_err r with None => [] | Some c => [RErr c] end.
Proof.
  intros I Hd c0 acts s i r Hrun Hn Hm. destruct (flagged I Hd _ _ _ _ _ Hrun Hn) as [Hp Hc]. cbv zeta in *.
  exists (length (evs_of I (r_log r))). rewrite <- Hp.
  destruct (r_err r) as [c|].
  - destruct Hc as (_ & [[Hl _]|(Hm' & _)]); [exact Hl|congruence].
  - destruct Hc as [Hl _]. now rewrite app_nil_r.
Qed.

(** Link to C13 (vector, deque): when the applied events are the whole stream of a subscription made
    in state [ck] followed by the events of the calls [ops], the inner state is the collection after
    [ops] -- so "last consistent contents" are contents the collection really had. *)
Theorem C14_consistent_vec : forall incr ck ops mx cf e2,
  Vec.run_ops ck ops = Ok (cf, e2) -> Vec.run_bounded mx ck ops ->
  hfold VecI.iface (i_submirror VecI.iface incr ck mx) (Vec.sub_stream (smode_of incr) ck e2)
  = Some (Vec.mirror_of cf true mx).
Proof.
  intros incr ck ops mx cf e2 Hr Hb. apply vec_hfold_fold.
  exact (VecProofs.stream_correct false (smode_of incr) ck ops mx cf e2 (Vec.cdone ck) Hr Hb (fun E => E)).
Qed.
Theorem C14_consistent_deque : forall incr ck ops mx cf e2,
  VecDeque.run_ops ck ops = Ok (cf, e2) -> VecDeque.run_bounded mx ck ops ->
  hfold DequeI.iface (i_submirror DequeI.iface incr ck mx) (VecDeque.sub_stream (smode_of incr) ck e2)
  = Some (VecDeque.mirror_of cf true mx).
Proof.
  intros incr ck ops mx cf e2 Hr Hb. apply deque_hfold_fold.
  exact (VecDequeProofs.stream_correct false (smode_of incr) ck ops mx cf e2 (VecDeque.cdone ck) Hr Hb (fun E => E)).
Qed.

(** [C14_list].  Append-only list: for every interleaving of pushes, [done], subscribes (at any
    time, also while requests are in flight), task steps, slow consumers, drop of the list and of
    subscribers: every subscriber has received exactly the first [l_len] elements of the buffer, in
    order (each once, none skipped); the only error it can be given is [Closed] (never [Lagged]);
    [Done] is the last thing it receives and comes after every element of the finished list;
    [InitialComplete] comes after exactly [initial_len] elements. *)
Theorem C14_list : forall init acts s i u,
  lrun acts (linit init) = Some s -> nth_error (lsubs s) i = Some u ->
  log_vals (l_log u) = firstn (l_len u) (buffer s) /\
  (forall c, In (LErr c) (l_log u) -> c = CClosed) /\
  (log_has_done (l_log u) = true ->
     log_vals (l_log u) = buffer s /\ tdone s = true /\
     exists l, l_log u = l ++ [LEv EDone] /\ log_has_done l = false) /\
  (l_complete u = true ->
     exists l1 l2, l_log u = l1 ++ LEv EInitialComplete :: l2 /\ length (log_vals l1) = l_ilen u).
Proof. exact list_subscriber. Qed.

(** Every state the big-step runner of the correspondence check visits ([Run/RunRobsLag.v]: bursts of
    calls, subscriptions, [recv] calls of slow consumers, drops, each followed by "all tasks run until
    idle") is reachable by small steps, so the theorems above apply to what is compared with the code. *)
Theorem C14_big_steps_sound : forall (I : iface) dec_ops bs s s',
  RunRobsLag.bigs I dec_ops bs s = Some s' -> exists acts, run I acts s = Some s'.
Proof. exact RunRobsLagProofs.bigs_sound. Qed.
Theorem C14_list_big_steps_sound : forall bs st st',
  RunRobsLag.lbigs bs st = Some st' -> exists acts, lrun acts (fst st) = Some (fst st').
Proof. exact RunRobsLagProofs.lbigs_sound. Qed.

(** Non-vacuity: a vector [1]; a mirror with buffer 1 and an incremental consumer by hand with
    buffer 2 subscribe; three pushes; the mirror takes one event, its re-admission task queues the
    marker, the mirror reads it: error Lagged, contents [1; 5] (the state after the first push), and
    it stays so; the consumer by hand reads its initial value and two pushes, then the marker. *)
Example C14_nonvacuous :
  option_map (fun (s : mstate VecI.iface) =>
                map (fun (r : rsub VecI.iface) => (evs_of VecI.iface (r_log r), Vec.mv (r_m r : Vec.mirror), r_err r)) (rsubs s))
    (run VecI.iface
       [ASubscribe VecI.iface true false false 1 10; ASubscribe VecI.iface false false true 2 10;
        AOp VecI.iface (Vec.Push 5); AEmit VecI.iface; AOp VecI.iface (Vec.Push 6); AEmit VecI.iface;
        AOp VecI.iface (Vec.Push 7); AEmit VecI.iface;
        ARecv VecI.iface 0; AReadmit1 VecI.iface 0; ARecv VecI.iface 0;
        ARecv VecI.iface 1; ARecv VecI.iface 1; ARecv VecI.iface 1; ARecv VecI.iface 1;
        ADropColl VecI.iface; AReadmit1 VecI.iface 1; ARecv VecI.iface 1]
       (init_state VecI.iface {| Vec.items := [1]; Vec.cdone := false |}))
  = Some [([Vec.EPush 5], [1; 5], Some CLagged);
          ([Vec.EPush 1; Vec.EInitialComplete; Vec.EPush 5; Vec.EPush 6], [], Some CLagged)].
Proof. vm_compute. reflexivity. Qed.

Print Assumptions C14_instances.
Print Assumptions C14_flagged.
Print Assumptions C14_error_sticky.
Print Assumptions C14_hand.
Print Assumptions C14_consistent_vec.
Print Assumptions C14_consistent_deque.
Print Assumptions C14_list.
Print Assumptions C14_big_steps_sound.
Print Assumptions C14_list_big_steps_sound.
