(** C17 -- Remote read/write lock: exclusion, latest-committed reads, no deadlock.
    Statements, their derivation from the lemmas of the proof files, evaluated examples, and assumption printing.

    Model: [Robj/RwLock.v] (transcription of robj/rw_lock/{owner,rw_lock,msg}.rs): the owner task,
    per-[ReadLock] caches behind a FIFO-fair Tokio RwLock, the fetch path, the monitor tasks, any
    number of clients on any number of caches (local clones share cache 0, every lock received at
    another endpoint has its own).  [run fx acts (init v0 nk cache_of)] is the state after the
    action list [acts] -- user actions (invoke read / write, release, commit v, drop) interleaved
    with internal ones (lock grant, next step of a client future incl. the arrival of its request
    at the owner, monitor steps, arrival of the invalidation at a cache, owner step); an action
    that is not enabled is a no-op, so [forall acts] is every interleaving, every guard hold time,
    every delivery schedule.  [fx] is the variant of [fetch] (finding F5): [FixNone] = the code
    before the repair, [FixStale] = "clear the entry if it is stale" (candidate of DESIGN.md section 6),
    [FixClear] = "always drop the cached entry after taking the cache write lock", which is what
    /repo does since the repair ([Run/RunRwLock.v], [current_fix]). *)
From Remoc Require Import Lib.Base Robj.RwLock Robj.RwLockProofs Robj.RwLockProgress Run.RunRwLock Robj.RwLockAccept.

(** Exclusion, for every variant, every configuration, every interleaving: while a write guard
    exists (from the moment the owner hands the value out until commit / drop) no client holds a
    read guard and no other client has a write guard. *)
Theorem C17_exclusion : forall fx v0 nk cache_of acts c1 cl1 c2 cl2,
  let s := run fx acts (init v0 nk cache_of) in
  nth_error (clients s) c1 = Some cl1 -> nth_error (clients s) c2 = Some cl2 ->
  write_guard cl1 = true ->
  read_guard cl2 = false /\ (write_guard cl2 = true -> c1 = c2).
Proof. exact (fun fx v0 nk co acts c1 cl1 c2 cl2 => exclusion_inv fx _ c1 cl1 c2 cl2 (reach_inv fx v0 nk co acts)). Qed.

(** Freshness.  [c_start cl] is the ghost time stamp taken at the invocation of the request: the
    number of commits stored then; [idx s] is that number now; [commit_at s i] is the value with
    commit index [i] (0 = initial value).  Whenever a read guard is held -- in particular at the
    instant it is returned -- it shows the value with index [i] where
    [c_start <= i = idx s]: the most recently committed value as of now, which lies between the
    invocation and the return; and that is the stored value. *)
Theorem C17_fresh : forall fx v0 nk cache_of acts c cl,
  let s := run fx acts (init v0 nk cache_of) in
  nth_error (clients s) c = Some cl -> read_guard cl = true ->
  exists v i, guard_value s cl = Some (v, i) /\ c_start cl <= i /\ i = idx s /\ v = o_val s /\
              commit_at s i = Some v.
Proof. exact (fun fx v0 nk co acts c cl => fresh_inv fx _ c cl (reach_inv fx v0 nk co acts)). Qed.

(** A write guard shows the latest committed value too. *)
Theorem C17_write_fresh : forall fx v0 nk cache_of acts c cl v i,
  let s := run fx acts (init v0 nk cache_of) in
  nth_error (clients s) c = Some cl -> (c_pc cl = WGot v i \/ c_pc cl = WHold v i) ->
  v = o_val s /\ i = idx s /\ commit_at s i = Some v.
Proof. exact (fun fx v0 nk co acts c cl v i => write_guard_inv fx _ c cl v i (reach_inv fx v0 nk co acts)). Qed.

(** Durability.  The stored value is the last committed one, and every [commit] call made by a
    user ([g_commits]) is either stored ([o_log]) or still on its way to the owner ([in_flight] is
    0 or 1): none is lost ... *)
Theorem C17_durable : forall fx v0 nk cache_of acts,
  let s := run fx acts (init v0 nk cache_of) in
  o_val s = hd (o_init s) (o_log s) /\ g_commits s = len (o_log s) + in_flight s.
Proof. exact (fun fx v0 nk co acts => durable_inv fx _ (reach_inv fx v0 nk co acts)). Qed.

(** ... and nothing but the owner storing a committed value changes the stored value: in
    particular dropping a write guard ([ADropW], then the owner's step) leaves it unchanged. *)
Theorem C17_durable_step : forall fx s a s',
  step fx s a = Some s' ->
  (o_log s' = o_log s /\ o_val s' = o_val s) \/
  (exists v w, a = AOwn /\ o_pc s = OWaitNew w /\ o_sig s = SCommit v /\
               o_log s' = v :: o_log s /\ o_val s' = v).
Proof. exact log_step. Qed.

(** Progress -- full statement: in every reachable state in which a request is pending and no user
    holds a guard, some internal action is enabled:

      forall fx ..., (no user guard in s) -> (some client pending in s) ->
                     exists a, internal a = true /\ step fx s a <> None.

    The faithful model of the code before the repair REFUTES it (finding F5): a concrete reachable deadlock,
    checked by [vm_compute] ([f5_acts]: reader C cold, writer W, readers A and B queue behind C's
    monitor, both find the cache empty, A fetches, B waits for the cache write lock; second write
    request; A releases; B takes the write lock with the invalidated copy cached and asks the
    owner, which waits for that copy). *)
Theorem C17_progress_refuted :
  exists v0 nk cache_of acts, Deadlock FixNone (run FixNone acts (init v0 nk cache_of)).
Proof. exact progress_refuted_asis. Qed.

(** The candidate repair of DESIGN.md section 6 ("re-check and clear the STALE entry after
    acquiring the write lock") is refuted as well: B can take the write lock while the cached copy
    is still valid, and a write request that reaches the owner before B's read request makes the
    owner wait for exactly that copy. *)
Theorem C17_progress_refuted_clear_if_stale :
  exists v0 nk cache_of acts, Deadlock FixStale (run FixStale acts (init v0 nk cache_of)).
Proof. exact progress_refuted_clear_if_stale. Qed.

(** With the repair "always drop the cached entry after taking the cache write lock" the full
    statement holds, for every configuration and every interleaving. *)
Theorem C17_progress : forall v0 nk cache_of acts,
  let s := run FixClear acts (init v0 nk cache_of) in
  (forall c cl, nth_error (clients s) c = Some cl -> user_guard cl = false) ->
  (exists c cl, nth_error (clients s) c = Some cl /\ pending cl = true) ->
  exists a, internal a = true /\ step FixClear s a <> None.
Proof. exact progress_fixed_reach. Qed.

(** Termination measure (every variant): each enabled internal action strictly decreases [mu], so
    between two user actions at most [mu s] internal steps happen; with [C17_progress]: once the
    users stop issuing requests and release their guards, every request completes. *)
Theorem C17_measure : forall fx v0 nk cache_of acts a s',
  let s := run fx acts (init v0 nk cache_of) in
  internal a = true -> step fx s a = Some s' -> mu s' < mu s.
Proof. exact (fun fx v0 nk co acts a s' => mu_decreases fx _ a s' (reach_inv fx v0 nk co acts)). Qed.

Theorem C17_terminates : forall fx v0 nk cache_of acts iacts s',
  let s := run fx acts (init v0 nk cache_of) in
  forallb internal iacts = true -> run_strict fx iacts s = Some s' -> len iacts + mu s' <= mu s.
Proof. exact (fun fx v0 nk co acts iacts s' => internal_run_bounded fx iacts _ s' (reach_inv fx v0 nk co acts)). Qed.

(** The tie: the acceptance search of Run/RunRwLock.v (what the recorded implementation histories are
    checked against) only keeps states of this small-step system -- reached from a tracked state by
    the user action and then internal actions, each enabled when taken, up to quiescence, and
    showing exactly the recorded observation. *)
Theorem C17_acceptance_sound : forall fx states a o quiet kept s,
  accept_step fx states a o = Some (quiet, kept) -> In s kept ->
  exists t, In t states /\ reach_int fx (step' fx t a) s /\ successors fx s = [] /\ obs s = o.
Proof. exact accept_step_sound. Qed.

(** Non-vacuity: a run in which a remote reader (own cache) and a local reader hold read guards on
    the initial value, a writer waits, gets the guard after both release, commits 9, and a later
    read shows 9 with commit index 1. *)
Example C17_nonvacuous :
  let s := run FixNone nonvac_acts (init 5 2 [0; 1; 0]%nat) in
  map c_pc (clients s) = [RHold; CIdle; CIdle] /\
  option_map (guard_value s) (nth_error (clients s) 0) = Some (Some (9, 1)) /\
  o_log s = [9] /\ deadlocked FixNone s = false.
Proof. exact nonvacuous_run. Qed.

Print Assumptions C17_exclusion.
Print Assumptions C17_fresh.
Print Assumptions C17_write_fresh.
Print Assumptions C17_durable.
Print Assumptions C17_durable_step.
Print Assumptions C17_progress_refuted.
Print Assumptions C17_progress_refuted_clear_if_stale.
Print Assumptions C17_progress.
Print Assumptions C17_measure.
Print Assumptions C17_terminates.
Print Assumptions C17_acceptance_sound.
