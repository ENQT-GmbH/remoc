(** C07 (local part) -- Orderly shutdown and reclamation at one endpoint: port numbers and table
    entries.  Statements, their derivation from the lemmas of [Chmux/EndpointProofs.v], and assumption printing.
    [reach .. acts] is the state of one endpoint after ANY list of local API actions, helper-task
    steps, dispatcher steps and arbitrary received messages ([Chmux/Endpoint.v]). *)
From Remoc Require Import Lib.Base Gen.Consts Chmux.Wire Chmux.Mux Chmux.Endpoint Chmux.EndpointLemmas Chmux.EndpointInv
  Chmux.EndpointEffects Chmux.EndpointProofs.
From RecordUpdate Require Import RecordUpdate.

(** Allocated numbers are pairwise distinct and at most [max_ports]; while the dispatcher runs, every
    key of the port table is allocated. *)
Theorem C07_numbers : forall ch bu cqs rb ver maxp acts,
  let e := reach ch bu cqs rb ver maxp acts in
  NoDup (alloc e) /\ len (alloc e) <= max_ports e /\
  (dead e = None -> forall p, lookup p (ports (mx e)) <> None -> In p (alloc e)).
Proof. intros ch bu cqs rb ver maxp acts e. exact (numbers e (WF_reach _ _ _ _ _ _ _)). Qed.

(** A connected port [p] across one step that does not terminate the connection: either it stays
    connected -- then it does not have all four flags and its number stays allocated -- or the step
    ran a dispatcher function that rewrote the entry to some [c'] with
    [tx_dropped && rx_dropped && negb rx_open && rrx_dropped] ([all4]) and [maybe_free] removed it,
    releasing the number ([DropNumber p]) in that very step: never earlier, never later.
    ([disp_mux e a] is the mux the dispatcher function runs on: [mx e], except that for a received
    message the occupancy of a closed listener queue counts as 0; its port table is that of [mx e].) *)
Theorem C07_free_iff : forall ch bu cqs rb ver maxp acts a e' p c,
  let e := reach ch bu cqs rb ver maxp acts in
  step_opt e a = Some e' -> dead e' = None -> lookup p (ports (mx e)) = Some (Connected c) ->
  match lookup p (ports (mx e')) with
  | Some (Connected c') => all4 c' = false /\ In p (alloc e')
  | _ => ~ In p (alloc e') /\
         exists effs, disp_outcome e a = Some (Done (mx e') effs) /\
                      lookup p (ports (mx e')) = None /\ In (DropNumber p) effs /\
                      exists c', all4 c' = true /\ remote c' = remote c /\
                                 maybe_free (disp_mux e a <| ports := insert p (Connected c') (ports (disp_mux e a)) |>) p
                                 = Some (mx e', [DropNumber p])
  end.
Proof. intros ch bu cqs rb ver maxp acts a e' p c e. exact (free_iff e a e' p c (WF_reach _ _ _ _ _ _ _)). Qed.

Theorem C07_should_terminate_spec : forall m,
  should_terminate m = true <->
  (ports m = [] /\ (all_clients_dropped m = true \/ remote_listener_dropped m = true) /\
   (listen_open m = false \/ remote_client_dropped m = true) /\ outstanding m = [])
  \/ goodbye_sent m = true \/ goodbye_received m = true.
Proof.
  intros m. assert (E : forall A (l : list A), match l with [] => true | _ => false end = true <-> l = []).
  { intros A []; split; try reflexivity; discriminate. }
  unfold should_terminate. rewrite !orb_true_iff, !andb_true_iff, !orb_true_iff, negb_true_iff, !E. tauto.
Qed.

(** Non-vacuity: the peer opens a port, it is accepted with local number 5; both local halves are
    dropped, the peer finishes both directions: the entry is freed and the number released exactly
    in the last step; once the client and listener sides are closed too the dispatcher may say Goodbye. *)
Example C07_nonvacuous :
  let acts := [Recv (OpenPort 7 true None) 0; UListenerTake 7; UAccept 7 5; DPort;
               UDropTx 5; NTx 5; DPort; UDropRx 5; NRx 5; DPort; Recv (SendFinish 5) 0] in
  let e1 := reach 100 10 2 16 3 8 acts in
  let e2 := step e1 (Recv (ReceiveFinish 5) 0) in
  let e3 := run [UDropClients; DConn; Recv ClientFinish 0; UDropListener; DListenerDropped] e2 in
  alloc e1 = [5] /\ (exists c, lookup 5 (ports (mx e1)) = Some (Connected c) /\ all4 c = false) /\
  alloc e2 = [] /\ ports (mx e2) = [] /\ outstanding (mx e2) = [] /\
  should_terminate (mx e2) = false /\ should_terminate (mx e3) = true /\
  panicked e3 = None /\ dead e3 = None /\
  map fst (sent e3) = [PortOpened 7 5; SendFinish 7; ReceiveFinish 7; ClientFinish; ListenerFinish].
Proof. vm_compute. repeat split; try reflexivity. eexists. split; reflexivity. Qed.

Print Assumptions C07_numbers.
Print Assumptions C07_free_iff.
Print Assumptions C07_should_terminate_spec.
