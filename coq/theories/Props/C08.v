(** C08 -- Robustness of the chmux dispatcher against an arbitrary or hostile peer.
    Statements, their derivation from the lemmas of the proof files, evaluated examples, and assumption printing.

    The endpoint model ([Chmux/Mux.v], [Chmux/Endpoint.v]) transcribes [mux.rs] ([handle_event],
    [handle_received_msg], [maybe_free_port], [create_port], [should_terminate]) with every reachable
    [panic!]/[unwrap] as the explicit outcome [Panic].  [reach .. acts] is the state after ANY list of
    actions: local API calls (enabled only while the Rust object they act on exists -- that is the
    only assumption, it is what ownership gives), helper-task steps, dispatcher steps, and [Recv m n],
    which delivers an ARBITRARY message. *)
From Remoc Require Import Lib.Base Gen.Consts Chmux.Wire Chmux.Mux Chmux.Endpoint Chmux.EndpointLemmas Chmux.EndpointInv
  Chmux.EndpointEffects Chmux.EndpointProofs.

(** The handler of received messages has no reachable panic site at all. *)
Theorem C08_handle_received_never_panics : forall m msg n,
  match handle_received m msg n with Panic _ => False | _ => True end.
Proof. exact handle_received_never_panics. Qed.

(** No [panic!]/[unwrap] site of the dispatcher is reached, whatever the peer sends and however the
    local users, helper tasks and the dispatcher interleave. *)
Theorem C08_no_panic : forall ch bu cqs rb ver maxp acts,
  panicked (reach ch bu cqs rb ver maxp acts) = None.
Proof. intros ch bu cqs rb ver maxp acts. apply WF_reach. Qed.

(** The invariant behind it holds in every reachable state. *)
Theorem C08_invariant : forall ch bu cqs rb ver maxp acts, WF (reach ch bu cqs rb ver maxp acts).
Proof. exact WF_reach. Qed.

(** Every received message either leaves the endpoint in a state satisfying the invariant, or
    terminates the connection with a protocol/reset error; a terminated endpoint takes no further
    step (that all local users then observe errors is C06). *)
Theorem C08_classified : forall ch bu cqs rb ver maxp acts m n e',
  let e := reach ch bu cqs rb ver maxp acts in
  step_opt e (Recv m n) = Some e' ->
  (dead e' = None /\ Inv e') \/ (exists err, dead e' = Some err /\ forall a, step_opt e' a = None).
Proof. intros ch bu cqs rb ver maxp acts m n e' e. exact (classified e m n e' (WF_reach _ _ _ _ _ _ _)). Qed.

(** Bytes queued per port never exceed the advertised receive buffer; the number of queued messages
    is bounded by it as well (every message costs at least [DATA_MIN_COST = 1], a port message
    [PORT_COST = 4] per port and at least one port, only the final [Finished] marker is free); the
    listener queues hold at most [connect_queue + 1] requests. *)
Theorem C08_buffer : forall ch bu cqs rb ver maxp acts,
  let e := reach ch bu cqs rb ver maxp acts in
  (forall p c, lookup p (ports (mx e)) = Some (Connected c) ->
     used c <= cfg_buffer (mx e) /\ len (rxq c) <= used c + 1) /\
  lq_wait (mx e) <= cfg_connect_queue (mx e) + 1 /\ lq_nowait (mx e) <= cfg_connect_queue (mx e) + 1.
Proof. intros ch bu cqs rb ver maxp acts e. exact (buffer_bounds e (WF_reach _ _ _ _ _ _ _)). Qed.

Theorem C08_costs : DATA_MIN_COST = 1 /\ PORT_COST = 4.
Proof. split; reflexivity. Qed.

(** Non-vacuity: the peer opens a port, it is accepted; the peer sends 3 bytes (queued, 3 credits
    used), then a port message without ports: the connection is terminated with a protocol error, no
    panic, and nothing is enabled any more. *)
Example C08_nonvacuous :
  let pre := [Recv (OpenPort 7 true None) 0; UListenerTake 7; UAccept 7 5; DPort; Recv (Data 5 true true) 3] in
  let e1 := reach 100 10 2 16 3 8 pre in
  let e2 := step e1 (Recv (PortData 5 true true false [] None) 0) in
  panicked e2 = None /\ dead e1 = None /\ dead e2 = Some PEmptyPorts /\
  (exists c, lookup 5 (ports (mx e1)) = Some (Connected c) /\ used c = 3 /\ len (rxq c) = 1) /\
  step_opt e2 (Recv Ping 0) = None /\
  dead (step e1 (Recv (Data 5 true true) 8)) = Some POverdraw.
Proof. vm_compute. repeat split; try reflexivity. eexists. repeat split; reflexivity. Qed.

Print Assumptions C08_handle_received_never_panics.
Print Assumptions C08_no_panic.
Print Assumptions C08_invariant.
Print Assumptions C08_classified.
Print Assumptions C08_buffer.
Print Assumptions C08_costs.
