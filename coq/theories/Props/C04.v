(** C04 -- Typed channels: per-sender prefix delivery; item failures never create gaps.

    Vocabulary ([Rch/Base.v], [Rch/BaseProofs.v], [Rch/Mpsc.v]):
    - [decode]/[ports_of]: the codec, abstract (a value is its encoding; exact round trip);
      [honest]: no proper prefix of an encoding is an encoding (self-delimiting), the ports collected
      while serializing are those the deserializer expects, at most [dflt] = [max_received_ports] of them;
    - [send_all c bd its]: [rch::base::Sender::send] applied to a list of items, each with an arbitrary
      flow-control budget (any cancellation point), a [Serialize] failure after any number of bytes,
      any size relative to [max_data_size] / [chunk_size] / [max_item_size] ([c]), any state [bd] of the
      big-data heuristic; yields per item what was handed to chmux and the result reported to the caller;
    - [Framed atts fs]: [fs] is ANY cutting of the attempts into chmux frames (credit grants decide);
    - [acts]: the receiver's schedule -- frames taken from the port queue, interleaved at will with
      [recv] calls that are dropped while pending and repeated ([RReenter]); a prefix of it is a
      connection or channel that ended early;
    - [brun]: [rch::base::Receiver::recv] run over that schedule ([RReenter]: the feed loop notices that
      the deserializer thread has ended, e.g. when a dropped [recv] is repeated). *)
From Remoc Require Import Lib.Base Chmux.Parse Chmux.Recv Chmux.PortFlow Rch.Base Rch.BaseProofs Rch.BaseLink Rch.Mpsc Rch.MpscProofs Rch.C04Link Run.RunBase.

(** The receiver's results are, send by send and in order, what each send means ([sent_spec]): for
    every codec, all limits on both sides, every item sequence with failing / oversized / cancelled
    items anywhere, every framing and every receiver schedule. *)
Theorem C04_base : forall decode ports_of md rmax dflt c its bd acts,
  Forall (honest decode ports_of dflt) (map fst its) ->
  Framed (flat_map s_atts (send_all c bd its)) (frames_of acts) ->
  snd (brun decode ports_of (binit md dflt rmax) acts) =
  flat_map (sent_spec decode md rmax) (send_all c bd its).
Proof. exact base_end_to_end. Qed.

(** ... whose successful results are exactly the values whose send returned Ok and which the receiver
    can accept -- equal to the originals, in order, each once (nothing duplicated, truncated, merged). *)
Theorem C04_base_values : forall decode ports_of md rmax dflt c its bd,
  Forall (honest decode ports_of dflt) (map fst its) ->
  oks (flat_map (sent_spec decode md rmax) (send_all c bd its)) =
  filter (acceptable decode rmax) (sent_ok (send_all c bd its)).
Proof. exact base_success. Qed.

(** ... and where every send contributes at most one result, at its own position: its value, or nothing,
    or ONE non-final error ([MaxItemSizeExceeded] / [Deserialize]) -- the latter only for a send that
    failed or whose value the receiver cannot accept. *)
Theorem C04_base_attribution : forall decode ports_of md rmax dflt c its bd,
  Forall (honest decode ports_of dflt) (map fst its) ->
  Forall (attributed decode md rmax) (send_all c bd its).
Proof. exact base_attribution. Qed.

(** When only part of the schedule happens (channel or connection ended), the results are a prefix:
    values are lost only as a suffix. *)
Theorem C04_base_prefix : forall decode ports_of s a1 a2,
  prefix (snd (brun decode ports_of s a1)) (snd (brun decode ports_of s (a1 ++ a2))).
Proof. exact brun_prefix. Qed.

(** The framing used by the executable interface (and compared with the implementation) is one of the
    framings quantified over. *)
Theorem C04_canonical_framing : forall ck atts, Forall att_ok atts -> Framed atts (flat_map (att_frames ck) atts).
Proof. exact att_frames_Framed. Qed.

(** Link to the chmux port model (C01-C03): under EVERY schedule of the port whose user is a base sender
    ([send], chunk sender, [connect], cancellation at every await; credit grants, queue slots, deliveries,
    credit returns, closure) the frames handed over ARE such a framing -- of an attempt list whose complete
    members are exactly the operations that returned Ok -- and the receiving side has taken a prefix. *)
Theorem C04_port_emits_framings : forall c md mp acts,
  cfg_ok c -> Forall base_act acts ->
  let s := run acts (init c md mp) in
  exists atts, Framed atts (emitted s) /\ completes atts = completed s /\
               exists rest, emitted s = consumed s ++ rest.
Proof. exact emitted_framed. Qed.

(** The former finding F15 (an unfinished message that carries a complete encoding: [Serialize] failing
    after the last byte, or a send dropped while [finish] waits for credit; the receiver's pending [recv]
    dropped and repeated) on the repaired receiver: nothing is delivered for the failed send, its
    neighbour arrives. *)
Example C04_former_F15_serialize :
  map s_res f15_sent = [SErrSer; SOk] /\
  map s_atts (firstn 1 f15_sent) = [[ADataCut (toy_bytes 7 0 0 12)]] /\ toy_decode (toy_bytes 7 0 0 12) = DOk /\
  snd (brun toy_decode toy_ports (binit 8 128 1000)
         (map RFrame (flat_map (att_frames 4) (flat_map s_atts (firstn 1 f15_sent))) ++ [RReenter; RReenter])) = [] /\
  snd (brun toy_decode toy_ports (binit 8 128 1000) f15_acts) = [ROk (toy_bytes 8 0 0 5)] /\
  sent_ok f15_sent = [toy_bytes 8 0 0 5].
Proof. exact f15_repaired. Qed.

Example C04_former_F15_cancel :
  map s_res f15_sent2 = [SCancelled] /\
  map s_atts f15_sent2 = [[ADataCut (toy_bytes 7 0 0 12)]] /\
  snd (brun toy_decode toy_ports (binit 8 128 1000)
         (map RFrame (flat_map (att_frames 4) (flat_map s_atts f15_sent2)) ++ [RReenter; RReenter])) = [].
Proof. exact f15_repaired2. Qed.

(** [rch::lr]: [lr::Sender::send] and [lr::Receiver::recv] hand over to the base halves of the lr port
    ([lr/sender.rs], [lr/receiver.rs]); the statement is that of the base channel. *)
Theorem C04_lr : forall decode ports_of md rmax dflt c its bd acts,
  Forall (honest decode ports_of dflt) (map fst its) ->
  Framed (flat_map s_atts (send_all c bd its)) (frames_of acts) ->
  oks (snd (brun decode ports_of (binit md dflt rmax) acts)) =
  filter (acceptable decode rmax) (sent_ok (send_all c bd its)).
Proof.
  exact (fun decode ports_of md rmax dflt c its bd acts Hh Hf =>
           eq_trans (f_equal (oks) (base_end_to_end decode ports_of md rmax dflt c its bd acts Hh Hf))
                    (base_success decode ports_of md rmax dflt c its bd Hh)).
Qed.

(** [rch::mpsc], receiving endpoint, every schedule of the forwarding tasks, of port / connection ends
    and of the user's [recv] calls: per sender, received entries ++ queued entries ++ entries still to
    come = what that sender's base receiver yields.  Nothing is dropped, duplicated or reordered; a
    non-final error does not cost a neighbouring value. *)
Theorem C04_mpsc_conservation : forall ss c acts i,
  src_ok ss ->
  let s := mrun acts (minit ss c) in
  proj_o i (outs s) ++ proj_q i (queue s) ++ nth i (srcs s) [] = nth i ss [].
Proof. exact mpsc_conservation. Qed.

(** Composed with the base layer: the values received from sender [i] are a prefix of the values that
    sender sent successfully (and the receiver can accept), whatever the other senders do. *)
Theorem C04_mpsc : forall decode ports_of md rmax dflt xs c macts i,
  Forall (rs_ok decode ports_of dflt) xs ->
  let s := mrun macts (minit (map (rs_src decode ports_of md rmax dflt) xs) c) in
  prefix (vals (proj_o i (outs s)))
         (match nth_error xs i with
          | Some x => filter (acceptable decode rmax) (sent_ok (rs_sent x))
          | None => []
          end).
Proof. exact mpsc_end_to_end. Qed.

(** The end of the channel ([Ok(None)] or the held back final error) is reported only when every
    forwarding task has ended and the queue is empty; nothing but the end is reported afterwards. *)
Theorem C04_mpsc_end : forall ss c acts,
  let s := mrun acts (minit ss c) in
  tail_ended (outs s) /\
  (existsb ended (outs s) = true -> queue s = [] /\ existsb (fun b => b) (alive s) = false).
Proof. exact mpsc_end_is_final. Qed.

(** [rch::oneshot] = mpsc with a local buffer of one and a sender consumed by its only send. *)
Theorem C04_oneshot : forall decode ports_of md rmax dflt x macts,
  rs_ok decode ports_of dflt x -> (length (rs_its x) <= 1)%nat ->
  let s := mrun macts (minit [rs_src decode ports_of md rmax dflt x] 1) in
  prefix (vals (proj_o 0 (outs s))) (filter (acceptable decode rmax) (sent_ok (rs_sent x))) /\
  (length (sent_ok (rs_sent x)) <= 1)%nat.
Proof. exact oneshot_end_to_end. Qed.

(** Non-vacuity: a buffered value, a streamed value whose serialization fails after 10 bytes, a streamed
    value with a channel half; the receiver obtains exactly the first and the third. *)
Example C04_nonvacuous :
  map s_res ex_sent = [SOk; SErrSer; SOk] /\
  snd (brun toy_decode toy_ports (binit 8 128 1000) ex_acts) = [ROk (toy_bytes 1 0 0 6); ROk (toy_bytes 3 1 0 20)] /\
  sent_ok ex_sent = [toy_bytes 1 0 0 6; toy_bytes 3 1 0 20].
Proof. exact ex_run. Qed.

Print Assumptions C04_base.
Print Assumptions C04_base_values.
Print Assumptions C04_base_attribution.
Print Assumptions C04_base_prefix.
Print Assumptions C04_canonical_framing.
Print Assumptions C04_port_emits_framings.
Print Assumptions C04_former_F15_serialize.
Print Assumptions C04_former_F15_cancel.
Print Assumptions C04_lr.
Print Assumptions C04_mpsc_conservation.
Print Assumptions C04_mpsc.
Print Assumptions C04_mpsc_end.
Print Assumptions C04_oneshot.
