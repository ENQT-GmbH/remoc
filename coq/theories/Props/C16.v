(** C16 -- Broadcast: ordered delivery with an explicit lag marker at every gap.

    Model: [Rch/Broadcast.v] (transcription of rch/broadcast/{sender,receiver,mod}.rs).  Every
    interleaving of application calls (send, subscribe, consume, drop of a receiver) with the
    stages of every re-admission task is an [action] list; [run acts init = Some st] says that
    [acts] is such an interleaving (each action enabled when taken) and [st] is where it ends.
    All buffer sizes: the [c] of each [Subscribe c]. *)
From Coq Require Import Sorted.
From Remoc Require Import Lib.Base Rch.Broadcast Rch.BroadcastProofs.

(** For every subscriber, at every point of every interleaving, what it has received plus what is
    queued for it is a well-formed stream ([wf_stream], see Broadcast.v: without a marker the next
    value has exactly the next index; every marker stands for at least one skipped value), and
    for a live subscriber what is pending is accounted for ([pending_ok]): with [e] the first index
    not yet covered by a value or marker of its stream and [n] the number of values sent,
      Ready           : e = n, or the stream ends in a marker and e <= n;
      Parked (R1)     : e < n  -- values were skipped and the marker is still owed by the task;
      Parked (R2)     : the stream ends in the marker, e <= n.
    A parked subscriber is not touched by [Send] ([C16_parked_untouched]), so no value reaches it
    before the marker. *)
Theorem C16_stream : forall acts st a s,
  run acts init = Some st -> nth_error (subs st) a = Some s ->
  wf_stream (start s) false (stream s) /\ (alive s = true -> pending_ok (next st) s).
Proof. exact stream_ok. Qed.

Theorem C16_parked_untouched : forall n s g, status_of s = Parked g -> sub_send n s = s.
Proof. exact send_parked. Qed.

(** What [wf_stream] means, spelled out: the received values are strictly increasing (in order, no
    duplicates), none older than the subscription ... *)
Theorem C16_stream_ordered : forall acts st a s,
  run acts init = Some st -> nth_error (subs st) a = Some s ->
  StronglySorted N.lt (values (stream s)) /\ Forall (fun i => start s <= i) (values (stream s)).
Proof. exact stream_ordered. Qed.

(** ... and between two consecutive received values [v_i], [v_j] (only markers in between) there
    is a marker iff [j > i + 1]. *)
Theorem C16_stream_gap_iff : forall acts st a s pre i mid j post,
  run acts init = Some st -> nth_error (subs st) a = Some s ->
  stream s = pre ++ Value i :: mid ++ Value j :: post -> Forall (eq Lagged) mid ->
  i < j /\ (mid = [] <-> j = i + 1).
Proof. exact stream_gap_iff. Qed.

(** A subscriber that never found its queue full at a send ([parked_ever = false]; the flag is set
    only by the [Full] branch of [sub_send]) has been handed every value sent since it subscribed,
    in order and nothing else -- all of them while its receiver lives, a prefix if it was dropped. *)
Theorem C16_keepup : forall acts st a s,
  run acts init = Some st -> nth_error (subs st) a = Some s -> parked_ever s = false ->
  prefix (stream s) (all_since (next st) s) /\ (alive s = true -> stream s = all_since (next st) s).
Proof. exact keepup. Qed.

(** [send] is enabled in every state (no wait), and what it does to subscriber [a] is the function
    [sub_send] of [a]'s own state and the value's index: full, parked or dropped subscribers [b]
    neither block the sender nor change what [a] gets. *)
Theorem C16_nonblocking : forall st,
  exists st', step st Send = Some st' /\ next st' = next st + 1 /\
  forall a, nth_error (subs st') a = option_map (sub_send (next st)) (nth_error (subs st) a).
Proof. exact send_total_frame. Qed.

(** Frame form: two states that agree on subscriber [a] (and on the value index) agree on [a]
    after [Send], whatever the other subscribers look like. *)
Theorem C16_nonblocking_frame : forall st1 st2 st1' st2' a,
  next st1 = next st2 -> nth_error (subs st1) a = nth_error (subs st2) a ->
  step st1 Send = Some st1' -> step st2 Send = Some st2' ->
  nth_error (subs st1') a = nth_error (subs st2') a.
Proof. exact send_frame. Qed.

(** Every state visited by the big-step runner that is compared with the implementation
    ([Run/RunBroadcast.v]) is reachable by small steps, so the theorems above apply to it. *)
Theorem C16_big_steps_sound : forall ops st, exists acts, run acts st = Some (fold_left big ops st).
Proof. exact bigs_sound. Qed.

(** Non-vacuity: subscriber 0 (capacity 1) is parked by the second send, the task pushes the
    marker after the first consume and re-admits after the second; subscriber 1 (capacity 4) keeps
    up.  The second run takes a [Send] between hand-back (R2) and permit release (R3), possible on
    a multi-threaded runtime: the subscriber is parked again although its queue is empty and gets
    a second marker (the stream is still well-formed: each marker stands for a skipped value). *)
Example C16_nonvacuous :
  option_map (fun st => map (fun s => (consumed s, queue s, status_of s, parked_ever s)) (subs st))
    (run [Subscribe 1; Subscribe 4; Send; Send; Consume 0; Readmit1 0; Consume 0; Readmit2 0; Release 0;
          Send; Consume 0; Consume 1] init)
  = Some [([Value 0; Lagged; Value 2], [], Ready, true);
          ([Value 0], [Value 1; Value 2], Ready, false)] /\
  option_map (fun st => map stream (subs st))
    (run [Subscribe 1; Send; Send; Consume 0; Readmit1 0; Consume 0; Readmit2 0; Send; Release 0;
          Readmit1 0; Consume 0; Readmit2 0; Release 0; Send] init)
  = Some [[Value 0; Lagged; Lagged; Value 3]].
Proof. vm_compute. auto. Qed.

Print Assumptions C16_stream.
Print Assumptions C16_parked_untouched.
Print Assumptions C16_stream_ordered.
Print Assumptions C16_stream_gap_iff.
Print Assumptions C16_keepup.
Print Assumptions C16_nonblocking.
Print Assumptions C16_nonblocking_frame.
Print Assumptions C16_big_steps_sound.
