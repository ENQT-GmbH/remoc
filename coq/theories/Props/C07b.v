(** C07 (composed part) -- Both dispatchers finish successfully when everything has been dropped on both
    endpoints.

    [nreach c acts] ([Chmux/Net.v]) is the state of two endpoint models joined by two FIFO links after
    ANY list of local actions of either side and deliveries.  [nquiet n] ([Chmux/NetTerm.v],
    [Chmux/NetQuiet.v]): on both sides clients and listener are dropped, no sender or receiver half is
    alive, every remaining request object is dropped or answered, and nothing is under way that
    would hand out new objects (no queued accept, no [PortOpened] in flight).  System actions
    ([sys_nact]): the helper tasks [NTx]/[NRx]/[NReq], the dispatcher steps
    [DPort]/[DConn]/[DListenerDropped]/[DGoodbye] of either side, and [Deliver] in either direction.
    [nfinished n]: both endpoints have [dead = None], Goodbye sent and Goodbye received, i.e. both
    [run] futures return [Ok].  [flow_error n]: an endpoint ended with a protocol error of the quantity
    class ([flow_class], see C10b; in this model only a frame already queued or in flight when everything was
    dropped -- data, returned credits, a list of ports -- can cause one).
    [Ok n]: [healthy n], the composed invariant, [nquiet n], and the two accounting invariants of
    [Chmux/NetQuiet3.v] (the all-clients-dropped marker is not lost, a sent Goodbye is in flight or received).  [mu n] is the measure: weighted number of
    frames in flight, queued events, dropped halves/requests whose notifier has not run, and the
    two pending announcements (ListenerFinish, Goodbye) per side. *)
From Remoc Require Import Lib.Base Gen.Consts Chmux.Wire Chmux.Mux Chmux.Endpoint Chmux.EndpointLemmas Chmux.EndpointInv
  Chmux.Net Chmux.NetInv Chmux.NetRecvStep Chmux.NetProofs Chmux.NetQuiet Chmux.NetQuiet3 Chmux.NetTerm.

(** From every reachable state without protocol error in which no user object is left on either side
    there is a run of system actions after which both dispatchers have ended successfully (or a
    quantity error of the data already queued has ended the connection). *)
Theorem C07_both_terminate : forall c acts,
  let n := nreach c acts in
  healthy n -> nquiet n ->
  exists acts', forallb sys_nact acts' = true /\ (nfinished (nrun acts' n) \/ flow_error (nrun acts' n)).
Proof. exact both_terminate. Qed.

(** Such states are good states ... *)
Theorem C07_quiet_is_ok : forall c acts, healthy (nreach c acts) -> nquiet (nreach c acts) -> Ok (nreach c acts).
Proof. exact Ok_intro. Qed.

(** ... in a good state every system action is either not enabled (changes nothing), ends in a
    quantity error, or leads to a good state with a strictly smaller measure ... *)
Theorem C07_system_action_decreases : forall n a, Ok n -> sys_nact a = true ->
  nstep n a = n \/ flow_error (nstep n a) \/ (Ok (nstep n a) /\ mu (nstep n a) < mu n).
Proof. exact system_action_decreases. Qed.

(** ... and a good state in which no system action is enabled is one in which both dispatchers
    have ended successfully: nothing can be left behind (no table entry, no outstanding request, no
    frame in flight that will never be handled). *)
Theorem C07_stuck_is_finished : forall n, Ok n -> (forall a, sys_nact a = true -> nstep n a = n) -> nfinished n.
Proof. exact stuck_is_finished. Qed.

(** The all-clients-dropped marker is never lost and a sent Goodbye is in flight or received, in
    every reachable state (protocol errors or not). *)
Theorem C07_markers : forall c acts,
  let n := nreach c acts in
  (clients_alive (na n) = false -> 1 <= count is_acd (cq (na n)) + b2n (all_clients_dropped (mx (na n)))) /\
  (clients_alive (nb n) = false -> 1 <= count is_acd (cq (nb n)) + b2n (all_clients_dropped (mx (nb n)))) /\
  cnt m_gb (lab n) + b2n (goodbye_received (mx (nb n))) = b2n (goodbye_sent (mx (na n))) /\
  cnt m_gb (lba n) + b2n (goodbye_received (mx (na n))) = b2n (goodbye_sent (mx (nb n))).
Proof. exact markers_reach. Qed.

(** Non-vacuity: a port is opened (A's 5 with B's 9), data is sent and delivered, then every user object
    is dropped on both sides without any helper task or dispatcher step in between: the state is
    quiet; a run of system actions drains it and both dispatchers end successfully with empty
    tables, allocators and links. *)
Definition cfg_ex : ncfg := mk_ncfg 100 1000 4 8 100 1000 4 8.
Definition life_ex : list nact :=
  [Loc SA (UConnect 5 5 true 1); Loc SA DConn; Deliver SA; Loc SB (UListenerTake 5); Loc SB (UAccept 5 9); Loc SB DPort; Deliver SB;
   Loc SA (USendData 5 true true 3); Loc SA DPort; Deliver SA;
   Loc SA (UDropTx 5); Loc SA (UDropRx 5); Loc SA UDropClients; Loc SA UDropListener;
   Loc SB (UDropTx 9); Loc SB (UDropRx 9); Loc SB UDropClients; Loc SB UDropListener].
Definition drain_ex : list nact :=
  [Loc SA (NTx 5); Loc SA (NRx 5); Loc SA DPort; Loc SA DPort; Loc SA DConn; Loc SA DListenerDropped;
   Loc SB (NTx 9); Loc SB (NRx 9); Loc SB DPort; Loc SB DPort; Loc SB DConn; Loc SB DListenerDropped;
   Deliver SA; Deliver SA; Deliver SA; Deliver SA; Deliver SB; Deliver SB; Deliver SB; Deliver SB;
   Loc SA DGoodbye; Loc SB DGoodbye; Deliver SA; Deliver SB].
Example C07b_nonvacuous :
  let n := nreach cfg_ex life_ex in
  let n' := nrun drain_ex n in
  healthy n /\ nquiet n /\ 0 < mu n /\ forallb sys_nact drain_ex = true /\
  nfinished n' /\ mu n' = 0 /\
  ports (mx (na n')) = [] /\ ports (mx (nb n')) = [] /\ alloc (na n') = [] /\ alloc (nb n') = [] /\ lab n' = [] /\ lba n' = [] /\
  map fst (sent (na n')) = [OpenPort 5 true (Some 5); Data 9 true true; SendFinish 9; ReceiveFinish 9; ClientFinish; ListenerFinish; Goodbye] /\
  map fst (sent (nb n')) = [PortOpened 5 9; SendFinish 5; ReceiveFinish 5; ClientFinish; ListenerFinish; Goodbye].
Proof.
  split; [vm_compute; split; reflexivity|]. split; [apply nquietb_sound; vm_compute; reflexivity|].
  vm_compute. repeat split; reflexivity.
Qed.

Print Assumptions C07_both_terminate.
Print Assumptions C07_quiet_is_ok.
Print Assumptions C07_system_action_decreases.
Print Assumptions C07_stuck_is_finished.
Print Assumptions C07_markers.
