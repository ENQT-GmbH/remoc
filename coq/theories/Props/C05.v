(** C05 -- Channel halves embedded in values are wired one-to-one to their counterparts.  The model is [Rch/Ports.v]
    (transcription of [PortSerializer] / [PortDeserializer] in rch/base/{sender,receiver}.rs, of
    chmux/forward.rs, of the request life cycle of chmux/{sender,listener}.rs as far as C05 needs it,
    and of rch/interlock.rs as used by rch/{bin,lr}); proofs are in [Rch/PortsProofs.v].

    A value is abstracted to the ordered list [ls] of the halves its serializer visits: nesting in
    vectors, options, tuples, enums and maps only determines this order (and the deserializer visits
    the transported form in the same order: codec round trip, trusted), the kind of remote channel only
    determines what the callback does with the port it gets.  A half carries a label (channel, side);
    [MReal] halves travel normally, [MIgnored] ones are unknown to the deserializing type (their request
    is superfluous), [MFake b] stands for a half whose request (id [b]) never arrives.

    [wire ls ps hops last_sizes qs] sends one value over [1 + length hops] connections: [ps] / [qs] are
    the port numbers the allocators of the origin / the far end can still hand out (their lengths are
    the port limits, their contents the random choices), every element of [hops] gives the same for one
    forwarding node together with the sizes of the batches its incoming port message was split into
    (chunk size and credits), [last_sizes] those of the last connection. *)
From Remoc Require Import Lib.Base Gen.Halves Rch.Ports Rch.PortsProofs.

(** ** Wiring: for all value shapes, hop counts, port choices, port limits and batchings *)

(** Every delivered half is connected to the origin callback registered for the half with the SAME
    label (serialized at the same position) ... *)
Theorem C05_wiring : forall ls ps hops last_sizes qs w,
  NoDup (ps ++ fake_ids ls) -> Forall hop_ok hops ->
  wire ls ps hops last_sizes qs = WOk w ->
  forall a b, In (a, b) (pairing (w_table w) (w_tabs w) (w_acc w)) -> a = b.
Proof. exact pairing_label_preserving. Qed.

(** ... and to no other: the pairing is a partial injective function in both directions ... *)
Theorem C05_wiring_injective : forall ls ps hops last_sizes qs w,
  NoDup (map l_cb ls) -> NoDup (ps ++ fake_ids ls) -> Forall hop_ok hops ->
  wire ls ps hops last_sizes qs = WOk w ->
  NoDup (map fst (pairing (w_table w) (w_tabs w) (w_acc w))) /\
  NoDup (map snd (pairing (w_table w) (w_tabs w) (w_acc w))).
Proof. exact pairing_injective. Qed.

(** ... which is defined on every half that travelled normally. *)
Theorem C05_wiring_complete : forall ls ps hops last_sizes qs w,
  NoDup (ps ++ fake_ids ls) -> Forall hop_ok hops ->
  wire ls ps hops last_sizes qs = WOk w ->
  forall l, In l ls -> l_mode l = MReal -> In (l_cb l, l_cb l) (pairing (w_table w) (w_tabs w) (w_acc w)).
Proof. exact pairing_complete. Qed.

(** The induction over the hops: whatever the forwarders' port choices and the batch boundaries, the
    requests arrive in the same order with the same ids, and following the forwarders' tables back
    from a delivered request's port leads to the origin's port at the same position. *)
Theorem C05_forwarding : forall hops rs fin tabs,
  route rs hops = Some (fin, tabs) -> Forall hop_ok hops ->
  Forall2 (fun f r => r_id f = r_id r /\ trace_back (rev tabs) (r_port f) = Some (r_port r)) fin rs.
Proof. exact route_spec. Qed.

(** ** Errors *)

(** Superfluous requests (halves the far end does not know) are dropped, i.e. rejected; *)
Theorem C05_superfluous_rejected : forall ls ps hops last_sizes qs w,
  NoDup (map l_cb ls) -> NoDup (ps ++ fake_ids ls) -> Forall hop_ok hops ->
  wire ls ps hops last_sizes qs = WOk w ->
  forall l, In l ls -> l_mode l = MIgnored ->
  exists p f, In (p, l_cb l) (w_table w) /\ In f (w_rej w) /\ r_id f = p /\
              trace_back (rev (w_tabs w)) (r_port f) = Some p.
Proof. exact ignored_rejected. Qed.

(** lost requests are reported as [MissingPorts] with exactly their ids; *)
Theorem C05_missing_reported : forall ls ps hops last_sizes qs w,
  NoDup (ps ++ fake_ids ls) -> Forall hop_ok hops ->
  wire ls ps hops last_sizes qs = WOk w ->
  forall b, In b (fake_ids ls) <-> assoc b (w_missing w) <> None.
Proof. exact missing_are_fakes. Qed.

(** port exhaustion at either end makes the whole item fail, and happens exactly when the item
    carries more halves than the allocator has ports left. *)
Theorem C05_exhausted_origin : forall ls ps, serialize ls ps = None <-> (length ps < travelling ls)%nat.
Proof. exact serialize_exhausted. Qed.
Theorem C05_exhausted_far : forall pl m qs, deser m pl qs = None <-> (length qs < length (entries pl))%nat.
Proof. exact deser_exhausted. Qed.

(** The life of the requests of one value along [h] connections, for EVERY schedule [acts] (which
    request moves next, where and when connections are lost) and every decision vector [decide] of the
    far end (in particular the one computed by [match_reqs]: accepted iff matched by id).

    TRUSTED HYPOTHESIS (chmux level, to be discharged by the dispatcher model of C10 and the fail-stop
    model of C06): on a live connection every request in flight is delivered and answered exactly once,
    and on a lost connection every outstanding request fails.  In the model this is the enabledness of
    [AMove] / [ALost] for every unresolved request ([C05_progress]).

    Safety: the origin's connect future succeeds only for a request the far end accepted; a request
    the far end dropped never leaves a port at the far end; a far-end callback fails only when its own
    connection was lost; an origin error despite a far-end port means a connection on the path was lost. *)
Theorem C05_errors_safe : forall h decide acts i r,
  (1 <= h)%nat ->
  nth_error (s_reqs (run acts (init_sys h decide))) i = Some r ->
  let s := run acts (init_sys h decide) in
  let d := nth i decide false in
  (r_phase r = DoneOk -> r_far r = FConn /\ d = true) /\
  (d = false -> r_far r = FNone /\ r_phase r <> DoneOk) /\
  (r_far r = FErr -> d = true /\ In h (s_dead s)) /\
  (r_phase r = DoneErr -> r_far r = FConn -> s_dead s <> []).
Proof. exact resolution_safe. Qed.

(** Progress: an unresolved request always has an enabled step. *)
Theorem C05_progress : forall s i r,
  inv s -> nth_error (s_reqs s) i = Some r -> is_done r = false ->
  enabled s (AMove i) = true \/ enabled s (ALost i) = true.
Proof. exact progress. Qed.

(** Termination: no schedule takes more than [n * (3 h + 2)] request steps. *)
Theorem C05_terminates : forall acts s, inv s -> (moves acts s <= measure s)%nat.
Proof. exact resolution_terminates. Qed.
Theorem C05_measure : forall h decide, measure (init_sys h decide) = (length decide * (3 * h + 2))%nat.
Proof. exact init_measure. Qed.

(** At quiescence nothing is pending: an accepted request is connected at both ends or, if a
    connection was lost, failed at the origin; a dropped request failed at the origin and left nothing
    at the far end.  Never a hang, never a connection for a request the far end did not match. *)
Theorem C05_errors : forall h decide acts,
  (1 <= h)%nat ->
  let s := run acts (init_sys h decide) in
  quiescent s ->
  forall i r, nth_error (s_reqs s) i = Some r ->
    if nth i decide false
    then (r_phase r = DoneOk /\ r_far r = FConn) \/ (r_phase r = DoneErr /\ s_dead s <> [])
    else r_phase r = DoneErr /\ r_far r = FNone.
Proof. exact resolved_at_quiescence. Qed.

(** End to end: a value is wired and its requests resolve, under an arbitrary schedule, with the far
    end's decisions as computed by the matching ([decisions w]).  At quiescence, if no connection was
    lost, the callback of every normally travelling half holds its connected port at both ends, and
    the callback of every half the far end does not know got an error with nothing left at the far end. *)
Theorem C05_end_to_end : forall ls ps hops last_sizes qs w,
  NoDup (map l_cb ls) -> NoDup (ps ++ fake_ids ls) -> Forall hop_ok hops ->
  wire ls ps hops last_sizes qs = WOk w ->
  forall acts,
  let s := run acts (init_sys (S (length hops)) (decisions w)) in
  quiescent s -> s_dead s = [] ->
  forall i p cb r, nth_error (w_table w) i = Some (p, cb) -> nth_error (s_reqs s) i = Some r ->
    ((exists l, In l ls /\ l_cb l = cb /\ l_mode l = MReal) -> r_phase r = DoneOk /\ r_far r = FConn) /\
    ((exists l, In l ls /\ l_cb l = cb /\ l_mode l = MIgnored) -> r_phase r = DoneErr /\ r_far r = FNone).
Proof. exact end_to_end. Qed.

(** The canonical schedule of the executable model is one of the schedules quantified over. *)
Theorem C05_big_step_sound : forall fuel n s, exists acts, drive_all fuel n s = run acts s.
Proof. exact drive_all_run. Qed.

(** ** Interlock of [bin] / [lr] channels *)

(** FULL STATEMENT ([C05_interlock_fixed], [C05_interlock_fixed_path], [C05_interlock_cancel]): once
    one half of a bin / lr channel has left on a direct connection, serializing the other half never produces a direct connection to the departed local
    half (bin: forwarding path, lr: serialization error); a cancelled transfer reverts to [Local].
    It holds for the repaired transitions ([fixed = true]: the serialization marks the half that is
    being sent), for every sequence of serializations, confirmations and cancellations: *)
Theorem C05_interlock_fixed : forall lr acts, is_bad (il_run true lr acts) = false.
Proof. exact interlock_fixed. Qed.
Theorem C05_interlock_fixed_path : forall lr acts s,
  let st := il_run true lr acts in
  g_direct st s = true -> g_direct st (other s) = false ->
  is_last (il_step true lr st (ISer (other s))) = if lr then SerError else Forwarding.
Proof. exact interlock_fixed_other. Qed.
Theorem C05_interlock_cancel : forall fixed lr st s,
  g_open st s = true -> get_loc (is_il st) (marked fixed s) = Sending CEmpty ->
  let st' := il_step fixed lr st (ICancel s) in
  check_local (get_loc (is_il st') (marked fixed s)) = (Local, true) /\ g_direct st' s = false.
Proof. exact interlock_cancel_reverts. Qed.

(** It is REFUTED for the code before the repair of finding F10 ([fixed = false]): there
    [Sender::serialize] checked and marked [interlock.receiver], [Receiver::serialize] checked and
    marked [interlock.sender]; after the sender had left, serializing the receiver took the direct
    path again.  /repo marks the half that is sent since that repair ([Gen/Halves.v], [C05_source_shape]). *)
Theorem C05_interlock_refuted : forall lr,
  exists acts, is_bad (il_run false lr acts) = true /\ is_last (il_run false lr acts) = Direct.
Proof. exact interlock_refuted. Qed.

(** Outside the known class (both halves of one bin / lr channel get serialized) the unrepaired
    transitions keep the property too. *)
Theorem C05_interlock_one_side : forall lr s0 acts,
  forallb (only_side s0) acts = true -> is_bad (il_run false lr acts) = false.
Proof. exact interlock_one_side. Qed.

(** ** Facts read off the source on every run (tools/gen_from_source.py, [Gen/Halves.v]) *)

(** The lines the model transcribes are there, exactly once each: ids are port numbers at the origin,
    callbacks are collected and zipped in visiting order, the forwarder keeps the id and relays the
    answer, the deserializer registers under the remote port number, matches by id and reports what is
    left over.  (Which location the bin / lr serializers mark is read off as four booleans that select
    [fixed] in the executable model; they are not asserted here.) *)
Theorem C05_source_shape :
  ser_id_is_port = true /\ ser_callbacks_in_order = true /\ forward_keeps_id = true /\
  forward_relays_answer = true /\ deser_keyed_by_remote_port = true /\ match_by_id = true /\
  missing_ports_reported = true /\ interlock_sites_understood = true /\
  bin_tx_marks_own = bin_rx_marks_own /\ lr_tx_marks_own = lr_rx_marks_own.
Proof. exact source_shape. Qed.

(** ** Non-vacuity *)

(** Three halves (one the far end ignores) plus one lost request over three connections, ports handed
    out in "random" order, batches of one and two requests: the two normal halves are wired to their own
    counterparts, the superfluous request is rejected, the lost id is reported missing; the requests
    then resolve under a schedule that loses the middle connection while the second answer is on its
    way: the first is connected at both ends, the second fails at the origin. *)
Example C05_nonvacuous :
  let ls := [mkLeaf (mkCb 0 STx) MReal; mkLeaf (mkCb 1 SRx) MIgnored; mkLeaf (mkCb 2 SRx) MReal;
             mkLeaf (mkCb 3 STx) (MFake 77)] in
  (exists w, wire ls [41; 7; 19; 3] [([8; 2; 5], [1%nat]); ([6; 9; 4], [2%nat])] [1%nat; 1%nat] [30; 10; 20] = WOk w /\
     pairing (w_table w) (w_tabs w) (w_acc w) = [(mkCb 0 STx, mkCb 0 STx); (mkCb 2 SRx, mkCb 2 SRx)] /\
     map r_id (w_rej w) = [7] /\ map fst (w_missing w) = [77]) /\
  map r_phase (s_reqs (run [AMove 0; AMove 0; AMove 0; AMove 0; AMove 0; AMove 0; AMove 0;
                            AMove 1; AMove 1; AMove 1; AMove 1; AMove 1; ACut 2; ALost 1; AMove 1]
                           (init_sys 3 [true; true]))) = [DoneOk; DoneErr].
Proof. vm_compute. split; [eexists; repeat split|reflexivity]. Qed.

Print Assumptions C05_wiring.
Print Assumptions C05_wiring_injective.
Print Assumptions C05_wiring_complete.
Print Assumptions C05_forwarding.
Print Assumptions C05_superfluous_rejected.
Print Assumptions C05_missing_reported.
Print Assumptions C05_exhausted_origin.
Print Assumptions C05_exhausted_far.
Print Assumptions C05_errors_safe.
Print Assumptions C05_progress.
Print Assumptions C05_terminates.
Print Assumptions C05_measure.
Print Assumptions C05_errors.
Print Assumptions C05_end_to_end.
Print Assumptions C05_big_step_sound.
Print Assumptions C05_interlock_fixed.
Print Assumptions C05_interlock_fixed_path.
Print Assumptions C05_interlock_cancel.
Print Assumptions C05_interlock_refuted.
Print Assumptions C05_interlock_one_side.
Print Assumptions C05_source_shape.
