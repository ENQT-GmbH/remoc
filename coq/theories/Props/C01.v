(** C01 -- Port delivery: exactly-once, in-order, byte-exact, cancel-atomic messages.
    Statements, their derivation from the lemmas of the proof files, evaluated examples, and assumption printing. *)
From Remoc Require Import Lib.Base Chmux.Parse Chmux.Recv Chmux.RecvProofs Chmux.PortFlow Chmux.PortFlowProofs.

(** For every configuration accepted by [Cfg::check], every receiver limit and every schedule
    (user calls incl. cancellation at every await, task interleaving, delivery of frames and of
    returned credits): what the sending operations have handed over parses to exactly the messages
    whose send returned [Ok] -- a cancelled or failed send contributes nothing and disturbs neither
    its predecessors nor its successors. *)
Theorem C01_sends_are_atomic : forall c md mp acts,
  cfg_ok c -> let s := run acts (init c md mp) in parse (emitted s) = completed s.
Proof. intros c md mp acts Hc. exact (emitted_parse md mp _ (Inv_run c md mp acts Hc)). Qed.

(** A consumer following the receive protocol obtains from ANY frame sequence exactly the data
    messages it contains, each once, in order, byte for byte, whole or streamed (whatever their size
    relative to [max_data_size]). *)
Theorem C01_receiver_refines_parser : forall md mp fs,
  let '(_, _, o) := feed_all CAny (rinit md mp) fs in
  data_of (delivered_msgs o) = data_of (parse fs).
Proof. exact recv_refines_parse. Qed.

(** At every moment of every schedule the data messages obtained by the receiver are a prefix of the
    completed sends: nothing is duplicated, reordered, altered, merged, or invented. *)
Theorem C01_delivery_prefix : forall c md mp acts,
  cfg_ok c -> let s := run acts (init c md mp) in
  prefix (data_of (delivered_msgs (delivered s))) (data_of (completed s)).
Proof. intros c md mp acts Hc. exact (delivery_prefix md mp _ (Inv_run c md mp acts Hc)). Qed.

(** Eventual delivery, stated at quiescence: once the queues between sender and receiver are empty
    (the receiver has consumed what was delivered), every completed send has been obtained.
    That the queues do drain while the receiver keeps receiving is C03 (progress, measures). *)
Theorem C01_delivery_complete : forall c md mp acts,
  cfg_ok c -> let s := run acts (init c md mp) in
  rxq s = [] -> link s = [] -> evq s = [] ->
  (op s = SIdle \/ exists f a, op s = SChunkIdle f a) ->
  data_of (delivered_msgs (delivered s)) = data_of (completed s).
Proof. intros c md mp acts Hc. exact (delivery_complete md mp _ (Inv_run c md mp acts Hc)). Qed.

(** Non-vacuity: a 7-byte message is cancelled after two chunks, then a one-byte message is sent;
    the receiver obtains exactly the second one. *)
Example C01_nonvacuous :
  let c := {| chunk := 4; limit := 6; cap_s := 1; cap_r := 1 |} in
  let s := run [USend [1;2;3;4;5;6;7]; TReq; TEmit; TMux; TEmit; TMux; TLink; TLink; RConsume; TCredMux; TCredLink;
                UCancel; USend [9]; TReq; TEmit; TMux; TLink; RConsume; RConsume; TCredMux; TCredLink] (init c 100 10) in
  emitted s = [FData true false [1;2;3;4]; FData false false [5;6]; FData true true [9]] /\
  completed s = [MData [9]] /\ delivered s = [DData [9]] /\ pool s = 5.
Proof. vm_compute. auto. Qed.

Print Assumptions C01_sends_are_atomic.
Print Assumptions C01_receiver_refines_parser.
Print Assumptions C01_delivery_prefix.
Print Assumptions C01_delivery_complete.
