(** C13 (hash set) -- a mirror of an [ObservableHashSet] equals the set.
    Statements, their derivation from the lemmas of the proof file, and assumption printing.

    Model: [Robs/HashSet.v].  Elements are compared with Leibniz equality ([replace]/[insert] of an
    [Eq]-equal but distinguishable element is outside the claim).

    Full statement, proved without exception:
      forall init ops k md max, fits_from max init ops k = true ->
        mirror_ok init ops k md max /\ hand_ok init ops k md.
    (F11, incremental subscription of a non-empty set made after [done()], was repaired in /repo by
    commit 290b96a; the model follows the repaired code.) *)
From Remoc Require Import Lib.Base Robs.KeyMap Robs.HashSet Robs.HashSetProofs.
From Remoc Require Gen.Api Gen.Variants Robs.SeqCommonProofs.

(** For every initial content, operation sequence (insert, replace, remove, take, clear, retain
    with any predicate, shrink_to_fit, done, set_error_handler; calls after [done()] panic and
    change nothing), subscription point, mode and [max_size] that is not exceeded: the mirror task
    reports no error, holds exactly the observed elements, is done iff [done()] was called, and is
    complete. *)
Theorem C13_HashSet_mirror : forall init ops k md max,
  fits_from max init ops k = true ->
  mirror_ok init ops k md max.
Proof. exact mirror_ok_always. Qed.

(** Consuming [take_initial()] and the [recv()] stream by hand gives the same elements and sees
    [Done] iff [done()] was called -- no exception. *)
Theorem C13_HashSet_hand : forall init ops k md, hand_ok init ops k md.
Proof. exact hand_ok_always. Qed.

(** The former F11 witness -- [{1, 2}], [done()], then [subscribe_incremental().mirror()] -- is
    mirrored completely. *)
Example C13_HashSet_late_incremental_now_ok :
  late_incremental_at [1; 2] f11_ops 1 Incremental = true /\
  mirror_task (mirror_init Incremental (state_at [1; 2] f11_ops 1) 100) (stream_at [1; 2] f11_ops 1 Incremental)
  = ({| m_hs := [(1, tt); (2, tt)]; m_complete := true; m_done := true; m_max := 100 |}, None).
Proof. split; vm_compute; reflexivity. Qed.

(** The modelled operations / events are exactly those found in the Rust source on this run. *)
Theorem C13_HashSet_api_covered :
  Gen.Api.hash_set_ObservableHashSet_mutators = map op_name all_ops ++ consuming_ops.
Proof. exact api_covered. Qed.
Theorem C13_HashSet_api_complete : forall o, In (op_name o) (map op_name all_ops).
Proof. destruct o; apply SeqCommonProofs.str_in; reflexivity. Qed.
Theorem C13_HashSet_events_covered :
  Gen.Variants.HashSetEvent_variants = map event_name all_events /\
  forall e, In (event_name e) (map event_name all_events).
Proof. split; [reflexivity|]. destruct e; apply SeqCommonProofs.str_in; reflexivity. Qed.

Example C13_HashSet_nonvacuous :
  let init := [3; 1; 2; 3] in
  let ops := [Insert 4; Insert 1; Retain true [(2, false)]; Take 9; Take 1; Replace 5; Remove 3; Clear; Clear;
              Insert 6; MarkDone; Insert 7] in
  fits_from 4 init ops 2 = true /\
  elems (o_hs (final_state init ops)) = [6] /\
  stream_at init ops 2 Incremental =
    [ESet 1; ESet 2; ESet 3; ESet 4; EInitialComplete; ERemove 2; ERemove 1; ESet 5; ERemove 3; EClear; ESet 6; EDone].
Proof. vm_compute. repeat split; reflexivity. Qed.

Print Assumptions C13_HashSet_mirror.
Print Assumptions C13_HashSet_hand.
Print Assumptions C13_HashSet_late_incremental_now_ok.
Print Assumptions C13_HashSet_api_covered.
Print Assumptions C13_HashSet_api_complete.
Print Assumptions C13_HashSet_events_covered.
