(** C19 -- Abandoned or failing calls are cancelled and never wedge the server.
    Statements, their derivation from the lemmas of the proof files, evaluated examples, and assumption printing.  Model [Rtc/Server.v], proofs
    [Rtc/ServerProofs.v]; see [Props/C12.v] for what an action list ranges over.  The per-state
    theorems below hold in EVERY state [s] (reachable or not), for an arbitrary target state machine. *)
From Remoc Require Import Lib.Base Rtc.Lin Rtc.Server Rtc.ServerProofs Run.RunRtc.
From RecordUpdate Require Import RecordUpdate.

(** Cancellation.  When the reply cell of a cancellable method is closed (caller dropped the call
    future, or connection lost), the next step of its handler -- in whatever phase: not started,
    suspended before its effect, suspended after it -- abandons the call ([Server.abandon]): nothing of the method runs any
    more, the reply sender is dropped and the guard the handler held is released in that very step. *)
Theorem C19_cancel : forall (St Arg Rep : Type) (apply : St -> call Arg -> St * Rep) (too_big : call Arg -> Rep -> bool)
    (s : sys St Arg Rep) h,
  c_nocancel (q_call (h_req h)) = false -> is_closed s (q_cell (h_req h)) = true ->
  let i := q_cell (h_req h) in
  let e := match h_ph h with PNew => ESkip i | _ => ECancel i end in
  poll_h apply too_big s h = (ev_add e (release (h_lk h) (set_slot i SDead s)), None).
Proof. exact @cancel_abandons. Qed.

(** For the handler the serve loop runs inline: after that step the loop is back at its [select] (or
    behind the loop after a by-value request), the lock is released, queue, tasks, target and logical
    state are untouched, nothing was executed, no other call is affected ... *)
Theorem C19_cancel_inline : forall (St Arg Rep : Type) (apply : St -> call Arg -> St * Rep) (too_big : call Arg -> Rep -> bool)
    (s : sys St Arg Rep) h,
  loop s = LRun h -> c_nocancel (q_call (h_req h)) = false -> is_closed s (q_cell (h_req h)) = true ->
  let s' := loop_step apply too_big s in
  loop s' = after_handler s h /\ released (h_lk h) s s' /\ queue s' = queue s /\ tasks s' = tasks s /\
  target s' = target s /\ lst s' = lst s /\ errq s' = errq s /\
  (forall j, execs j (trace s') = execs j (trace s)) /\
  (forall j, j <> q_cell (h_req h) -> get_call s' j = get_call s j).
Proof. exact @cancel_inline. Qed.

(** ... and the next step of the loop takes the next request: later requests are served. *)
Theorem C19_cancel_next : forall (St Arg Rep : Type) (apply : St -> call Arg -> St * Rep) (too_big : call Arg -> Rep -> bool)
    (s : sys St Arg Rep) q rest,
  loop s = LIdle -> errq s = 0 -> queue s = QReq q :: rest ->
  loop_step apply too_big s = dispatch (s <| queue := rest |>) q.
Proof. exact @idle_serves_next. Qed.

(** For a spawned handler task (shared and shared-mut servers): the task ends, its read guard is
    released, the loop and every other task are untouched. *)
Theorem C19_cancel_task : forall (St Arg Rep : Type) (apply : St -> call Arg -> St * Rep) (too_big : call Arg -> Rep -> bool)
    (s : sys St Arg Rep) k h,
  nth_error (tasks s) k = Some h -> c_nocancel (q_call (h_req h)) = false -> is_closed s (q_cell (h_req h)) = true ->
  let s' := task_step apply too_big s k in
  tasks s' = del k (tasks s) /\ released (h_lk h) s s' /\ loop s' = loop s /\ queue s' = queue s /\
  target s' = target s /\ lst s' = lst s /\
  (forall j, execs j (trace s') = execs j (trace s)) /\
  (forall j, j <> q_cell (h_req h) -> get_call s' j = get_call s j).
Proof. exact @cancel_task. Qed.

(** No guard is ever leaked, along every run of the shared-mut server: the read guards held are exactly
    those of the live handlers and the write guard is held iff a live handler holds it; with no live
    handler the lock is free, so a request waiting for it is served. *)
Theorem C19_no_lock_leak : forall (St Arg Rep : Type) (apply : St -> call Arg -> St * Rep) (too_big : call Arg -> Rep -> bool)
    f sp p re ncl s0 acts,
  let s := run apply too_big acts (init f sp p re ncl s0) in
  flav s = FSharedMut ->
  rd s = N.of_nat (nreads (handlers s)) /\ (wr s = true <-> (0 < nwrites (handlers s))%nat) /\
  (handlers s = [] -> rd s = 0 /\ wr s = false).
Proof. exact @no_lock_leak. Qed.

(** A [#[no_cancel]] method runs to completion whatever happens to its caller: each poll takes it one
    phase further -- start, effect, return (guard released) -- and never abandons it. *)
Theorem C19_no_cancel : forall (St Arg Rep : Type) (apply : St -> call Arg -> St * Rep) (too_big : call Arg -> Rep -> bool)
    (s : sys St Arg Rep) h,
  c_nocancel (q_call (h_req h)) = true ->
  let i := q_cell (h_req h) in
  let c := q_call (h_req h) in
  match h_ph h with
  | PNew => forall t, target s = Some t ->
            snd (poll_h apply too_big s h) = Some (mkH (h_req h) (PRun t) (h_lk h)) /\
            trace (fst (poll_h apply too_big s h)) = EStart i :: trace s
  | PRun t => snd (poll_h apply too_big s h) = Some (mkH (h_req h) (PApplied (snd (apply t c))) (h_lk h)) /\
              trace (fst (poll_h apply too_big s h)) = EExec i c (snd (apply t c)) :: trace s
  | PApplied r => snd (poll_h apply too_big s h) = None /\ trace (fst (poll_h apply too_big s h)) = EFinish i :: trace s /\
                  released (h_lk h) s (fst (poll_h apply too_big s h))
  end.
Proof. exact @no_cancel_runs. Qed.

(** Isolation.  A request that cannot be decoded (this includes a call of a method the server does not
    know) fails only that call: on arrival its own reply sender is dropped (its caller gets a
    [CallError]), a non-final receive error is queued, nothing else changes; *)
Theorem C19_isolated : forall (St Arg Rep : Type) (apply : St -> call Arg -> St * Rep) (too_big : call Arg -> Rep -> bool)
    (s : sys St Arg Rep) k cl q,
  first_of_client (wire s) (N.to_nat k) = true -> nth_error (wire s) (N.to_nat k) = Some (cl, q) ->
  c_bad (q_call q) = true -> is_done (loop s) = false ->
  let s' := step apply too_big s (ADeliverReq k) in
  queue s' = queue s ++ [QBad] /\ loop s' = loop s /\ tasks s' = tasks s /\ target s' = target s /\ lst s' = lst s /\
  trace s' = trace s /\
  (forall j, j <> q_cell q -> get_call s' j = get_call s j) /\
  (forall cr, get_call s (q_cell q) = Some cr -> exists cr', get_call s' (q_cell q) = Some cr' /\ cr_slot cr' = SDead).
Proof. exact @bad_request_arrives. Qed.

(** the loop handles the error per policy: under Ignore and Send its state is otherwise unchanged
    (it stays at its [select] and goes on with the rest of the queue), under Fail [serve()] returns it; *)
Theorem C19_isolated_policy : forall (St Arg Rep : Type) (apply : St -> call Arg -> St * Rep) (too_big : call Arg -> Rep -> bool)
    (s : sys St Arg Rep) rest,
  loop s = LIdle -> errq s = 0 -> queue s = QBad :: rest ->
  loop_step apply too_big s =
  match pol s with
  | PIgnore => ev_add EReqErr (s <| queue := rest |>)
  | PSend => ev_add EReqErr (s <| queue := rest |>) <| uerrs := uerrs s + 1 |>
  | PFail => finish RErrReq (ev_add EReqErr (s <| queue := rest |>))
  end.
Proof. exact @bad_request_handled. Qed.

(** a request of a kind the server flavour does not serve is received and dropped. *)
Theorem C19_isolated_kind : forall (St Arg Rep : Type) (apply : St -> call Arg -> St * Rep) (too_big : call Arg -> Rep -> bool)
    (s : sys St Arg Rep) q rest,
  loop s = LIdle -> errq s = 0 -> queue s = QReq q :: rest -> supports (flav s) (c_kind (q_call q)) = false ->
  loop_step apply too_big s = set_slot (q_cell q) SDead (s <| queue := rest |>).
Proof. exact @unsupported_request_dropped. Qed.

(** Replies that exceed the size limit.  FULL STATEMENT (false on the current code, finding F6):
      forall acts, loop (run apply too_big acts (init f sp p re ncl s0)) <> LDone RErrReply
    -- "a reply exceeding the size limit fails only that call".
    The faithful model refutes it: [send_reply] forwards the transmission error to the serve loop,
    which returns [Err(ReplySend)]; a request of another client queued behind is dropped. *)
Theorem C19_reply_too_big_refuted :
  let big := mk_call false 2 5 16 in      (* add, reply exceeds the limit *)
  let get := mk_call false 0 7 0 in
  exists acts,
    let s := run apply_obj (too_big_obj 2000) acts (init FRefMut false PIgnore true 2 0) in
    loop s = LDone RErrReply /\
    In (EInv 1 1 get) (trace s) /\ In (ERet 1 OErr) (trace s) /\ execs 1 (trace s) = 0%nat.
Proof.
  exists [AInvoke 0 (mk_call false 2 5 16); ASend 0; ADeliverReq 0; ALoop; ALoop; ALoop; ALoop; ASendDone 0;
          AInvoke 1 (mk_call false 0 7 0); ASend 1; ADeliverReq 0; ALoop; AReturn 1].
  vm_compute. repeat split; auto.
Qed.

(** Outside the known class -- no reply exceeds the limit (or the provider does not report reply
    errors, as the [rfn] providers) -- the statement holds for every run. *)
Theorem C19_reply_too_big : forall (St Arg Rep : Type) (apply : St -> call Arg -> St * Rep) (too_big : call Arg -> Rep -> bool)
    f sp p re ncl s0 acts,
  (forall c r, too_big c r = false) \/ re = false ->
  loop (run apply too_big acts (init f sp p re ncl s0)) <> LDone RErrReply.
Proof. exact @reply_ok_never_fails. Qed.

(** Requests that exceed the size limit.  FULL STATEMENT (false on the current code, finding F14):
      forall acts cl, nth_error (clients (run ...)) cl <> Some ClPoisoned
    -- "an oversized request fails only that call".  The model refutes it: the client's request
    sender latches the send error, every later call through this client handle (and its clones
    sharing the port) fails although the server is alive, and the server's end of the port ends. *)
Theorem C19_request_too_big_refuted :
  let big := mk_call false 2 5 32 in      (* add, request exceeds the limit *)
  let get := mk_call false 0 7 0 in
  exists acts,
    let s := run apply_obj (too_big_obj 0) acts (init FRefMut false PIgnore true 1 0) in
    nth_error (clients s) 0 = Some ClPoisoned /\
    In (EInv 1 0 get) (trace s) /\ In (ERet 1 OErr) (trace s) /\ execs 1 (trace s) = 0%nat /\
    loop s = LDone ROk.
Proof.
  exists [AInvoke 0 (mk_call false 2 5 32); ASend 0; AInvoke 0 (mk_call false 0 7 0); ASend 1; ACloseReqs; ALoop; ALoop].
  vm_compute. repeat split; auto.
Qed.

Theorem C19_request_too_big : forall (St Arg Rep : Type) (apply : St -> call Arg -> St * Rep) (too_big : call Arg -> Rep -> bool)
    f sp p re ncl s0 acts,
  no_big_requests acts ->
  forall cl, nth_error (clients (run apply too_big acts (init f sp p re ncl s0))) cl <> Some ClPoisoned.
Proof. exact @request_ok_never_poisons. Qed.

(** Non-vacuity, ref-mut server on the counter object, two clients: client 0's cancellable [add] has
    started (suspended before its effect) when its caller drops the call; the close notification
    arrives; the loop's next step abandons the method (no effect: the state stays 0), and the request of
    client 1 queued behind it is served and answered (7 = 0 + 7).  With [add_nc] (no_cancel) in the same
    schedule the method runs to completion (state 6) before client 1 is served (13 = 6 + 7). *)
Example C19_nonvacuous :
  let get := mk_call false 0 7 0 in
  let sched c := [AInvoke 0 c; AInvoke 1 get; ASend 0; ASend 1; ADeliverReq 0; ADeliverReq 0;
                  ALoop; ALoop; ADropCall 0; ANotifyClose 0; ALoop; ALoop; ALoop; ALoop; ALoop; ALoop; ALoop; ALoop;
                  ADeliverReply 1; AReturn 1] in
  let s := run apply_obj (too_big_obj 0) (sched (mk_call false 2 5 0)) (init FRefMut false PIgnore true 2 0) in
  let s' := run apply_obj (too_big_obj 0) (sched (mk_call false 3 5 0)) (init FRefMut false PIgnore true 2 0) in
  In (ECancel 0) (trace s) /\ execs 0 (trace s) = 0%nat /\ lst s = 0 /\ In (ERet 1 (OVal 7)) (trace s) /\
  ~ In (ECancel 0) (trace s') /\ execs 0 (trace s') = 1%nat /\ lst s' = 6 /\ In (ERet 1 (OVal 13)) (trace s').
Proof. vm_compute. repeat split; auto; intuition discriminate. Qed.

Print Assumptions C19_cancel.
Print Assumptions C19_cancel_inline.
Print Assumptions C19_cancel_next.
Print Assumptions C19_cancel_task.
Print Assumptions C19_no_lock_leak.
Print Assumptions C19_no_cancel.
Print Assumptions C19_isolated.
Print Assumptions C19_isolated_policy.
Print Assumptions C19_isolated_kind.
Print Assumptions C19_reply_too_big_refuted.
Print Assumptions C19_reply_too_big.
Print Assumptions C19_request_too_big_refuted.
Print Assumptions C19_request_too_big.
