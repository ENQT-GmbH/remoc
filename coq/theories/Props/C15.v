(** C15 -- Watch channels converge to the latest value and never go backwards.

    Model: [Rch/Watch.v] (transcription of rch/watch/{mod,sender,receiver}.rs): a tree of Tokio
    watch cells joined by forwarding tasks ([send_impl] -> remote FIFO -> [recv_impl]).  Every
    interleaving of application calls (send, send_modify, drop of the sender, subscribe, clone, drop
    of a receiver, borrow, borrow_and_update, a poll of changed(), transfer of a receiver or of the
    sender to another endpoint -- at any moment, any number of hops) with every step of every
    forwarding task and with connection failures is an [action] list; [run acts (init p) = Some st]
    says that [acts] is such an interleaving (each action enabled when taken) and [st] is where it
    ends.  Values are pairs (send index, payload); [sent st] lists the stored payloads in order;
    [robs] is the log of everything a receiver handle was shown.

    Trusted Tokio rules (definitions of the model, see the header of Watch.v): T1 [changed()]
    reports an unseen version before it reports closure; T2 [send] fails without storing iff there
    is no receiver, [closed()] completes iff there is none; T3 subscribe / clone / borrow_and_update
    version marking.  The remote channel between the two tasks of a link is a FIFO (C01/C04). *)
From Coq Require Import Sorted.
From Remoc Require Import Lib.Base Rch.Watch Rch.WatchProofs.

(** Every value ever shown to a receiver (local, remote, any number of hops, created at any time)
    was stored by the sender under exactly that index -- for all action lists, faults included. *)
Theorem C15_only_sent : forall acts p st r v,
  run acts (init p) = Some st -> (r < nrcv st)%nat -> In v (robs (rcvs st r)) ->
  nth_error (sent st) (N.to_nat (fst v)) = Some (snd v).
Proof. exact only_sent. Qed.

(** The send indices shown to a receiver are non-decreasing (never an older value after a newer
    one), and none is ahead of the receiver's cell -- for all action lists, faults included.
    With [C15_only_sent]: what a receiver sees is, up to repetition, a subsequence of the sent
    sequence in sending order. *)
Theorem C15_monotone : forall acts p st r,
  run acts (init p) = Some st -> (r < nrcv st)%nat ->
  StronglySorted N.le (map fst (robs (rcvs st r))) /\
  Forall (fun v => fst v <= fst (cval (cells st (rcell (rcvs st r))))) (robs (rcvs st r)).
Proof. exact monotone. Qed.

(** In every state reached without connection faults in which no forwarding task can take a step,
    the cell of every live receiver -- at every hop, whenever the receiver was created, cloned or
    transferred -- holds the value stored last (index and payload), not an error. *)
Theorem C15_latest : forall acts p st r,
  run acts (init p) = Some st -> no_fault acts = true -> quiescent st = true ->
  (r < nrcv st)%nat -> rlive (rcvs st r) = true ->
  cval (cells st (rcell (rcvs st r))) = latest st /\ cerr (cells st (rcell (rcvs st r))) = false.
Proof. exact latest_at_quiescence. Qed.

(** The value sent immediately before the sender is dropped is not lost: whatever happens before
    ([acts1]) and after ([acts2], which cannot store anything: the sender is gone), at quiescence
    every live receiver holds [q].  This is where rule T1 is used ([FwdEnd] needs [lseen = cver]). *)
Theorem C15_latest_after_drop : forall acts1 acts2 p q st1 st r,
  run acts1 (init p) = Some st1 -> send_ok st1 = true ->
  run (Send q :: DropSender :: acts2) st1 = Some st ->
  no_fault (acts1 ++ acts2) = true -> quiescent st = true ->
  (r < nrcv st)%nat -> rlive (rcvs st r) = true ->
  snd (cval (cells st (rcell (rcvs st r)))) = q /\ cerr (cells st (rcell (rcvs st r))) = false.
Proof. exact latest_after_drop. Qed.

(** Progress: while the cell of some live receiver is behind, some forwarding task can take a step
    (so "eventually" cannot be blocked; the fair runner of the correspondence check reaches
    quiescence within its fuel on every case). *)
Theorem C15_progress : forall acts p st r,
  run acts (init p) = Some st -> no_fault acts = true ->
  (r < nrcv st)%nat -> rlive (rcvs st r) = true ->
  cval (cells st (rcell (rcvs st r))) <> latest st ->
  exists a st', is_fwd a = true /\ step st a = Some st'.
Proof. exact progress. Qed.

(** No lost wake-up at a receiver: [rsidx] is the index of the value that was current when the
    receiver last marked a version seen (creation, clone, [borrow_and_update], [changed()] = Ok).
    Whenever its cell holds a value with another index, a poll of [changed()] answers Ok -- for all
    action lists, faults included.  With [C15_latest]: at quiescence every live receiver has either
    marked the last value seen or is woken by [changed()] and reads it with [borrow_and_update]. *)
Theorem C15_no_lost_wakeup : forall acts p st r,
  run acts (init p) = Some st -> (r < nrcv st)%nat ->
  rsidx (rcvs st r) <> fst (cval (cells st (rcell (rcvs st r)))) ->
  changed_res st r = ChOk.
Proof. exact no_lost_wakeup. Qed.

(** The quiescence barrier of the big-step runner compared with the implementation
    ([Run/RunWatch.v]) is a fault-free list of small steps. *)
Theorem C15_big_steps_sound : forall fuel st,
  exists acts, run acts st = Some (quiesce fuel st) /\ no_fault acts = true.
Proof. exact quiesce_sound. Qed.

(** Non-vacuity: a burst, a transfer of receiver 0 in the middle of it (the snapshot carries 11, the
    forwarding task has marked it seen), a second hop, a drop right after the last send; the remote
    receivers observe 11, 13 and then -- after the forwarding tasks have run -- 14, the value sent
    immediately before the drop, followed by closure.  In the second run the tasks are driven by
    [quiesce]; the sender has been moved to another endpoint first. *)
Example C15_nonvacuous :
  option_map (fun st => (map (fun r => robs (rcvs st r)) (seq 0 (nrcv st)), sent st, quiescent st,
                         map (fun r => changed_res st r) (seq 0 (nrcv st))))
    (run [Send 10; Send 11; TransferRx 0; Send 12; Observe 1; Send 13; FwdTake 1; TransferRx 1; FwdDeliver 1;
          Observe 1; Observe 2; Send 14; DropSender; FwdTake 1; FwdEnd 1; FwdDeliver 1; FwdTake 2; FwdDeliver 2;
          FwdDeliver 1; FwdEnd 2; FwdDeliver 2; Observe 0; Observe 1; Observe 2] (init 7))
  = Some ([[(5, 14)]; [(2, 11); (4, 13); (5, 14)]; [(2, 11); (5, 14)]], [7; 10; 11; 12; 13; 14], true,
          [ChClosed; ChClosed; ChClosed]) /\
  option_map (fun st => let st := quiesce 40 st in
                        (map (fun d => cval (cells st d)) (seq 0 (ncell st)), quiescent st, latest st))
    (run [TransferRx 0; TransferTx; Send 10; TransferRx 1; Send 11; Send 12; DropSender] (init 7))
  = Some ([(3, 12); (3, 12); (3, 12); (3, 12)], true, (3, 12)).
Proof. vm_compute. auto. Qed.

Print Assumptions C15_only_sent.
Print Assumptions C15_monotone.
Print Assumptions C15_latest.
Print Assumptions C15_latest_after_drop.
Print Assumptions C15_progress.
Print Assumptions C15_no_lost_wakeup.
Print Assumptions C15_big_steps_sound.
