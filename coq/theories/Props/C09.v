(** C09 -- Wire format of protocol version 3 is stable and version-negotiated.
    Statements, their derivation from the lemmas of the proof files, evaluated examples, and assumption printing. *)
From Remoc Require Import Lib.Base Gen.Consts Chmux.Wire Chmux.Spec3 Chmux.WireProofs Chmux.Mux Chmux.MuxIds.

(** The constants read off the Rust source on this run are those of the version-3 table. *)
Theorem C09_codes_match :
  all_codes = Spec3.codes /\ MAGIC = Spec3.magic /\ PROTOCOL_VERSION = 3 /\
  PROTOCOL_VERSION_PORT_ID = Spec3.first_version_with_ids /\
  (MSG_OPEN_PORT_FLAG_WAIT, MSG_OPEN_PORT_FLAG_ID) = (1, 2) /\
  MSG_REJECTED_FLAG_NO_PORTS = 1 /\
  (MSG_DATA_FLAG_FIRST, MSG_DATA_FLAG_LAST) = (1, 2) /\
  (MSG_PORT_DATA_FLAG_FIRST, MSG_PORT_DATA_FLAG_LAST, MSG_PORT_DATA_FLAG_WAIT, MSG_PORT_DATA_FLAG_IDS) = (1, 2, 4, 8) /\
  MAX_MSG_LENGTH = 16 /\
  (XCFG_MIN_CHUNK_SIZE, XCFG_MIN_RECEIVE_BUFFER, XCFG_MIN_CONNECT_QUEUE) = (4, 4, 1).
Proof. exact codes_match. Qed.

(** Every well-formed message is emitted in the published layout (code byte, flag bits,
    little-endian fields in order). *)
Theorem C09_enc_layout3 : forall m, wf m = true -> enc m = Some (render (layout3 m)).
Proof. exact enc_layout3. Qed.

(** Every well-formed message, including the id-less variants of older peers
    ([OpenPort _ _ None], [PortData _ _ _ _ _ None]), is accepted and decoded to itself. *)
Theorem C09_dec_enc : forall m, wf m = true -> exists bs, enc m = Some bs /\ dec bs = DOk m.
Proof. exact dec_enc. Qed.

(** The encoder emits bytes. *)
Theorem C09_enc_bytes : forall m bs, wf m = true -> enc m = Some bs -> bytes_ok bs = true.
Proof. exact enc_bytes. Qed.

(** What the decoder accepts is well-formed, and its canonical re-encoding decodes to the same message. *)
Theorem C09_dec_wf : forall bs m, bytes_ok bs = true -> dec bs = DOk m -> wf m = true.
Proof. exact dec_wf. Qed.
Theorem C09_dec_canonical : forall bs m,
  bytes_ok bs = true -> dec bs = DOk m -> exists bs', enc m = Some bs' /\ dec bs' = DOk m.
Proof. exact dec_canonical. Qed.

(** The decoder is total (the loop fuel of the model is never exhausted): every byte string yields
    a message, UnexpectedEof or InvalidData. *)
Theorem C09_dec_total : forall bs, dec bs <> DFuel.
Proof. exact dec_no_fuel. Qed.

(** A configuration is exchanged with its timeout truncated to milliseconds; invalid
    configurations, unknown codes and a bad magic are rejected. *)
Theorem C09_hello_exchange : forall v c,
  u8 v = true -> wf_cfg c = true ->
  XCFG_MIN_CHUNK_SIZE <= x_chunk c -> XCFG_MIN_RECEIVE_BUFFER <= x_buffer c -> XCFG_MIN_CONNECT_QUEUE <= x_queue c ->
  exists bs, enc (Hello v c) = Some bs /\ dec bs = DOk (Hello v (exchanged c)).
Proof. exact hello_exchange. Qed.
Theorem C09_cfg_rejects : forall v c,
  u8 v = true -> wf_cfg c = true -> (x_chunk c < 4 \/ x_buffer c < 4 \/ x_queue c < 1) ->
  exists bs, enc (Hello v c) = Some bs /\ dec bs = DInvalid.
Proof. exact cfg_rejects. Qed.
Theorem C09_unknown_code : forall c r, ~ In c Spec3.codes -> dec (c :: r) = DInvalid.
Proof. exact dec_unknown_code. Qed.
Theorem C09_bad_magic : forall r,
  (length MAGIC <= length r)%nat -> firstn (length MAGIC) r <> MAGIC -> dec (MSG_HELLO :: r) = DInvalid.
Proof. exact bad_magic_rejected. Qed.

(** A configured connection timeout is never exchanged as "no timeout" (which would stop the peer's
    keep-alive pings), however short it is. *)
Theorem C09_timeout_presence : forall c,
  (x_timeout c = None <-> x_timeout (exchanged c) = None) /\
  (forall ns, x_timeout c = Some ns -> exists ms, 1 <= ms /\ x_timeout (exchanged c) = Some (ms * NS_PER_MS)).
Proof. exact timeout_presence_exchanged. Qed.

(** Length-prefixed framing on stream transports. *)
Theorem C09_deframe_frame : forall max payload rest,
  u32 (len payload) = true -> len payload <= max -> deframe max (frame payload ++ rest) = FOk payload rest.
Proof. exact deframe_frame. Qed.
Theorem C09_deframe_too_long : forall max payload rest,
  u32 (len payload) = true -> max < len payload -> deframe max (frame payload ++ rest) = FTooLong.
Proof. exact deframe_too_long. Qed.
Theorem C09_fixed_msg_length : forall m bs, fixed_size m = true -> enc m = Some bs -> len bs <= MAX_MSG_LENGTH.
Proof. exact fixed_msg_length. Qed.

(** Every message a peer may send (port batches limited to chunk_size / 4 ports, with or without ids), the
    hello message and every payload frame fit the frame length the endpoint accepts on a stream transport. *)
Theorem C09_frames_fit : forall chunk L m bs,
  max_frame_length chunk = Some L -> admissible chunk m = true -> enc m = Some bs -> u32 (len bs) = true ->
  len bs <= L /\ chunk <= L.
Proof. exact frames_fit. Qed.

(** The handshake is [Reset] then [Hello] announcing version 3 in the version-3 layout. *)
Theorem C09_handshake : forall c, exact_cfg c = true -> handshake c = map Some (Spec3.handshake3 c).
Proof. exact handshake_layout. Qed.

(** Version negotiation in the dispatcher: whatever local event it handles, in whatever state, an open request or
    port batch it emits carries ids exactly when the peer announced a version that knows them
    ([PROTOCOL_VERSION_PORT_ID <= remote version]); handling a received message emits nothing. *)
Theorem C09_ids_follow_peer_version : forall m e w pl,
  In (Emit w pl) (effs_of (handle_event m e)) -> id_capable w = true ->
  has_ids w = (PROTOCOL_VERSION_PORT_ID <=? remote_ver m).
Proof. exact event_ids. Qed.
Theorem C09_received_emits_nothing : forall m msg paylen w pl,
  ~ In (Emit w pl) (effs_of (handle_received m msg paylen)).
Proof. exact received_no_emit. Qed.

(** Non-vacuity: concrete messages meet the hypotheses. *)
Example C09_nonvacuous :
  wf (PortData 7 true false true [1; 4294967295] (Some [9; 0])) = true /\
  wf (Hello 3 {| x_timeout := Some 60000000000; x_chunk := 16384; x_buffer := 524288; x_queue := 128 |}) = true /\
  dec [8; 7; 0; 0; 0; 13; 1; 0; 0; 0; 9; 0; 0; 0] = DOk (PortData 7 true false true [1] (Some [9])).
Proof. vm_compute. auto. Qed.

Print Assumptions C09_codes_match.
Print Assumptions C09_enc_layout3.
Print Assumptions C09_dec_enc.
Print Assumptions C09_enc_bytes.
Print Assumptions C09_dec_wf.
Print Assumptions C09_dec_canonical.
Print Assumptions C09_dec_total.
Print Assumptions C09_hello_exchange.
Print Assumptions C09_cfg_rejects.
Print Assumptions C09_unknown_code.
Print Assumptions C09_bad_magic.
Print Assumptions C09_timeout_presence.
Print Assumptions C09_deframe_frame.
Print Assumptions C09_deframe_too_long.
Print Assumptions C09_fixed_msg_length.
Print Assumptions C09_handshake.
Print Assumptions C09_frames_fit.
Print Assumptions C09_ids_follow_peer_version.
Print Assumptions C09_received_emits_nothing.
