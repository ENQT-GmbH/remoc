(** C10 (local part) -- Every local port-open request is resolved at most once, by the step that is its
    cause.  Statements, their derivation from the lemmas of the proof files, evaluated examples, and assumption printing.
    [reach .. acts] is the state of one endpoint after ANY list of local API actions, helper-task
    steps, dispatcher steps and arbitrary received messages ([Chmux/Endpoint.v]); [connects e] holds
    the reply cell of every local connect request ([CWaiting] / [CResolved r]). *)
From Remoc Require Import Lib.Base Gen.Consts Chmux.Wire Chmux.Mux Chmux.Endpoint Chmux.EndpointLemmas Chmux.EndpointInv
  Chmux.EndpointEffects Chmux.EndpointProofs.

(** A dispatcher function answers ([Respond req r]) only a request that is still waiting ... *)
Theorem C10_at_most_once : forall ch bu cqs rb ver maxp acts a e' o req r,
  let e := reach ch bu cqs rb ver maxp acts in
  step_opt e a = Some e' -> disp_outcome e a = Some o -> In (Respond req r) (effs_of o) ->
  lookup req (connects e) = Some CWaiting.
Proof. intros ch bu cqs rb ver maxp acts a e' o req r e. exact (respond_only_waiting e a e' o req r (WF_reach _ _ _ _ _ _ _)). Qed.

(** ... and a resolved reply cell is never written again, by any action. *)
Theorem C10_resolved_is_final : forall ch bu cqs rb ver maxp acts a e' req r,
  let e := reach ch bu cqs rb ver maxp acts in
  step_opt e a = Some e' -> lookup req (connects e) = Some (CResolved r) ->
  lookup req (connects e') = Some (CResolved r).
Proof. intros ch bu cqs rb ver maxp acts a e' req r e. exact (resolved_stable e a e' req r (WF_reach _ _ _ _ _ _ _)). Qed.

(** While the dispatcher runs, a waiting request has exactly one carrier -- its queued
    [EConnectReq]/[ESendPorts] entry or its [Connecting] table entry -- and a resolved or unknown id
    has none. *)
Theorem C10_pending_unique : forall ch bu cqs rb ver maxp acts req,
  let e := reach ch bu cqs rb ver maxp acts in
  alive e = true ->
  occ req (q_reqs (cq e)) + occ req (q_reqs (chq e)) + occ req (port_reqs (ports (mx e))) =
  if is_waiting (lookup req (connects e)) then 1 else 0.
Proof. intros ch bu cqs rb ver maxp acts req e. exact (pending_unique e req (WF_reach _ _ _ _ _ _ _)). Qed.

(** reading of [port_reqs]: [Connecting req] entries of the table *)
Theorem C10_port_reqs_entries : forall pt p req,
  NoDup (map fst pt) ->
  (lookup p pt = Some (Connecting req) -> 1 <= occ req (port_reqs pt)) /\
  (1 <= occ req (port_reqs pt) -> exists p', In (p', Connecting req) pt).
Proof. intros pt p req Hn. split; [exact (port_reqs_connecting pt p req Hn)|exact (port_reqs_exists pt req)]. Qed.

(** Requests of the remote endpoint waiting in the two listener queues: at most [connect_queue + 1] each. *)
Theorem C10_listen_queue_bound : forall ch bu cqs rb ver maxp acts,
  let e := reach ch bu cqs rb ver maxp acts in
  lq_wait (mx e) <= cfg_connect_queue (mx e) + 1 /\ lq_nowait (mx e) <= cfg_connect_queue (mx e) + 1.
Proof. intros ch bu cqs rb ver maxp acts e. exact (proj2 (buffer_bounds e (WF_reach _ _ _ _ _ _ _))). Qed.

(** The answer recorded for a request is the cause of the step that recorded it:
    [RRejected np] -- the peer's [Rejected {no_ports = np}] for the request's [Connecting] port, or
    ([np = false]) the dispatcher found the remote listener dropped when it dequeued the request;
    [RAccepted p q] -- the peer's [PortOpened {p, q}] for the request's [Connecting] port [p], and
    right after the step [ports[p] = Connected {remote = q}];
    [RChMux] / [RListenerGone] -- the dispatcher ended in this step (error, or Goodbye sent and
    received), the latter iff the remote listener was known to be gone. *)
Theorem C10_truthful_local : forall ch bu cqs rb ver maxp acts a e' req r,
  let e := reach ch bu cqs rb ver maxp acts in
  step_opt e a = Some e' ->
  lookup req (connects e) = Some CWaiting -> lookup req (connects e') = Some (CResolved r) ->
  match r with
  | RRejected np =>
      (exists p n, a = Recv (Rejected p np) n /\ lookup p (ports (mx e)) = Some (Connecting req)) \/
      (np = false /\ a = DConn /\ remote_listener_dropped (mx e) = true /\
       exists p id w q, cq e = EConnectReq p id w req :: q)
  | RAccepted p q =>
      exists n, a = Recv (PortOpened p q) n /\ lookup p (ports (mx e)) = Some (Connecting req) /\
                exists c, lookup p (ports (mx e')) = Some (Connected c) /\ remote c = q
  | RChMux => alive e' = false /\ remote_listener_dropped (mx e') = false
  | RListenerGone => alive e' = false /\ remote_listener_dropped (mx e') = true
  end.
Proof. intros ch bu cqs rb ver maxp acts a e' req r e. exact (truthful e a e' req r (WF_reach _ _ _ _ _ _ _)). Qed.

(** Non-vacuity: request 1 (port 5) is accepted by the peer with its port 9, request 2 (port 6) is
    rejected for lack of ports, request 3 is found with the remote listener gone, request 4 is
    still waiting when a hostile frame kills the dispatcher. *)
Example C10_nonvacuous :
  let acts := [UConnect 5 5 true 1; UConnect 6 6 false 2; DConn; DConn;
               Recv (PortOpened 5 9) 0; Recv (Rejected 6 true) 0;
               Recv ListenerFinish 0; UConnect 7 7 true 3; DConn] in
  let e := reach 100 10 2 16 3 8 acts in
  let e0 := reach 100 10 2 16 3 8 [UConnect 5 5 true 4; DConn] in
  let e1 := step e0 (Recv (Data 99 true true) 1) in
  lookup 1 (connects e) = Some (CResolved (RAccepted 5 9)) /\
  lookup 2 (connects e) = Some (CResolved (RRejected true)) /\
  lookup 3 (connects e) = Some (CResolved (RRejected false)) /\
  alloc e = [5] /\ (exists c, lookup 5 (ports (mx e)) = Some (Connected c) /\ remote c = 9) /\
  lookup 4 (connects e0) = Some CWaiting /\ lookup 5 (ports (mx e0)) = Some (Connecting 4) /\
  dead e1 = Some PDataNotConnected /\ lookup 4 (connects e1) = Some (CResolved RChMux) /\
  map fst (sent e) = [OpenPort 5 true (Some 5); OpenPort 6 false (Some 6)].
Proof. vm_compute. repeat split; try reflexivity. eexists. split; reflexivity. Qed.

Print Assumptions C10_at_most_once.
Print Assumptions C10_resolved_is_final.
Print Assumptions C10_pending_unique.
Print Assumptions C10_port_reqs_entries.
Print Assumptions C10_listen_queue_bound.
Print Assumptions C10_truthful_local.
