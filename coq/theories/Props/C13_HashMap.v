(** C13 (hash map) -- a mirror of an [ObservableHashMap] equals the map.
    Statements, their derivation from the lemmas of the proof file, and assumption printing.

    Model: [Robs/HashMap.v] ([apply_op] = every public mutator incl. the entry API, [RefMut] use,
    [retain] closures with [&mut V]; [sub_stream] = what [recv()] yields; [mirror_task] = the task
    spawned by [mirror()]; [replay] = a consumer applying the events by hand).

    Full statement (FALSE on the current code, see [C13_HashMap_retain_refuted]):
      forall init ops k md max, fits_from max init ops k = true ->
        mirror_ok init ops k md max /\ hand_ok init ops k md.
    Proved: the same statement for every input outside one decidable class,
      F4   a [retain] closure changes the value of an entry it keeps, after the subscription point
           ([silent_free_from init ops k = false]) -- no event is emitted.
    (F11, incremental subscription of a non-empty map made after [done()], was repaired in /repo by
    commit 290b96a; the model follows the repaired code, so that class is not an exception.) *)
From Remoc Require Import Lib.Base Robs.KeyMap Robs.HashMap Robs.HashMapProofs.
From Remoc Require Gen.Api Gen.Variants Robs.SeqCommonProofs.

(** For every initial content, operation sequence, subscription point, mode and [max_size] that is
    not exceeded: once the mirror task has processed what was emitted, it reports no error, holds
    exactly the observed contents (extensionally and as canonical lists), is done iff [done()] was
    called, and is complete. *)
Theorem C13_HashMap_mirror : forall init ops k md max,
  silent_free_from init ops k = true ->
  fits_from max init ops k = true ->
  mirror_ok init ops k md max.
Proof. exact mirror_ok_outside_known_class. Qed.

(** Consuming [take_initial()] and the [recv()] stream by hand gives the same contents and sees
    [Done] iff [done()] was called (no size bound). *)
Theorem C13_HashMap_hand : forall init ops k md,
  silent_free_from init ops k = true -> hand_ok init ops k md.
Proof. exact hand_ok_outside_known_class. Qed.

(** The syntactic form of the F4 class: operation lists in which no [retain] decision both keeps
    and writes are outside it, wherever the subscription is made. *)
Theorem C13_HashMap_no_retain_mutation : forall init ops k,
  no_retain_mutation ops = true -> silent_free_from init ops k = true.
Proof. exact no_retain_mutation_sound. Qed.
Theorem C13_HashMap_static : forall init ops k md max,
  no_retain_mutation ops = true ->
  fits_from max init ops k = true ->
  mirror_ok init ops k md max /\ hand_ok init ops k md.
Proof. exact no_retain_mutation_ok. Qed.

(** F4: the statement fails for [retain(|_, v| { *v = 11; true })] on [{1: 10}]. *)
Theorem C13_HashMap_retain_refuted : exists init ops k md max,
  silent_free_from init ops k = false /\ fits_from max init ops k = true /\
  ~ mirror_ok init ops k md max /\ ~ hand_ok init ops k md.
Proof.
  exists [(1, 10)], f4_ops, 0%nat, Snapshot, 100. repeat split; try (vm_compute; reflexivity).
  - intros (_ & _ & H & _). vm_compute in H. discriminate.
  - intros (_ & H & _). vm_compute in H. discriminate.
Qed.

(** The former F11 witness -- [{1: 10, 2: 20}], [done()], then [subscribe_incremental().mirror()] --
    is mirrored completely (it is an instance of [C13_HashMap_mirror]; shown as a computation). *)
Example C13_HashMap_late_incremental_now_ok :
  late_incremental_at [(1, 10); (2, 20)] f11_ops 1 Incremental = true /\
  mirror_task (mirror_init Incremental (state_at [(1, 10); (2, 20)] f11_ops 1) 100)
              (stream_at [(1, 10); (2, 20)] f11_ops 1 Incremental)
  = ({| m_hm := [(1, 10); (2, 20)]; m_complete := true; m_done := true; m_max := 100 |}, None).
Proof. split; vm_compute; reflexivity. Qed.

(** The modelled operations are exactly the public mutators found in the Rust source on this run
    (a new mutator or entry method breaks this proof). *)
Theorem C13_HashMap_api_covered :
  Gen.Api.hash_map_ObservableHashMap_mutators = map op_name all_ops ++ consuming_ops /\
  Gen.Api.hash_map_Entry_mutators = entry_methods /\
  Gen.Api.hash_map_OccupiedEntry_mutators = occupied_methods /\
  Gen.Api.hash_map_VacantEntry_mutators = vacant_methods /\
  Gen.Api.hash_map_RefMut_mutators = [] /\ Gen.Api.hash_map_IterMut_mutators = [] /\
  Gen.Api.hash_map_ValuesMut_mutators = [].
Proof. exact api_covered. Qed.
Theorem C13_HashMap_api_complete : forall o, In (op_name o) (map op_name all_ops).
Proof. destruct o; apply SeqCommonProofs.str_in; reflexivity. Qed.
Theorem C13_HashMap_events_covered :
  Gen.Variants.HashMapEvent_variants = map event_name all_events /\
  forall e, In (event_name e) (map event_name all_events).
Proof. split; [reflexivity|]. destruct e; apply SeqCommonProofs.str_in; reflexivity. Qed.

(** Non-vacuity: a sequence through entry API, [RefMut] writes, a removing [retain] that writes
    into the entry it removes, [iter_mut], [done], subscribed in the middle, meets the hypotheses. *)
Example C13_HashMap_nonvacuous :
  let init := [(1, 10); (2, 20); (3, 30)] in
  let ops := [Insert 4 40; Entry 5 [Some 1] (EOrInsert 50 (AWrite 51));
              Retain {| d_keep := true; d_acc := ATouch |} [(2, {| d_keep := false; d_acc := AWrite 7 |})];
              Entry 1 [None] (EMatch [OInsert 12; OGetMut (AWrite 13)] ORemove VDrop);
              IterMut [(3, AWrite 33); (9, ATouch); (3, AWrite 0)]; GetMut 4 ATouch; Clear; Insert 6 60; MarkDone] in
  silent_free_from init ops 2 = true /\
  fits_from 5 init ops 2 = true /\ o_hm (final_state init ops) = [(6, 60)] /\
  stream_at init ops 2 Incremental =
    [ESet 1 10; ESet 2 20; ESet 3 30; ESet 4 40; ESet 5 51; EInitialComplete;
     ERemove 2; ESet 1 10; ESet 1 12; ESet 1 13; ERemove 1; ESet 3 33; ESet 4 40; EClear; ESet 6 60; EDone].
Proof. vm_compute. repeat split; reflexivity. Qed.

Print Assumptions C13_HashMap_mirror.
Print Assumptions C13_HashMap_hand.
Print Assumptions C13_HashMap_no_retain_mutation.
Print Assumptions C13_HashMap_static.
Print Assumptions C13_HashMap_retain_refuted.
Print Assumptions C13_HashMap_late_incremental_now_ok.
Print Assumptions C13_HashMap_api_covered.
Print Assumptions C13_HashMap_api_complete.
Print Assumptions C13_HashMap_events_covered.
