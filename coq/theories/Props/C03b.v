(** C03, cross-port part -- a port whose receiver does not consume never stops other ports of the same
    connection; no operation makes steps forever.  Model: [Chmux/SharedQueue.v] (the endpoint's one bounded
    event queue with FIFO permits, the order of the waits in the sending operations and in the credit
    return).  Statements, their derivation from the lemmas of the proof files, evaluated examples, and assumption printing. *)
From Remoc Require Import Lib.Base Chmux.SharedQueue Chmux.SharedQueueProofs.

(** The shared queue never holds more events than [shared_send_queue], permits are never over-committed. *)
Theorem C03_shared_queue_bounded : forall c ps acts,
  1 <= c -> NoDup (map fst ps) ->
  let s := run acts (init c ps) in len (queue s) <= cap s /\ in_use s <= cap s.
Proof. exact queue_bounded. Qed.

(** No livelock: every system action (poll of a pending future, permit hand-over, dispatcher taking an event)
    decreases a measure of the work that is possible without the environment. *)
Theorem C03_system_step_decreases : forall s a s',
  Inv s -> is_system a = true -> step_opt s a = Some s' -> M s' < M s.
Proof. exact system_step_decreases. Qed.

(** After ANY history of calls, cancellations, credit returns and system actions, every run of system actions
    alone -- no receiver of any port consuming anything -- has at most [M s] steps, and when it cannot be extended
    the queue is empty, nobody waits for or holds a permit, and every port is idle or waits for credits with
    none left: what a port can do with its own credits never depends on another port's receiver. *)
Theorem C03_ports_do_not_block_each_other : forall c ps history sys s',
  1 <= c -> NoDup (map fst ps) ->
  let s := run history (init c ps) in
  sys_run sys s = Some s' -> quiescent s' ->
  len sys <= M s /\ queue s' = [] /\ waiters s' = [] /\ granted s' = [] /\ Forall port_done (ports s').
Proof. exact ports_do_not_block_each_other. Qed.

(** Non-vacuity: one slot; port 1 is starved (no credits) with a pending two-frame operation, port 2 has three
    credits and a three-frame operation, the receiver of port 3 returns credits through the same queue.  The
    system alone hands over port 2's three frames and the credit return and then is quiescent, port 1 still
    waiting for credits. *)
Example C03b_nonvacuous :
  let s := run [UStart 1 2; UStart 2 3; SPoll 2; ERetStart 3 8; ERetStart 3 9] (init 1 [(1, 0); (2, 3); (3, 0)]) in
  let sys := [SGrant; SUse 2; SPop; SGrant; SUseRet; SPop; SGrant; SUseRet; SPoll 2; SPop; SGrant; SUse 2; SPoll 2; SPop; SGrant; SUse 2; SPop] in
  match sys_run sys s with
  | Some s' => handed s' = [WOp 2; WRet 3 8; WRet 3 9; WOp 2; WOp 2] /\
               map ph (ports s') = [PWaitCredit 2; PIdle; PIdle] /\
               forallb (fun a => match step_opt s' a with None => true | Some _ => false end)
                       [SPoll 1; SPoll 2; SPoll 3; SGrant; SUse 1; SUse 2; SUse 3; SUseRet; SPop] = true
  | None => False
  end.
Proof. vm_compute. repeat split; reflexivity. Qed.

Print Assumptions C03_shared_queue_bounded.
Print Assumptions C03_system_step_decreases.
Print Assumptions C03_ports_do_not_block_each_other.
Print Assumptions C03b_nonvacuous.
