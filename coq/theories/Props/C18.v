(** C18 -- I/O channels deliver exactly the written bytes; short streams are errors.  The model is
    [Rch/IoChan.v] (transcription of rch/io/{sender,receiver}.rs over rch/bin and chmux ports),
    proofs are in [Rch/IoChanProofs.v].  [run_acts acts (init cs m)] runs an arbitrary list of
    actions -- writes with arbitrary buffers, flushes, shutdowns, dropping the sender, reads with
    arbitrary buffer sizes (0 included), arrival of each event in flight and of the size
    announcement, a cut of the connection, and for every sender poll whether the transport takes the
    buffered chunk now and how it splits it -- on a fresh channel with chunk size [cs] created
    sized ([Known n]) or unsized ([Unknown]). *)
From Remoc Require Import Lib.Base Rch.IoChan Rch.IoChanProofs.

(** The bytes read so far are a prefix of the bytes accepted by writes, and all of them once a read
    has reported end-of-file. *)
Theorem C18_bytes : forall cs m acts y outs,
  run_acts acts (init cs m) = (y, outs) ->
  prefix (bytes_read_of outs) (bytes_accepted_of acts outs) /\
  (In Eof outs -> bytes_read_of outs = bytes_accepted_of acts outs).
Proof. exact bytes_prefix. Qed.

(** End-of-file is reported only if the total read equals the size fixed at creation (sized) or
    the size announced by a successful shutdown (unsized); that size is the number of bytes accepted. *)
Theorem C18_eof : forall cs m acts y outs,
  run_acts acts (init cs m) = (y, outs) -> In Eof outs ->
  match m with
  | Known n => len (bytes_read_of outs) = n
  | Unknown => announced y = Some (len (bytes_read_of outs)) /\ shutdown_ok acts outs
  end /\ len (bytes_accepted_of acts outs) = len (bytes_read_of outs).
Proof. exact eof_only_complete. Qed.

(** Sized channel: the accepted total never exceeds the fixed size and only accepted bytes are ever
    handed to the transport; a live sender that has reached the size refuses a non-empty write with
    [WriteZero] without accepting or sending any of it. *)
Theorem C18_refuse : forall cs n acts y outs,
  run_acts acts (init cs (Known n)) = (y, outs) ->
  len (bytes_accepted_of acts outs) <= n /\
  prefix (bytes_transmitted y) (bytes_accepted_of acts outs) /\
  len (bytes_transmitted y) <= n.
Proof. exact refuse_global. Qed.
Theorem C18_refuse_step : forall y s n b buf e,
  y_tx y = Some s -> s_mode s = Known n -> n <= s_written s -> s_bin s = true -> s_sending s = FNone ->
  let '(y', res) := step y (AWrite (b :: buf) e) in
  res = Fail KWriteZero /\ g_acc y' = g_acc y /\ g_sent y' = g_sent y /\ y_net y' = y_net y.
Proof. exact refuse_step. Qed.

(** Short streams.  Whatever happens (sender dropped with or without flush/shutdown at any point,
    connection cut at any point), a read reports end-of-file only if the stream is complete: for a
    sized channel all [n] bytes were accepted, for an unsized one a shutdown succeeded. *)
Theorem C18_short_never_eof : forall cs m acts y outs,
  run_acts acts (init cs m) = (y, outs) -> In Eof outs ->
  match m with
  | Known n => len (bytes_accepted_of acts outs) = n
  | Unknown => shutdown_ok acts outs
  end.
Proof. exact short_never_eof. Qed.
(** ... and the affected side gets an error: shutdown of a sized sender short of its size; *)
Theorem C18_short_shutdown : forall y s n e,
  y_tx y = Some s -> s_mode s = Known n -> s_written s <> n ->
  (s_sending s = FNone \/ (exists d, s_sending s = FRun d) /\ y_down y = false /\ e_ready e = true) ->
  snd (step y (AShutdown e)) = Fail KUnexpectedEof.
Proof. exact short_shutdown. Qed.
(** the end of the data stream before the fixed size; *)
Theorem C18_short_sized : forall n want sz r q,
  at_end r -> r_size r = Some (Determined n) -> r_read r < n ->
  snd (poll_read want sz r (EEnd :: q)) = Fail KUnexpectedEof.
Proof. exact short_end_sized. Qed.
(** the end of an unsized stream whose sender was dropped without shutdown ([CDropped]) or
    announced another total; *)
Theorem C18_short_unsized : forall want sz r q,
  at_end r -> r_size r = Some Undetermined ->
  snd (poll_read want sz r (EEnd :: q)) =
  match sz with
  | CEmpty => Pending
  | CDropped => Fail KUnexpectedEof
  | CSent e => if r_read r =? e then Eof else Fail KUnexpectedEof
  end.
Proof. exact short_end_unsized. Qed.
(** (dropping an unsized sender before shutdown, or cutting the connection before the size arrived,
    is what makes the size oneshot [CDropped];) *)
Theorem C18_short_drop : forall y s,
  y_tx y = Some s -> s_mode s = Unknown -> y_down y = false ->
  view (fst (step (fst (step y ADropTx)) ADeliverSize)) = CDropped.
Proof. exact drop_unsized_view. Qed.
Theorem C18_short_cut : forall y,
  y_down y = false -> y_arrived y = false -> view (fst (step y ACut)) = CDropped.
Proof. exact cut_view. Qed.
(** a broken event stream (connection cut, port error). *)
Theorem C18_short_err : forall k want sz r q,
  at_end r -> (r_size r = Some Undetermined \/ exists n, r_size r = Some (Determined n) /\ r_read r < n) ->
  snd (poll_read want sz r (EErr k :: q)) = Fail k.
Proof. exact short_err. Qed.
(** After such an error a further poll of a receiver whose future failed is the Rust panic
    "`async fn` resumed after completion" -- explicit in the model, never EOF or data. *)
Theorem C18_poisoned : forall want sz r q,
  r_state r = RRecvDone \/ r_state r = RVerDone -> snd (poll_read want sz r q) = Panic.
Proof. exact poisoned_panics. Qed.

(** The loop fuel of the model's [poll_read] is never exhausted, along runs too. *)
Theorem C18_total : forall want sz r q, snd (poll_read want sz r q) <> OutOfFuel.
Proof. exact poll_read_total. Qed.

(** Non-vacuity: a sized channel of 5 bytes with chunk size 4 -- the write of 7 bytes is clamped to
    4, then to 1, the third is refused, both chunks arrive, reads return them and then EOF; an
    unsized channel whose sender is dropped without shutdown yields [UnexpectedEof], then panics. *)
Example C18_nonvacuous :
  let e := mkE true [] in
  snd (run_acts [AWrite [1;2;3;4;5;6;7] e; AWrite [5;6;7] e; AWrite [6;7] e; AShutdown e;
                 ADeliver; ADeliver; ADeliver; ARead 3; ARead 9; ARead 9; ARead 9] (init 4 (Known 5)))
  = [Done 4 []; Done 1 []; Fail KWriteZero; Done 0 []; Done 0 []; Done 0 []; Done 0 [];
     Done 3 [1;2;3]; Done 1 [4]; Done 1 [5]; Eof] /\
  snd (run_acts [AWrite [1;2;3] e; AFlush e; ADropTx; ADeliver; ADeliver; ADeliverSize;
                 ARead 9; ARead 9; ARead 9] (init 4 Unknown))
  = [Done 3 []; Done 0 []; Done 0 []; Done 0 []; Done 0 []; Done 0 [];
     Done 3 [1;2;3]; Fail KUnexpectedEof; Panic].
Proof. vm_compute. auto. Qed.

Print Assumptions C18_bytes.
Print Assumptions C18_eof.
Print Assumptions C18_refuse.
Print Assumptions C18_refuse_step.
Print Assumptions C18_short_never_eof.
Print Assumptions C18_short_shutdown.
Print Assumptions C18_short_sized.
Print Assumptions C18_short_unsized.
Print Assumptions C18_short_drop.
Print Assumptions C18_short_cut.
Print Assumptions C18_short_err.
Print Assumptions C18_poisoned.
Print Assumptions C18_total.
