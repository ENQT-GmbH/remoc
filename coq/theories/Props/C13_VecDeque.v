(** C13 (deque) -- a mirror of an [ObservableVecDeque] equals the deque.
    Statements, their derivation from the lemmas of the proof file, and assumption printing.
    Model: [Robs/VecDeque.v] (transcription of /repo/remoc/src/robs/vec_deque.rs), proofs: [Robs/VecDequeProofs.v]. *)
From Remoc Require Import Lib.Base Robs.SeqCommon Robs.SeqCommonProofs Robs.VecDeque Robs.VecDequeProofs.
From Remoc Require Gen.Api Gen.Variants.

(** For every initial content, every sequence [ops] of mutator calls that does not panic, every
    subscription point [k] and both subscription modes: the events the subscription delivers are the
    initial-value events for the state after [k] calls followed by the events of [ops[k..]];
    provided [max_size] is not exceeded,
    (a) the mirror task fed with them ends without error holding exactly the final contents, with
        [complete] set and [done] equal to the deque's done flag;
    (b) applying the same events by hand with [handle_event] (which checks [max_size] too), starting
        from [take_initial()], gives the same. *)
Theorem C13_VecDeque_mirror_equals_collection : forall init ops k cf e,
  run_ops (start init) ops = Ok (cf, e) ->
  exists ck e1 e2,
    run_ops (start init) (firstn k ops) = Ok (ck, e1) /\
    run_ops ck (skipn k ops) = Ok (cf, e2) /\ e = e1 ++ e2 /\
    forall md mx,
      run_bounded mx ck (skipn k ops) ->
      mirror_task (sub_mirror md ck mx) (sub_stream md ck e2) =
        HOk {| mv := items cf; mcomplete := true; mdone := cdone cf; mmax := mx |} /\
      fold_events (hand_start md ck mx) (sub_stream md ck e2) =
        HOk {| mv := items cf; mcomplete := true; mdone := cdone cf; mmax := mx |}.
Proof.
  intros init ops k cf e H. destruct (runs_split apply_op _ _ k _ _ H) as (ck & e1 & e2 & H1 & H2 & He).
  exists ck, e1, e2. do 3 (split; [assumption|]). intros md mx Hb. split.
  - exact (stream_correct true md ck _ mx cf e2 (cdone ck) H2 Hb (fun E => E)).
  - exact (stream_correct false md ck _ mx cf e2 false H2 Hb (fun _ => eq_refl)).
Qed.

(** One mutator call: a mirror (or a hand consumer) that equals the deque before the call equals it
    after processing the events of the call; with [brk] (the mirror task) it stops exactly at [Done]. *)
Theorem C13_VecDeque_step : forall brk c o c1 e1 cp mx tl,
  apply_op c o = Ok (c1, e1) ->
  brk = false \/ cdone c = false ->
  len (items c1) <= mx ->
  task_gen brk (mirror_of c cp mx) (e1 ++ tl) =
  if brk && cdone c1 then HOk (mirror_of c1 cp mx) else task_gen brk (mirror_of c1 cp mx) tl.
Proof. exact step. Qed.

(** The collection's done flag, which by the theorem above is what the mirror reports, is set exactly
    when [done] was called. *)
Theorem C13_VecDeque_done_iff_called : forall init ops cf e,
  run_ops (start init) ops = Ok (cf, e) -> (cdone cf = true <-> In MarkDone ops).
Proof.
  intros init ops cf e H. rewrite (runs_done_iff cdone apply_op MarkDone apply_done_iff ops _ _ _ H).
  cbn. intuition discriminate.
Qed.

(** Regression example (former finding F11, repaired in /repo): deque [7; 8], [done()], then
    [subscribe_incremental().mirror()] -- the mirror holds [7; 8], complete and done. *)
Example C13_VecDeque_incremental_after_done :
  let ck := {| items := [7; 8]; cdone := true |} in
  run_ops (start [7; 8]) [MarkDone] = Ok (ck, [EDone]) /\
  mirror_task (sub_mirror Incremental ck 10) (sub_stream Incremental ck []) =
    HOk {| mv := [7; 8]; mcomplete := true; mdone := true; mmax := 10 |}.
Proof. vm_compute. auto. Qed.

(** Tie to the source: the modelled mutators are the public [&mut self] methods of [ObservableVecDeque]
    found in the source on this run (minus [set_error_handler]/[into_inner]); [RefMut]/[IterMut] have no
    inherent mutators (their writes go through [DerefMut]/[Drop], modelled by [GetMut]/[IterMut]);
    every constructor of [op] is listed; the modelled events are the variants of [VecDequeEvent]. *)
Theorem C13_VecDeque_api_covered :
  map Names.op_name modelled_ops = Names.minus Gen.Api.vec_deque_ObservableVecDeque_mutators Names.non_mutating /\
  Gen.Api.vec_deque_RefMut_mutators = [] /\ Gen.Api.vec_deque_IterMut_mutators = [].
Proof. exact api_covered. Qed.
Theorem C13_VecDeque_ops_all_listed : forall o, In (Names.op_name o) (map Names.op_name (modelled_ops ++ trait_ops)).
Proof. destruct o; apply str_in; reflexivity. Qed.
Theorem C13_VecDeque_events_covered : map Names.event_name modelled_events = Gen.Variants.VecDequeEvent_variants.
Proof. reflexivity. Qed.
Theorem C13_VecDeque_events_all_listed : forall e, In (Names.event_name e) (map Names.event_name modelled_events).
Proof. destruct e; apply str_in; reflexivity. Qed.

(** Non-vacuity: a run with no-ops, reference writes, retain, swap_remove_front/back, out-of-range removes and done; subscription in
    the middle, incremental; the mirror reaches the final contents. *)
Example C13_VecDeque_nonvacuous :
  let ops := [PushBack 4; PopFront; PopBack; GetMut 1 (Some 9); IterMut true [Some 5; None; Some 6]; Insert 2 1;
              PushFront 8; SwapRemoveFront 2; SwapRemoveBack 0; SwapRemoveBack 7; Remove 9; Retain [true; false; true];
              Resize 5 2; Truncate 9; Clear; Clear; PopFront; Extend [1; 2]; MarkDone; MarkDone] in
  exists ck e1 cf e2,
    run_ops (start [1; 2; 3]) (firstn 4 ops) = Ok (ck, e1) /\ run_ops ck (skipn 4 ops) = Ok (cf, e2) /\
    run_bounded 6 ck (skipn 4 ops) /\ items cf = [1; 2] /\ cdone cf = true /\
    mirror_task (sub_mirror Incremental ck 6) (sub_stream Incremental ck e2) =
      HOk {| mv := [1; 2]; mcomplete := true; mdone := true; mmax := 6 |}.
Proof.
  eexists _, _, _, _. split; [vm_compute; reflexivity|]. split; [vm_compute; reflexivity|].
  vm_compute. repeat split; congruence.
Qed.

Print Assumptions C13_VecDeque_mirror_equals_collection.
Print Assumptions C13_VecDeque_step.
Print Assumptions C13_VecDeque_done_iff_called.
Print Assumptions C13_VecDeque_api_covered.
Print Assumptions C13_VecDeque_ops_all_listed.
Print Assumptions C13_VecDeque_events_covered.
Print Assumptions C13_VecDeque_events_all_listed.
Print Assumptions C13_VecDeque_incremental_after_done.
