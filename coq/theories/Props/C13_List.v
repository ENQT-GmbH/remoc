(** C13 (append-only list) -- a mirror of an [ObservableList] equals the list.
    Statements, their derivation from the lemmas of the proof file, and assumption printing.
    Model: [Robs/List_.v] (transcription of /repo/remoc/src/robs/list.rs), proofs: [Robs/ListProofs.v]. *)
From Remoc Require Import Lib.Base Robs.SeqCommon Robs.SeqCommonProofs Robs.List_ Robs.ListProofs.
From Remoc Require Gen.Api Gen.Variants.

(** For every initial content, every sequence [ops] of [push]/[extend]/[done] calls that does not
    panic and every subscription point [k] (a list subscription is always incremental): the subscriber
    is sent every element from position 0, [InitialComplete] after as many elements as the list had
    at subscription time, then the later elements and [Done]; provided [max_size] is not exceeded, the
    mirror task fed with them ends without error holding exactly the final contents, with [complete]
    set and [done] equal to the list's done flag, and so does applying the events by hand.
    (No known class here: the list mirror starts with [done: false].) *)
Theorem C13_List_mirror_equals_collection : forall init ops k cf e,
  run_ops (start init) ops = Ok (cf, e) ->
  exists ck e1 e2,
    run_ops (start init) (firstn k ops) = Ok (ck, e1) /\
    run_ops ck (skipn k ops) = Ok (cf, e2) /\ e = e1 ++ e2 /\
    forall mx,
      run_bounded mx ck (skipn k ops) ->
      mirror_task (sub_mirror mx) (sub_stream ck e2) =
        HOk {| mv := items cf; mcomplete := true; mdone := cdone cf; mmax := mx |} /\
      fold_events (sub_mirror mx) (sub_stream ck e2) =
        HOk {| mv := items cf; mcomplete := true; mdone := cdone cf; mmax := mx |}.
Proof.
  intros init ops k cf e H. destruct (runs_split apply_op _ _ k _ _ H) as (ck & e1 & e2 & H1 & H2 & He).
  exists ck, e1, e2. do 3 (split; [assumption|]). intros mx Hb. split.
  - exact (stream_correct true ck _ mx cf e2 H2 Hb).
  - exact (stream_correct false ck _ mx cf e2 H2 Hb).
Qed.

Theorem C13_List_step : forall brk c o c1 e1 cp mx tl,
  apply_op c o = Ok (c1, e1) ->
  brk = false \/ cdone c = false ->
  len (items c1) <= mx ->
  task_gen brk (mirror_of c cp mx) (e1 ++ tl) =
  if brk && cdone c1 then HOk (mirror_of c1 cp mx) else task_gen brk (mirror_of c1 cp mx) tl.
Proof. exact step. Qed.

Theorem C13_List_done_iff_called : forall init ops cf e,
  run_ops (start init) ops = Ok (cf, e) -> (cdone cf = true <-> In MarkDone ops).
Proof.
  intros init ops cf e H. rewrite (runs_done_iff cdone apply_op MarkDone apply_done_iff ops _ _ _ H).
  cbn. intuition discriminate.
Qed.

(** append-only: the final contents extend the contents at any earlier point *)
Theorem C13_List_append_only : forall ops c cf e,
  run_ops c ops = Ok (cf, e) -> exists added, items cf = items c ++ added.
Proof. exact run_items. Qed.

Theorem C13_List_api_covered :
  map Names.op_name modelled_ops = Names.minus Gen.Api.list_ObservableList_mutators Names.non_mutating.
Proof. exact api_covered. Qed.
Theorem C13_List_ops_all_listed : forall o, In (Names.op_name o) (map Names.op_name (modelled_ops ++ trait_ops)).
Proof. destruct o; apply str_in; reflexivity. Qed.
Theorem C13_List_events_covered : map Names.event_name modelled_events = Gen.Variants.ListEvent_variants.
Proof. reflexivity. Qed.
Theorem C13_List_events_all_listed : forall e, In (Names.event_name e) (map Names.event_name modelled_events).
Proof. destruct e; apply str_in; reflexivity. Qed.

Example C13_List_nonvacuous :
  let ops := [Push 4; Extend [5; 6]; Extend []; Push 7; MarkDone; MarkDone; Extend []] in
  exists ck e1 cf e2,
    run_ops (start [1; 2]) (firstn 2 ops) = Ok (ck, e1) /\ run_ops ck (skipn 2 ops) = Ok (cf, e2) /\
    run_bounded 6 ck (skipn 2 ops) /\ items cf = [1; 2; 4; 5; 6; 7] /\ cdone cf = true /\
    mirror_task (sub_mirror 6) (sub_stream ck e2) =
      HOk {| mv := [1; 2; 4; 5; 6; 7]; mcomplete := true; mdone := true; mmax := 6 |}.
Proof.
  eexists _, _, _, _. split; [vm_compute; reflexivity|]. split; [vm_compute; reflexivity|].
  vm_compute. repeat split; congruence.
Qed.

Print Assumptions C13_List_mirror_equals_collection.
Print Assumptions C13_List_step.
Print Assumptions C13_List_done_iff_called.
Print Assumptions C13_List_append_only.
Print Assumptions C13_List_api_covered.
Print Assumptions C13_List_ops_all_listed.
Print Assumptions C13_List_events_covered.
Print Assumptions C13_List_events_all_listed.
