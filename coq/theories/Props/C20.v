(** C20 -- Handles and lazy values: confinement, type safety, fidelity, release.
    Statements, their derivation from the lemmas of the proof files, evaluated examples, and assumption printing.

    Handles: the model is [Robj/Handle.v] (transcription of robj/handle.rs over the per-multiplexer
    chmux/any_storage.rs), proofs are in [Robj/HandleProofs.v].  [reach s]: [s] is the state after an
    ARBITRARY list of actions from the empty system -- creating handles ([new]/[provided]) on any
    endpoint at any type, cloning, dropping, casting, sending any handle over any connection to any
    endpoint (so: back and forth, forwarded over any number of connections), receiving or losing the
    messages in any order per connection end, forged messages with arbitrary ids, accesses
    ([as_ref]/[as_mut]/[into_inner]), provider drop/keep, and the removal tasks finishing at any
    moment they can.  UUIDs are fresh names (a collision is outside the model).

    Lazy values and blobs: the model is [Robj/Lazy.v] (provider = one chmux message, forwarders =
    chmux::forward over the receiver transcription of C01, fetcher = [recv] limited to the advertised
    length), proofs are in [Robj/LazyProofs.v]. *)
From Remoc Require Import Lib.Base Chmux.Parse Chmux.Recv Chmux.RecvProofs
  Robj.Handle Robj.HandleProofs Robj.Lazy Robj.LazyProofs.

(** * Confinement and type safety *)

(** An access yields a value only through a live handle that sits on the endpoint owning the value
    cell, whose type is the value's type, while the value has not been taken -- and the value is the
    one the handle was made for ([h_org], carried unchanged by clone, cast, send and receive). *)
Theorem C20_confined : forall s, reach s -> forall a h x,
  is_access a h -> snd (step s a) = RVal x ->
  exists hd cl, live_handle s h = Some hd /\ getN (cells s) x = Some cl /\
    c_owner cl = h_ep hd /\ c_tag cl = h_tag hd /\ c_taken cl = false /\
    (forall v0, h_org hd = Some v0 -> v0 = x).
Proof. exact (fun s Hr a h x => confined s a h x (Inv_reach s Hr)). Qed.

(** Every other outcome of an access through an existing handle is [Unknown] or [MismatchedType]. *)
Theorem C20_access_outcomes : forall s a h, is_access a h ->
  match snd (step s a) with
  | RVal _ | RUnknown | RMismatch => live_handle s h <> None
  | RNone => live_handle s h = None
  | _ => False
  end.
Proof. exact access_outcomes. Qed.

(** On any endpoint other than the creating one: [Unknown] (whatever the path the handle took). *)
Theorem C20_foreign_unknown : forall s, reach s -> forall a h hd v0 cl0,
  is_access a h -> live_handle s h = Some hd ->
  h_org hd = Some v0 -> getN (cells s) v0 = Some cl0 -> c_owner cl0 <> h_ep hd ->
  snd (step s a) = RUnknown.
Proof. exact (fun s Hr a h hd v0 cl0 => foreign_unknown s a h hd v0 cl0 (Inv_reach s Hr)). Qed.

(** After a cast to another type (or a deserialization at another type): an error, never a value. *)
Theorem C20_wrong_type_error : forall s, reach s -> forall a h hd v0 cl0,
  is_access a h -> live_handle s h = Some hd ->
  h_org hd = Some v0 -> getN (cells s) v0 = Some cl0 -> c_tag cl0 <> h_tag hd ->
  snd (step s a) = RUnknown \/ snd (step s a) = RMismatch.
Proof. exact (fun s Hr a h hd v0 cl0 => wrong_type_error s a h hd v0 cl0 (Inv_reach s Hr)). Qed.

(** Use after take: [into_inner] that reaches the cell empties it (also on a type mismatch), and a
    taken value is never obtained again, by any continuation. *)
Theorem C20_into_inner_takes : forall s h x,
  (snd (step s (AIntoInner h)) = RVal x \/ snd (step s (AIntoInner h)) = RMismatch) ->
  exists hd v cl, live_handle s h = Some hd /\ st_cell (h_st hd) = Some v /\
    getN (cells (fst (step s (AIntoInner h)))) v = Some cl /\ c_taken cl = true /\
    (snd (step s (AIntoInner h)) = RVal x -> v = x).
Proof. exact into_inner_takes. Qed.
Theorem C20_taken_forever : forall s, reach s -> forall acts x cl,
  getN (cells s) x = Some cl -> c_taken cl = true -> ~ In (RVal x) (snd (hrun acts s)).
Proof. exact (fun s Hr acts x cl => taken_forever acts s x cl (Inv_reach s Hr)). Qed.

(** * Release *)

(** While the storage entry of an id is present although no genuine handle or message with that id
    is left anywhere, or although the provider was dropped, its removal task exists and can finish,
    and finishing removes the entry ... *)
Theorem C20_release_enabled : forall s, reach s -> forall en,
  In en (storage s) ->
  (holders s (s_id en) = 0 \/ prov_of s (s_cell en) = PDropped) ->
  exists s', step s (ARelease (s_id en)) = (s', RUnit) /\ ~ In en (storage s') /\ incl (storage s') (storage s).
Proof. exact (fun s Hr en => release_enabled s en (Inv_reach s Hr)). Qed.
(** ... so in every state where no removal task can run, every entry still stored has a holder and
    a provider that was not dropped. *)
Theorem C20_release : forall s, reach s -> forall en,
  quiescent s -> In en (storage s) ->
  holders s (s_id en) <> 0 /\ prov_of s (s_cell en) <> PDropped.
Proof. exact (fun s Hr en => quiescent_released s en (Inv_reach s Hr)). Qed.
(** The value itself: at quiescence it is gone once no live handle refers to its cell and either the
    provider was dropped or nothing (handle anywhere, message in flight) descends from its handle.
    (After a provider drop only live handles on the creating endpoint itself keep the value.) *)
Theorem C20_value_released : forall s, reach s -> forall v,
  quiescent s ->
  (forall hd, In hd (handles s) -> h_live hd = true -> st_cell (h_st hd) <> Some v) ->
  (prov_of s v = PDropped \/
   (forall hd, In hd (handles s) -> h_live hd = true -> descends v (h_org hd) = false) /\
   (forall m, In m (flight s) -> descends v (m_org m) = false)) ->
  value_alive s v = false.
Proof. exact (fun s Hr v => value_released s v (Inv_reach s Hr)). Qed.
(** The big step compared with the implementation (action, then every removal task that can finish)
    ends in a quiescent reachable state. *)
Theorem C20_big_step_quiescent : forall s, reach s -> forall a,
  quiescent (fst (big_step s a)) /\ reach (fst (big_step s a)).
Proof. exact (fun s Hr a => big_step_reach s a Hr). Qed.

(** * Fidelity of lazy values and blobs *)

(** A completed fetch returns exactly the provided bytes -- for every number of forwarders
    ([hops], induction), every chunk size and [max_data_size] of each (whole or streamed
    forwarding), and every cut position on every connection. *)
Theorem C20_fidelity : forall answers ck0 bytes hops mp lastcut b,
  lazy_fetch answers ck0 bytes hops mp lastcut = FOk b -> b = bytes.
Proof. exact fidelity. Qed.

(** A transfer that is cut short is an error, neither a (truncated) value nor a hanging fetch: if
    what some connection on the path delivers contains no complete message (it was cut before the
    last frame, or the provider never answered), the fetch ends with an error. *)
Theorem C20_interrupted_inner : forall answers ck0 bytes hops1 x hops2 mp lastcut,
  data_of (parse (fst (deliver (fst x) (relay hops1 (provider_frames answers ck0 bytes))))) = [] ->
  lazy_fetch answers ck0 bytes (hops1 ++ x :: hops2) mp lastcut = FErr.
Proof. exact interrupted_inner. Qed.
Theorem C20_interrupted_last : forall answers ck0 bytes hops mp lastcut,
  data_of (parse (fst (deliver lastcut (relay hops (provider_frames answers ck0 bytes))))) = [] ->
  lazy_fetch answers ck0 bytes hops mp lastcut = FErr.
Proof. exact interrupted_last. Qed.

(** The two ingredients, both instances of the parser theorem of C01: a forwarder never sends a data
    message it has not completely received (whatever reaches it, however its input ends); the
    fetcher's [recv] returns the first complete data message of what reached it. *)
Theorem C20_forwarder_never_completes_early : forall c arrived failed,
  prefix (data_of (parse (node_out c arrived failed))) (data_of (parse arrived)).
Proof. exact node_prefix. Qed.
Theorem C20_fetcher_first_complete : forall md mp q r' q' b,
  recv (rinit md mp) q = (r', q', OData b) -> exists pre, prefix pre q /\ data_of (parse pre) = [MData b].
Proof. exact recv_first. Qed.

(** Non-vacuity.  Handles: a value of type 5 created on endpoint 0; a clone travels to endpoint 1
    (Unknown there), comes back over the same connection (the value), a second clone that comes back
    after it is Unknown even at home (the id was removed by the first); a cast gives MismatchedType;
    [into_inner] through the cast handle destroys the value; afterwards Unknown; the value is gone.
    Lazy: 10 bytes through a streaming and a whole forwarder arrive; cut after two frames on the
    second connection: an error. *)
Example C20_nonvacuous :
  snd (hrun [ANew 0 5 true; AClone 0; AClone 0; ASend 1 0 1 77; ARecv 0 1; AAsRef 3; AClone 3;
             ASend 3 0 0 0; ASend 4 0 0 0; ARecv 0 0; ARecv 0 0; AAsRef 5; AAsRef 6;
             ACast 5 6; AAsMut 5; AIntoInner 5; AAsRef 0] init)
  = [RHandle 0; RHandle 1; RHandle 2; RUnit; RHandle 3; RUnknown; RHandle 4;
     RUnit; RUnit; RHandle 5; RHandle 6; RVal 0; RUnknown;
     RUnit; RMismatch; RMismatch; RUnknown] /\
  (let hops c := [(c, mk_fcfg 3 4 8); (None, mk_fcfg 100 100 8)] in
   lazy_fetch true 4 [1;2;3;4;5;6;7;8;9;10] (hops None) 8 None = FOk [1;2;3;4;5;6;7;8;9;10] /\
   lazy_fetch true 4 [1;2;3;4;5;6;7;8;9;10] (hops (Some 2%nat)) 8 None = FErr /\
   lazy_fetch true 4 [1;2;3;4;5;6;7;8;9;10] (hops None) 8 (Some 0%nat) = FErr /\
   lazy_fetch false 4 [1;2;3;4;5;6;7;8;9;10] (hops None) 8 None = FErr).
Proof. vm_compute. auto. Qed.

Print Assumptions C20_confined.
Print Assumptions C20_access_outcomes.
Print Assumptions C20_foreign_unknown.
Print Assumptions C20_wrong_type_error.
Print Assumptions C20_into_inner_takes.
Print Assumptions C20_taken_forever.
Print Assumptions C20_release_enabled.
Print Assumptions C20_release.
Print Assumptions C20_value_released.
Print Assumptions C20_big_step_quiescent.
Print Assumptions C20_fidelity.
Print Assumptions C20_interrupted_inner.
Print Assumptions C20_interrupted_last.
Print Assumptions C20_forwarder_never_completes_early.
Print Assumptions C20_fetcher_first_complete.
