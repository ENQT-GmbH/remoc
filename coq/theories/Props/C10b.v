(** C10 (composed part) -- Pairing of ports across two honest endpoints.

    [nreach c acts] ([Chmux/Net.v]) is the state of the composition of two endpoint models
    ([Chmux/Endpoint.v]) joined by two FIFO links after ANY list of actions: [Loc s a] = any local API
    action, helper-task step or dispatcher step [a] of endpoint [s] (every [act] except [Recv]);
    [Deliver s] = the oldest frame sent by [s] is handled by the other endpoint.  Both start from
    [ep_init (mux_init ..)] with the configuration the handshake would exchange ([net_init]).
    [healthy n] = neither dispatcher has ended with a protocol error. *)
From Remoc Require Import Lib.Base Gen.Consts Chmux.Wire Chmux.Mux Chmux.Endpoint Chmux.EndpointLemmas Chmux.EndpointInv
  Chmux.Net Chmux.NetInv Chmux.NetRecvStep Chmux.NetProofs.

(** In every reachable state without a protocol error, every connected port [p] of A (entry [cA],
    remote number [q = remote cA]) is in one of three situations ([paired_or]):
    - B's [ports[q]] is [Connected] with remote [p] (the two ports name each other);
    - B's [ports[q]] is still [Connecting] and A's [PortOpened q p] is in flight to B (A accepted B's request);
    - B has released its end: then both local halves of A's port are dropped and announced
      ([tx_dropped], [rx_dropped]), B's [SendFinish p] and [ReceiveFinish p] have each been received by A
      or are in flight to A (exactly once), and no port of B connected under number [q] names [p];
    symmetrically for every connected port of B; and on each endpoint no two connected ports have
    the same remote number. *)
Theorem C10_pairing : forall c acts,
  let n := nreach c acts in
  healthy n ->
  (forall p cA, lookup p (ports (mx (na n))) = Some (Connected cA) ->
     (exists cB, lookup (remote cA) (ports (mx (nb n))) = Some (Connected cB) /\ remote cB = p) \/
     (exists r pl, lookup (remote cA) (ports (mx (nb n))) = Some (Connecting r) /\ In (PortOpened (remote cA) p, pl) (lab n)) \/
     (tx_dropped cA = true /\ rx_dropped cA = true /\
      cnt (m_sf p) (lba n) + b2n (negb (rx_open cA)) = 1 /\ cnt (m_rf p) (lba n) + b2n (rrx_dropped cA) = 1 /\
      forall cB, lookup (remote cA) (ports (mx (nb n))) = Some (Connected cB) -> remote cB <> p)) /\
  (forall q cB, lookup q (ports (mx (nb n))) = Some (Connected cB) ->
     (exists cA, lookup (remote cB) (ports (mx (na n))) = Some (Connected cA) /\ remote cA = q) \/
     (exists r pl, lookup (remote cB) (ports (mx (na n))) = Some (Connecting r) /\ In (PortOpened (remote cB) q, pl) (lba n)) \/
     (tx_dropped cB = true /\ rx_dropped cB = true /\
      cnt (m_sf q) (lab n) + b2n (negb (rx_open cB)) = 1 /\ cnt (m_rf q) (lab n) + b2n (rrx_dropped cB) = 1 /\
      forall cA, lookup (remote cB) (ports (mx (na n))) = Some (Connected cA) -> remote cA <> q)) /\
  (forall p1 p2 c1 c2, lookup p1 (ports (mx (na n))) = Some (Connected c1) -> lookup p2 (ports (mx (na n))) = Some (Connected c2) ->
     remote c1 = remote c2 -> p1 = p2) /\
  (forall q1 q2 c1 c2, lookup q1 (ports (mx (nb n))) = Some (Connected c1) -> lookup q2 (ports (mx (nb n))) = Some (Connected c2) ->
     remote c1 = remote c2 -> q1 = q2).
Proof. exact pairing. Qed.

(** Two ports that name each other are connected to each other and to no other port. *)
Theorem C10_paired_exclusive : forall c acts p q cA cB,
  let n := nreach c acts in
  healthy n ->
  lookup p (ports (mx (na n))) = Some (Connected cA) -> remote cA = q ->
  lookup q (ports (mx (nb n))) = Some (Connected cB) -> remote cB = p ->
  (forall p' c', lookup p' (ports (mx (na n))) = Some (Connected c') -> remote c' = q -> p' = p) /\
  (forall q' c', lookup q' (ports (mx (nb n))) = Some (Connected c') -> remote c' = p -> q' = q).
Proof. exact paired_exclusive. Qed.

(** The whole cross-endpoint invariant ([Chmux/NetInv.v]: per port number, what is in the peer's
    table, among its outstanding requests and in flight; FIFO order of finish frames before a
    number is reintroduced) holds in every reachable state without a protocol error. *)
Theorem C10_composed_invariant : forall c acts, healthy (nreach c acts) -> NetInv (nreach c acts).
Proof. exact NetInv_reach. Qed.

(** Protocol errors between honest endpoints.  If no protocol error has occurred so far, then
    whatever the next action is, an endpoint that ends with a protocol error in it does so with an
    error of the quantity class ([flow_class]: chunk size, receive-buffer overdraw, port-batch size, empty
    port batch, credit overflow, listener-queue overflow): the sending side of this endpoint model
    carries neither the port credits (they are the subject of C02/[PortFlow.v]) nor the
    connect-request credit of [client.rs].  Every error about the STATE of a port or request
    (Reset, Hello, OpenTwice, NotConnecting, DataNotConnected, PortDataNotConnected, PortTwice,
    CreditsNotConnected, SendFinishTwice/NotConnected, RecvCloseTwice/NotConnected,
    RecvFinishNotConnected) is impossible: every frame one endpoint emits finds the other endpoint's
    table in a state that accepts it. *)
Theorem C10_honest_errors_are_quantity_errors : forall c acts a err,
  healthy (nreach c acts) ->
  dead (na (nstep (nreach c acts) a)) = Some err \/ dead (nb (nstep (nreach c acts) a)) = Some err ->
  flow_class err = true.
Proof. exact first_error_flow. Qed.

(** Both endpoints keep their local well-formedness in every reachable state of the composition
    (protocol errors or not): in particular no panic site of either dispatcher is reachable. *)
Theorem C10_composed_wellformed : forall c acts,
  WF (na (nreach c acts)) /\ WF (nb (nreach c acts)).
Proof. exact WF_net. Qed.

(** Non-vacuity.  A connects from port 5, B accepts with port 9: while [PortOpened 5 9] is in flight B's
    port is connected and A's still connecting (second situation, seen from B); after delivery the
    ports name each other; data flows; everything is dropped on both sides and A's frames reach B
    first: B releases 9 while A's entry 5 still waits for B's finish frames (third situation); after
    their delivery both tables are empty, and the numbers can be used again. *)
Definition cfg_ex : ncfg := mk_ncfg 100 1000 4 8 100 1000 4 8.
Definition open_ex : list nact :=
  [Loc SA (UConnect 5 5 true 1); Loc SA DConn; Deliver SA; Loc SB (UListenerTake 5); Loc SB (UAccept 5 9); Loc SB DPort].
Definition close_ex : list nact :=
  [Loc SA (USendData 5 true true 3); Loc SA DPort; Deliver SA;
   Loc SA (UDropTx 5); Loc SA (NTx 5); Loc SA DPort; Loc SA (UDropRx 5); Loc SA (NRx 5); Loc SA DPort;
   Loc SB (UDropTx 9); Loc SB (NTx 9); Loc SB DPort; Loc SB (UDropRx 9); Loc SB (NRx 9); Loc SB DPort;
   Deliver SA; Deliver SA].
Example C10b_nonvacuous :
  let n1 := nreach cfg_ex open_ex in
  let n2 := nreach cfg_ex (open_ex ++ [Deliver SB]) in
  let n3 := nreach cfg_ex (open_ex ++ [Deliver SB] ++ close_ex) in
  let n4 := nreach cfg_ex (open_ex ++ [Deliver SB] ++ close_ex ++ [Deliver SB; Deliver SB]) in
  (healthy n1 /\ lookup 5 (ports (mx (na n1))) = Some (Connecting 1) /\ map fst (lba n1) = [PortOpened 5 9] /\
   exists cB, lookup 9 (ports (mx (nb n1))) = Some (Connected cB) /\ remote cB = 5) /\
  (healthy n2 /\ lookup 1 (connects (na n2)) = Some (CResolved (RAccepted 5 9)) /\
   (exists cA, lookup 5 (ports (mx (na n2))) = Some (Connected cA) /\ remote cA = 9) /\
   (exists cB, lookup 9 (ports (mx (nb n2))) = Some (Connected cB) /\ remote cB = 5)) /\
  (healthy n3 /\ ports (mx (nb n3)) = [] /\ alloc (nb n3) = [] /\ map fst (lba n3) = [SendFinish 5; ReceiveFinish 5] /\
   exists cA, lookup 5 (ports (mx (na n3))) = Some (Connected cA) /\ tx_dropped cA = true /\ rx_dropped cA = true) /\
  (healthy n4 /\ ports (mx (na n4)) = [] /\ ports (mx (nb n4)) = [] /\ alloc (na n4) = [] /\ lab n4 = [] /\ lba n4 = []).
Proof. vm_compute. repeat split; try reflexivity; eexists; repeat split; reflexivity. Qed.

(** The quantity errors do occur in this model (its sending side has no credit accounting): with
    [connect_queue = 1] three unanswered connect requests overflow B's listener queue; a payload
    larger than B's chunk size is refused.  (In the code the first is prevented by the
    [ConnectRequestCrediter] semaphore of [client.rs], the second by the sender's chunking; see
    DESIGN.md section 5, C10/C02.) *)
Example C10b_quantity_errors_reachable_in_model :
  let c := mk_ncfg 100 1000 1 8 100 1000 1 8 in
  let n1 := nreach c [Loc SA (UConnect 1 1 true 1); Loc SA (UConnect 2 2 true 2); Loc SA (UConnect 3 3 true 3);
                      Loc SA DConn; Loc SA DConn; Loc SA DConn; Deliver SA; Deliver SA; Deliver SA] in
  let n2 := nreach cfg_ex (open_ex ++ [Deliver SB; Loc SA (USendData 5 true true 101); Loc SA DPort; Deliver SA]) in
  dead (nb n1) = Some PTooManyOpen /\ dead (nb n2) = Some PChunkSize.
Proof. vm_compute. split; reflexivity. Qed.

Print Assumptions C10_pairing.
Print Assumptions C10_paired_exclusive.
Print Assumptions C10_composed_invariant.
Print Assumptions C10_honest_errors_are_quantity_errors.
Print Assumptions C10_composed_wellformed.
Print Assumptions C10b_quantity_errors_reachable_in_model.
