(** Every state visited by the big-step runner of component 14 is reachable by small steps of
    [Robs/Mirror.v] (resp. [Robs/ListDist.v]), so the C14 theorems apply to what is compared with the
    implementation. *)
From Remoc Require Import Lib.Base Rch.Broadcast Robs.Mirror Robs.ListDist Run.RunRobsLag.

Section Sound.
  Variable I : iface.
  Definition Reach (s s' : mstate I) : Prop := exists acts, run I acts s = Some s'.

  Lemma Reach_refl s : Reach s s.
  Proof. exact (oreach_refl (step I) s). Qed.
  Lemma Reach_trans s1 s2 s3 : Reach s1 s2 -> Reach s2 s3 -> Reach s1 s3.
  Proof. exact (oreach_trans (step I) s1 s2 s3). Qed.
  Lemma Reach_try_step s a : Reach s (try_step I s a).
  Proof. exact (oreach_try (step I) s a). Qed.
  Lemma Reach_try_steps acts s : Reach s (try_steps I acts s).
  Proof. exact (oreach_trys (step I) acts s). Qed.
  Lemma Reach_fold {A} (f : mstate I -> A -> mstate I) (l : list A) :
    (forall s x, Reach s (f s x)) -> forall s, Reach s (fold_left f l s).
  Proof. exact (oreach_fold (step I) f l). Qed.

  Lemma Reach_call s o : Reach s (call I s o).
  Proof. unfold call. eapply Reach_trans; [apply Reach_try_step|apply Reach_try_steps]. Qed.
  Lemma Reach_quiesce_one s j : Reach s (quiesce_one I s j).
  Proof. unfold quiesce_one. eapply Reach_trans; [apply Reach_try_steps|]. eapply Reach_trans; [apply Reach_try_steps|apply Reach_try_steps]. Qed.
  Lemma Reach_quiesce_all s : Reach s (quiesce_all I s).
  Proof. unfold quiesce_all. apply Reach_fold. apply Reach_quiesce_one. Qed.
  Lemma Reach_drain s : Reach s (drain_mirrors I s).
  Proof.
    unfold drain_mirrors. apply Reach_fold. intros s0 i. destruct (nth_error (rsubs s0) i) as [r|]; [|apply Reach_refl].
    destruct (r_mirror r); [apply Reach_try_steps|apply Reach_refl].
  Qed.
  Lemma Reach_settle s : Reach s (settle I s).
  Proof.
    unfold settle. assert (H : forall s0, Reach s0 (drain_mirrors I (quiesce_all I s0))).
    { intros s0. eapply Reach_trans; [apply Reach_quiesce_all|apply Reach_drain]. }
    eapply Reach_trans; [apply H|]. eapply Reach_trans; [apply H|]. eapply Reach_trans; [apply H|apply H].
  Qed.

  Variable dec_ops : list N -> option (list (iOp I)).
  Lemma big_sound s b s' : big I dec_ops s b = Some s' -> Reach s s'.
  Proof.
    destruct b as [xs|m i c mx|k n| |k]; cbn [big]; intros H.
    - destruct (dec_ops xs) as [ops|]; [|discriminate]. injection H as <-.
      eapply Reach_trans; [apply (Reach_fold (call I) ops); apply Reach_call|apply Reach_settle].
    - injection H as <-. eapply Reach_trans; [apply Reach_try_step|apply Reach_settle].
    - injection H as <-. eapply Reach_trans; [|apply Reach_settle].
      apply (Reach_fold (fun s0 (_ : unit) => try_step I (settle I s0) (ARecv I (N.to_nat k)))).
      intros s0 _. eapply Reach_trans; [apply Reach_settle|apply Reach_try_step].
    - injection H as <-. eapply Reach_trans; [apply Reach_try_step|apply Reach_settle].
    - injection H as <-. eapply Reach_trans; [apply Reach_try_step|apply Reach_settle].
  Qed.

  Lemma bigs_sound bs : forall s s', bigs I dec_ops bs s = Some s' -> Reach s s'.
  Proof.
    induction bs as [|b r IH]; intros s s' H; cbn [bigs] in H.
    - injection H as <-. apply Reach_refl.
    - destruct (big I dec_ops s b) as [s1|] eqn:Hb; [|discriminate].
      eapply Reach_trans; [eapply big_sound; eauto|now apply IH].
  Qed.
End Sound.

Definition LReach (s s' : lstate) : Prop := exists acts, lrun acts s = Some s'.
Lemma LReach_refl s : LReach s s.
Proof. exact (oreach_refl lstep s). Qed.
Lemma LReach_trans s1 s2 s3 : LReach s1 s2 -> LReach s2 s3 -> LReach s1 s3.
Proof. exact (oreach_trans lstep s1 s2 s3). Qed.
Lemma LReach_try s a : LReach s (ltry s a).
Proof. exact (oreach_try lstep s a). Qed.
Lemma LReach_trys acts s : LReach s (ltrys acts s).
Proof. exact (oreach_trys lstep acts s). Qed.
Lemma LReach_round ms s : LReach s (lround ms s).
Proof.
  unfold lround. do 4 (eapply LReach_trans; [apply LReach_trys|]). apply LReach_trys.
Qed.
Lemma LReach_settle f : forall ms s, LReach s (lsettle f ms s).
Proof. induction f as [|f IH]; intros ms s; cbn [lsettle]; [apply LReach_refl|]. eapply LReach_trans; [apply LReach_round|apply IH]. Qed.

Lemma lbig_sound st b st' : lbig st b = Some st' -> LReach (fst st) (fst st').
Proof.
  destruct st as [s ms]. destruct b as [xs|m i c mx|k n| |k]; cbn [lbig fst]; intros H.
  - destruct (list_ops (S (length xs)) xs) as [acts|]; [|discriminate]. injection H as <-. cbn [fst].
    eapply LReach_trans; [apply LReach_trys|apply LReach_settle].
  - destruct (palive s); injection H as <-; cbn [fst]; [eapply LReach_trans; [apply LReach_try|apply LReach_settle]|apply LReach_settle].
  - injection H as <-. cbn [fst]. eapply LReach_trans; [|apply LReach_settle].
    apply (oreach_fold lstep). intros s0 _. eapply LReach_trans; [apply LReach_settle|apply LReach_try].
  - injection H as <-. cbn [fst]. eapply LReach_trans; [apply LReach_try|apply LReach_settle].
  - injection H as <-. cbn [fst]. eapply LReach_trans; [apply LReach_try|apply LReach_settle].
Qed.

Lemma lbigs_sound bs : forall st st', lbigs bs st = Some st' -> LReach (fst st) (fst st').
Proof.
  induction bs as [|b r IH]; intros st st' H; cbn [lbigs] in H.
  - injection H as <-. apply LReach_refl.
  - destruct (lbig st b) as [st1|] eqn:Hb; [|discriminate].
    eapply LReach_trans; [eapply lbig_sound; eauto|now apply IH].
Qed.
